(* C04 - inbound in-order / exactly-once / never past a gap: one-step lemmas about
   _process_message and their lifting over histories. *)
From Coq Require Import ZArith NArith List Bool Lia ZifyBool Sorting.Sorted.
From AF Require Import Base.Sx Py.Str Fix.Session Lemmas.SessionL.
Import ListNotations.
Open Scope Z_scope.
Definition keeps {A} (I : world -> Prop) (c : M A) : Prop := forall w, I w -> I (rw (c w)).

Lemma keeps_ret {A} I (a : A) : keeps I (ret a).
Proof. intros w H; exact H. Qed.
Lemma keeps_raise {A} I x : keeps I (@raise A x).
Proof. intros w H; exact H. Qed.
Lemma keeps_getw I : keeps I getw.
Proof. intros w H; exact H. Qed.
Lemma keeps_emit I e : keeps I (emit e).
Proof. intros w H; exact H. Qed.
Lemma keeps_lift {A} I (v : A + exn) : keeps I (lift v).
Proof. destruct v; intros w H; exact H. Qed.
Lemma keeps_modw (I : world -> Prop) g : (forall w, I w -> I (g w)) -> keeps I (modw g).
Proof. intros H w Hw. apply H, Hw. Qed.
Lemma keeps_bind {A B} I (c : M A) (k : A -> M B) :
  keeps I c -> (forall a, keeps I (k a)) -> keeps I (bind c k).
Proof.
  intros Hc Hk w Hw. rewrite bind_unfold. destruct (rv (c w)); cbn [rw]; [apply Hk|]; apply Hc, Hw.
Qed.
Lemma keeps_finally {A} I (c : M A) (g : M unit) : keeps I c -> keeps I g -> keeps I (finally_ c g).
Proof. intros Hc Hg w Hw. unfold finally_. destruct (rv (g (rw (c w)))); cbn [rw]; apply Hg, Hc, Hw. Qed.
Lemma keeps_try {A} I (c : M A) : keeps I c -> keeps I (try_ c).
Proof. intros H w Hw. unfold try_. destruct (rv (c w)); cbn [rw]; apply H, Hw. Qed.
(* a projection that is preserved keeps every invariant stated through it *)
Lemma keeps_pres {A X} (f : world -> X) (Q : X -> Prop) (c : M A) :
  pres f c -> keeps (fun w => Q (f w)) c.
Proof. intros H w Hw. now rewrite H. Qed.

(* reading the world: the continuation runs in the world it was given *)
Lemma keeps_bind_getw {B} (I : world -> Prop) (k : world -> M B) :
  (forall w, I w -> I (rw (k w w))) -> keeps I (bind getw k).
Proof. intros H w Hw. rewrite bind_getw. apply H, Hw. Qed.
(* binding a pure value: the continuation may use that it was the value *)
Lemma keeps_bind_lift {A B} (I : world -> Prop) (v : A + exn) (k : A -> M B) :
  (forall a, v = inl a -> keeps I (k a)) -> keeps I (bind (lift v) k).
Proof. intros H w Hw. rewrite bind_lift. destruct v as [a|x]; [apply H; auto | exact Hw]. Qed.

(* along the syntax, stopping at what a hypothesis covers; a modw must leave the invariant convertible, a call must be
   a hypothesis or a hint *)
Create HintDb keeps discriminated.
Ltac keeps_step :=
  match goal with
  | H : keeps ?I ?c |- keeps ?I ?c => exact H
  | |- keeps _ (bind _ _) => apply keeps_bind; [|intros ?]
  | |- keeps _ (ret _) => apply keeps_ret
  | |- keeps _ (raise _) => apply keeps_raise
  | |- keeps _ getw => apply keeps_getw
  | |- keeps _ (emit _) => apply keeps_emit
  | |- keeps _ (lift _) => apply keeps_lift
  | |- keeps _ (try_ _) => apply keeps_try
  | |- keeps _ (modw _) => apply keeps_modw; intros ? ?; assumption
  | |- keeps _ (if ?c then _ else _) => destruct c
  | |- keeps _ (match ?x with _ => _ end) => destruct x
  | |- keeps _ _ => solve [eauto with keeps]
  end.
Ltac keeps_tac := repeat keeps_step.

(* the larger handlers keep what their parts keep *)
Lemma replay_loop_keeps I c :
  (forall m, keeps I (send_msg c m)) -> forall rows a b, keeps I (replay_loop c rows a b).
Proof.
  intros Hs. induction rows as [|r rows IH]; intros a b; cbn [replay_loop]; cbv zeta; keeps_tac.
Qed.

Lemma part1_keeps I c m :
  keeps I (disconnect c ST_DISC_BROKEN None) -> (forall w0, keeps I (pre_handlers c m w0)) ->
  keeps I (gap_check c m) -> keeps I (part1 c m).
Proof. intros H1 H2 H3. unfold part1. keeps_tac. Qed.

Lemma process_message_keeps I c m now :
  (forall lm, keeps I (disconnect c ST_DISC_BROKEN lm)) -> keeps I (part1 c m) ->
  (forall v, keeps I (dispatch c m v)) -> keeps I (finalize m now) -> keeps I (process_message c m now).
Proof.
  intros H1 H2 H3 H4 w. unfold process_message. destruct (validate_integrity c m w); try apply H1; [|auto].
  revert w. change (keeps I (r1 <- try_ (part1 c m) ;; after_part1 c m now r1)). unfold after_part1. keeps_tac.
Qed.
Definition dead (w : world) : Prop := st w <= ST_DISC_BROKEN.

Lemma send_msg_keeps_st c m (Q : Z -> Prop) :
  (Q ST_NCE -> Q ST_LOGON_SENT) -> keeps (fun w => Q (st w)) (send_msg c m).
Proof.
  intros H w Hw. destruct (send_msg_st c m w) as [E|[E1 E2]]; [now rewrite E|].
  rewrite E2. apply H. now rewrite <- E1.
Qed.

Definition aw_or_dead (w : world) : Prop := st w = ST_AWAITING \/ dead w.

Lemma state_set_keeps_dead_target (I : world -> Prop) s :
  (forall w, I (set_st s w)) -> (forall w v, I w -> I (set_wasact v w)) -> keeps I (state_set s).
Proof.
  intros H1 H2 w Hw. rewrite state_set_nf. cbn [rw]. destruct (s =? ST_ACTIVE); auto.
Qed.

(* disconnect() ends in the state asked for, unless the connection was down already or the Logout could not be sent *)
Lemma disconnect_keeps_st c ds lm (Q : Z -> Prop) :
  (Q ST_NCE -> Q ST_LOGON_SENT) -> (ds <= ST_DISC_BROKEN -> Q ds) -> keeps (fun w => Q (st w)) (disconnect c ds lm).
Proof.
  intros H1 H2 w Hw. rewrite disconnect_nf. destruct (st w <=? ST_DISC_BROKEN); [exact Hw|].
  destruct (ds <=? ST_DISC_BROKEN) eqn:E; [|exact Hw]. cbv zeta.
  match goal with |- context [match rv ?r with _ => _ end] =>
    assert (Hr : Q (st (rw r))); [|destruct (rv r); [apply H2; lia|exact Hr]] end.
  destruct lm; [apply (send_msg_keeps_st c _ Q H1)|]; exact Hw.
Qed.

Lemma send_msg_keeps_aw c m : keeps aw_or_dead (send_msg c m).
Proof. apply (send_msg_keeps_st c m (fun s => s = ST_AWAITING \/ s <= ST_DISC_BROKEN)). stlia. Qed.

Lemma disconnect_keeps_aw c lm : keeps aw_or_dead (disconnect c ST_DISC_BROKEN lm).
Proof. apply (disconnect_keeps_st c _ lm (fun s => s = ST_AWAITING \/ s <= ST_DISC_BROKEN)); stlia. Qed.

Lemma disconnect_dead c ds lm w :
  ds <= ST_DISC_BROKEN -> rv (disconnect c ds lm w) = inl tt -> dead (rw (disconnect c ds lm w)).
Proof.
  intros Hds. rewrite disconnect_nf. unfold dead. destruct (st w <=? ST_DISC_BROKEN) eqn:E; [intros _; cbn [rw]; lia|].
  destruct (ds <=? ST_DISC_BROKEN); [|discriminate]. cbv zeta.
  match goal with |- context [match rv ?r with _ => _ end] => destruct (rv r) end; [intros _; exact Hds|discriminate].
Qed.

Lemma disconnect_none_dead c ds w : ds <= ST_DISC_BROKEN -> dead (rw (disconnect c ds None w)).
Proof.
  intros Hds. rewrite disconnect_nf. unfold dead. destruct (st w <=? ST_DISC_BROKEN) eqn:E; [cbn [rw]; lia|].
  destruct (ds <=? ST_DISC_BROKEN) eqn:E2; [exact Hds|lia].
Qed.

Lemma process_logout_dead c m w : dead (rw (process_logout c m w)).
Proof.
  unfold process_logout. rewrite bind_getw, bind_unfold. cbn [emit rv rw].
  apply disconnect_none_dead. destruct (wasact w); stlia.
Qed.
Lemma kind_resend_noreply t : is_resend (mkMsg t []) = true -> is_noreply t = true.
Proof. unfold is_resend, is_noreply, mkind. cbn. destruct (kind_of t); congruence. Qed.

Lemma is_resend_tags t tags tags' : is_resend (mkMsg t tags) = is_resend (mkMsg t tags').
Proof. reflexivity. Qed.

Lemma logon_not_resend tags : is_resend (mkMsg MT_LOGON tags) = false. Proof. reflexivity. Qed.
Lemma logout_not_resend tags : is_resend (mkMsg MT_LOGOUT tags) = false. Proof. reflexivity. Qed.
Lemma heartbeat_not_resend tags : is_resend (mkMsg MT_HEARTBEAT tags) = false. Proof. reflexivity. Qed.
Lemma seqreset_not_resend tags : is_resend (mkMsg MT_SEQUENCERESET tags) = false. Proof. reflexivity. Qed.

Lemma get_T7_wire c seq v tags :
  get T7 (wire_tags c seq (mkMsg MT_RESENDREQUEST [(T7, v); (T16, tags)])) = Some v.
Proof. reflexivity. Qed.

Lemma get_T16_wire c seq v tags :
  get T16 (wire_tags c seq (mkMsg MT_RESENDREQUEST [(T7, v); (T16, tags)])) = Some tags.
Proof. reflexivity. Qed.

Lemma journal_tail_no_wire (m : msg) (n : Z) (wm : msg) w :
  wires (re ((if skip_journal m then ret tt else persist_out n wm) w)) = [].
Proof.
  destruct (skip_journal m); [reflexivity|]. apply wires_nil. apply persist_out_allev.
Qed.

Lemma not_resend_wire t tags : t <> MT_RESENDREQUEST -> not_resend (Wire (mkMsg t tags)).
Proof.
  intros Ht. unfold not_resend, is_resend, mkind, kind_of. cbn [mtype].
  destruct (str_eqb t MT_LOGON), (str_eqb t MT_SEQUENCERESET), (str_eqb t MT_LOGOUT); try reflexivity.
  destruct (str_eqb t MT_RESENDREQUEST) eqn:E; [apply StrB.str_eqb_eq in E; contradiction|].
  destruct (str_eqb t MT_TESTREQUEST), (str_eqb t MT_HEARTBEAT); reflexivity.
Qed.

(* the ResendRequests among the events: none, or one that asks from n on *)
Definition one_resend (n : Z) (evs : list event) : Prop :=
  resends evs = [] \/
  exists rr, resends evs = [rr] /\ get T7 (mtags rr) = Some (z_to_dec n) /\ get T16 (mtags rr) = Some S_0.

Lemma one_resend_app_r n a b : resends b = [] -> one_resend n a -> one_resend n (a ++ b).
Proof. intros Hb. unfold one_resend. rewrite resends_app, Hb, app_nil_r. auto. Qed.

(* the exact refusal condition of the TestRequest gate *)
Definition treq_refuses (m : msg) (w : world) : bool :=
  match mkind m with
  | KTestReq => match treq w with
                | None => true
                | Some t => match get T112 (mtags m) with Some v => negb (str_eqb v (z_to_dec t)) | None => true end
                end
  | _ => false
  end.

Lemma treq_open_spec m w : treq_open m w = negb (treq_refuses m w).
Proof.
  unfold treq_open, passes, treq_gate, treq_refuses. destruct (mkind m), (treq w); try reflexivity.
  destruct (get T112 (mtags m)) as [v|]; [destruct (str_eqb v _)|]; reflexivity.
Qed.
Lemma check_gaps_nf c n w :
  check_gaps c n w =
  if nin w <? n then
    if st w =? ST_AWAITING then mkR (inl false) w []
    else
      let r := send_msg c (mkMsg MT_RESENDREQUEST [(T7, z_to_dec (nin w)); (T16, S_0)]) (set_maxres n w) in
      match rv r with
      | inl _ => mkR (inl false) (set_st ST_AWAITING (rw r)) (re r ++ [State ST_AWAITING])
      | inr x => mkR (inr x) (rw r) (re r)
      end
  else mkR (inl true) w [].
Proof.
  unfold check_gaps. rewrite bind_getw. destruct (nin w <? n); [|reflexivity].
  rewrite bind_unfold. destruct (st w =? ST_AWAITING); [reflexivity|]. cbn [negb]. cbv zeta.
  rewrite bind_modw, bind_unfold.
  destruct (rv (send_msg c _ (set_maxres n w))); [|reflexivity].
  rewrite state_set_nf. cbn [rv rw re ret]. rewrite app_nil_r. reflexivity.
Qed.

Lemma check_gaps_true c n w :
  rv (check_gaps c n w) = inl true -> n <= nin w /\ check_gaps c n w = mkR (inl true) w [].
Proof.
  rewrite check_gaps_nf. destruct (nin w <? n) eqn:E; [|intros _; split; [lia|reflexivity]].
  destruct (st w =? ST_AWAITING); [discriminate|]. cbv zeta. destruct (rv (send_msg c _ _)); discriminate.
Qed.

Lemma check_gaps_false c n w : rv (check_gaps c n w) = inl false -> st (rw (check_gaps c n w)) = ST_AWAITING.
Proof.
  rewrite check_gaps_nf. destruct (nin w <? n); [|discriminate].
  destruct (st w =? ST_AWAITING) eqn:E; [intros _; cbn [rw]; lia|]. cbv zeta.
  destruct (rv (send_msg c _ _)); [reflexivity|discriminate].
Qed.

(* at most one ResendRequest, from the expected number; none while one is awaited *)
Lemma check_gaps_resend c n w :
  one_resend (nin w) (re (check_gaps c n w)) /\ (st w = ST_AWAITING -> re (check_gaps c n w) = []).
Proof.
  rewrite check_gaps_nf. destruct (nin w <? n); [|split; [left|]; reflexivity].
  destruct (st w =? ST_AWAITING) eqn:E; [split; [left|]; reflexivity|]. split; [|lia]. cbv zeta.
  assert (H : one_resend (nin w) (re (send_msg c (mkMsg MT_RESENDREQUEST [(T7, z_to_dec (nin w)); (T16, S_0)]) (set_maxres n w)))).
  { unfold one_resend, resends. destruct (send_msg_wires c (mkMsg MT_RESENDREQUEST [(T7, z_to_dec (nin w)); (T16, S_0)]) (set_maxres n w)) as [H|[seq H]];
      rewrite H; [left; reflexivity|]. right. eexists. split; [reflexivity|]. split; reflexivity. }
  destruct (rv (send_msg c _ _)); cbn [re]; [apply one_resend_app_r; [reflexivity|exact H]|exact H].
Qed.

Lemma check_gaps_aw c n : keeps aw_or_dead (check_gaps c n).
Proof.
  intros w Hw. rewrite check_gaps_nf. destruct (nin w <? n); [|exact Hw].
  destruct (st w =? ST_AWAITING); [exact Hw|]. cbv zeta.
  destruct (rv (send_msg c _ _)); cbn [rw]; [left; reflexivity|].
  apply send_msg_keeps_aw, Hw.
Qed.

Lemma gap_check_nf c m w :
  gap_check c m w =
  if st w <=? ST_DISC_BROKEN then mkR (inl None) w []
  else match get_int T34 m with
       | inl n => let r := check_gaps c n w in
                  mkR (match rv r with inl b => inl (Some b) | inr x => inr x end) (rw r) (re r)
       | inr x => mkR (inr x) w []
       end.
Proof.
  unfold gap_check. rewrite bind_getw. destruct (st w <=? ST_DISC_BROKEN); [reflexivity|].
  rewrite bind_lift. destruct (get_int T34 m) as [n|x]; [|reflexivity].
  rewrite bind_unfold. cbv zeta. destruct (rv (check_gaps c n w)); [|reflexivity].
  cbn [ret rv rw re]. rewrite app_nil_r. reflexivity.
Qed.

Lemma gap_check_dead c m w : dead w -> gap_check c m w = mkR (inl None) w [].
Proof. intros H. rewrite gap_check_nf. unfold dead in H. destruct (st w <=? ST_DISC_BROKEN) eqn:E; [reflexivity|lia]. Qed.

(* is_valid_msg_num: true = nothing happened and the number is not above the expected one; false = a resend is awaited *)
Lemma gap_check_some c m w b :
  rv (gap_check c m w) = inl (Some b) ->
  ~ dead w /\ if b then gap_check c m w = mkR (inl (Some true)) w [] /\ exists n, get_int T34 m = inl n /\ n <= nin w
              else st (rw (gap_check c m w)) = ST_AWAITING.
Proof.
  rewrite gap_check_nf. unfold dead. destruct (st w <=? ST_DISC_BROKEN) eqn:E; [discriminate|].
  destruct (get_int T34 m) as [n|x]; [|discriminate]. cbv zeta.
  pose proof (check_gaps_true c n w) as Ht. pose proof (check_gaps_false c n w) as Hf.
  destruct (rv (check_gaps c n w)) as [b'|x]; [|discriminate]. cbn [rv]. intros H. assert (b' = b) by congruence. subst b'.
  split; [lia|]. destruct b; cbn [rw]; [|auto].
  destruct (Ht eq_refl) as [H1 H2]. rewrite H2. split; [reflexivity|eauto].
Qed.

Lemma gap_check_resend c m w :
  one_resend (nin w) (re (gap_check c m w)) /\ (aw_or_dead w -> re (gap_check c m w) = []).
Proof.
  rewrite gap_check_nf. unfold aw_or_dead, dead. destruct (st w <=? ST_DISC_BROKEN) eqn:E; [split; [left|]; reflexivity|].
  destruct (get_int T34 m) as [n|x]; [|split; [left|]; reflexivity]. cbv zeta. cbn [re].
  destruct (check_gaps_resend c n w) as [H1 H2]. split; [exact H1|]. intros [H|H]; [auto|lia].
Qed.

Lemma gap_check_nin c m : pres nin (gap_check c m).
Proof. apply gap_check_writes. ignores_solve. Qed.

Lemma gap_check_aw c m : keeps aw_or_dead (gap_check c m).
Proof. pose proof (check_gaps_aw c) as H. unfold gap_check. keeps_tac. Qed.
(* the peer's Logout: counted (and journaled, as far as the journal takes it) exactly when it carries the expected
   number, then processed in any case; the counting step never raises (its exceptions are logged) *)
Lemma logout_counted_nf c m w :
  mkind m = KLogout ->
  logout_counted c m w =
  match get_int T34 m with
  | inl n => process_logout c m (if n =? nin w then rw (persist_in m (set_nin (n + 1) w)) else w)
  | inr x => mkR (inr x) w []
  end.
Proof.
  intros Hk. unfold logout_counted. rewrite bind_lift. destruct (get_int T34 m) as [n|x] eqn:En; [|reflexivity].
  rewrite bind_getw, bind_unfold. destruct (n =? nin w) eqn:E; [|apply res_eta].
  rewrite bind_try, (bind_eq _ _ _ n (set_nin (n + 1) w) []).
  2:{ rewrite (set_next_num_in_nf m n w); [rewrite E; reflexivity|congruence|exact En]. }
  cbn [ret rv rw re app]. rewrite persist_in_events. apply res_eta.
Qed.

Lemma logout_counted_dead c m w :
  mkind m = KLogout -> rv (logout_counted c m w) = inl tt -> dead (rw (logout_counted c m w)).
Proof.
  intros Hk. rewrite (logout_counted_nf c m w Hk). destruct (get_int T34 m); [|discriminate].
  intros _. apply process_logout_dead.
Qed.

Lemma logout_counted_nin c m w :
  mkind m = KLogout ->
  nin (rw (logout_counted c m w)) = nin w
  \/ (get_int T34 m = inl (nin w) /\ nin (rw (logout_counted c m w)) = nin w + 1).
Proof.
  intros Hk. rewrite (logout_counted_nf c m w Hk). destruct (get_int T34 m) as [n|x]; [|left; reflexivity].
  rewrite (process_logout_writes c m _ nin); [|ignores_solve].
  destruct (n =? nin w) eqn:E; [|left; reflexivity].
  right. rewrite (persist_in_writes m _ nin); [|ignores_solve]. assert (n = nin w) by lia. subst n. auto.
Qed.

Lemma logout_counted_aw c m : mkind m = KLogout -> keeps aw_or_dead (logout_counted c m).
Proof.
  intros Hk w Hw. rewrite (logout_counted_nf c m w Hk). destruct (get_int T34 m); [|exact Hw].
  right. apply process_logout_dead.
Qed.

Lemma pre_handlers_nin c m w0 : mkind m <> KSeqReset -> mkind m <> KLogout -> pres nin (pre_handlers c m w0).
Proof.
  intros Hk Hl. rewrite pre_handlers_unfold. apply pres_bind; [apply accept_first_writes; ignores_solve|intros _].
  destruct (mkind m); try apply pres_ret; [|now elim Hk|now elim Hl]. apply process_logon_writes; ignores_solve.
Qed.

Lemma pre_handlers_aw c m w0 :
  st w0 <> ST_NCE -> mkind m <> KLogon -> keeps aw_or_dead (pre_handlers c m w0).
Proof.
  intros H6 Hk. rewrite pre_handlers_unfold. unfold accept_first. destruct (st w0 =? ST_NCE) eqn:E; [lia|].
  apply keeps_bind; [apply keeps_ret|intros _]. destruct (mkind m) eqn:Ek; try apply keeps_ret; [now elim Hk| |].
  - apply (keeps_pres st (fun s => s = ST_AWAITING \/ s <= ST_DISC_BROKEN)), process_seqreset_writes; ignores_solve.
  - apply logout_counted_aw, Ek.
Qed.
(* the guards of the try body: a state below NETWORK_CONN_ESTABLISHED is an assertion failure; a message out of place
   in the Logon exchange drops the connection *)
Lemma part1_nf c m w :
  part1 c m w =
  if st w <? ST_NCE then mkR (inr XAssertion) w []
  else if early_drop m w then
    let d := disconnect c ST_DISC_BROKEN None w in
    mkR (match rv d with inl _ => inl None | inr x => inr x end) (rw d) (re d)
  else (pre_handlers c m w ;;; gap_check c m) w.
Proof.
  unfold part1. rewrite bind_getw. destruct (st w <? ST_NCE); [reflexivity|].
  destruct (early_drop m w); [|reflexivity]. rewrite bind_unfold. cbv zeta.
  destruct (rv (disconnect c ST_DISC_BROKEN None w)); [|reflexivity]. cbn [ret rv rw re]. now rewrite app_nil_r.
Qed.

(* the peer's Logout: the acceptor prefix does not apply (a first Logout is dropped early), and after the session was
   torn down gap_check has nothing to say *)
Lemma part1_logout_nf c m w :
  mkind m = KLogout -> early_drop m w = false ->
  (pre_handlers c m w ;;; gap_check c m) w =
  mkR (match rv (logout_counted c m w) with inl _ => inl None | inr x => inr x end)
      (rw (logout_counted c m w)) (re (logout_counted c m w)).
Proof.
  intros Hk Ed. rewrite bind_unfold.
  assert (E : pre_handlers c m w w = logout_counted c m w).
  { rewrite pre_handlers_unfold, Hk. unfold accept_first.
    destruct (st w =? ST_NCE) eqn:E; [|exact (bind_ret tt (fun _ => logout_counted c m) w)].
    unfold early_drop in Ed. rewrite Hk, E in Ed. discriminate. }
  rewrite E. pose proof (logout_counted_dead c m w Hk) as Hd.
  destruct (rv (logout_counted c m w)) as [[]|x]; [|reflexivity].
  rewrite (gap_check_dead c m _ (Hd eq_refl)). cbn [rv rw re]. now rewrite app_nil_r.
Qed.

(* it never reaches the dispatcher; it is counted (+1) exactly when it carries the expected number *)
Lemma part1_logout c m w :
  mkind m = KLogout ->
  (forall b, rv (part1 c m w) <> inl (Some b))
  /\ (nin (rw (part1 c m w)) = nin w \/ (get_int T34 m = inl (nin w) /\ nin (rw (part1 c m w)) = nin w + 1)).
Proof.
  intros Hk. rewrite part1_nf. destruct (st w <? ST_NCE); [split; [discriminate|left; reflexivity]|].
  destruct (early_drop m w) eqn:Ed; [cbv zeta|rewrite (part1_logout_nf c m w Hk Ed)]; cbn [rv rw].
  - split; [intros b; destruct (rv (disconnect c ST_DISC_BROKEN None w)); discriminate|].
    left. apply disconnect_writes; ignores_solve.
  - split; [intros b; destruct (rv (logout_counted c m w)); discriminate|now apply logout_counted_nin].
Qed.

(* when the try body reaches the dispatcher: the pre-handlers returned, and the verdict is that of gap_check *)
Lemma part1_some c m w b :
  rv (part1 c m w) = inl (Some b) ->
  rv (pre_handlers c m w w) = inl tt
  /\ rv (gap_check c m (rw (pre_handlers c m w w))) = inl (Some b)
  /\ rw (part1 c m w) = rw (gap_check c m (rw (pre_handlers c m w w))).
Proof.
  rewrite part1_nf. destruct (st w <? ST_NCE); [discriminate|].
  destruct (early_drop m w); [cbv zeta; destruct (rv (disconnect c ST_DISC_BROKEN None w)); discriminate|].
  rewrite bind_unfold. destruct (rv (pre_handlers c m w w)) as [[]|x]; [auto|discriminate].
Qed.

Lemma part1_true c m w :
  rv (part1 c m w) = inl (Some true) ->
  exists n, get_int T34 m = inl n /\ n <= nin (rw (part1 c m w)) /\ mkind m <> KLogout /\ ~ dead (rw (part1 c m w)).
Proof.
  intros H. destruct (part1_some c m w true H) as [Hp [Hg Hw]].
  destruct (gap_check_some c m _ true Hg) as [Hd [E [n [Hn Hle]]]]. rewrite Hw, E. cbn [rw].
  exists n. repeat split; auto. intros Hk. now apply (proj1 (part1_logout c m w Hk) true).
Qed.

Lemma part1_false c m w : rv (part1 c m w) = inl (Some false) -> st (rw (part1 c m w)) = ST_AWAITING.
Proof.
  intros H. destruct (part1_some c m w false H) as [_ [Hg Hw]]. rewrite Hw. apply (gap_check_some c m _ false Hg).
Qed.

Lemma part1_nin c m : mkind m <> KSeqReset -> mkind m <> KLogout -> pres nin (part1 c m).
Proof.
  intros Hk Hl w. apply (part1_keeps (fun w' => nin w' = nin w)); [| | |reflexivity]; [|intros w0|];
    apply (keeps_pres nin (fun n => n = nin w)); [apply disconnect_writes; ignores_solve|now apply pre_handlers_nin|apply gap_check_nin].
Qed.

Lemma part1_not_app c m : allev not_app (part1 c m).
Proof.
  apply part1_allev; [apply disconnect_allev|intros w0; apply pre_handlers_allev|apply gap_check_allev]; cbn; auto.
Qed.

Lemma part1_from_awaiting c m w : st w = ST_AWAITING -> mkind m <> KLogon -> aw_or_dead (rw (part1 c m w)).
Proof.
  intros Hs Hk. assert (Hw : aw_or_dead w) by (left; exact Hs).
  rewrite part1_nf. destruct (st w <? ST_NCE); [exact Hw|]. destruct (early_drop m w).
  - apply disconnect_keeps_aw, Hw.
  - revert Hw. apply keeps_bind; [apply pre_handlers_aw; [stlia|exact Hk]|intros _; apply gap_check_aw].
Qed.

(* at most one ResendRequest, asking from the expected number; with it the verdict is not "valid"; none while a
   resend is awaited [unless the message is a Logon: D24] *)
Lemma part1_resend c m w :
  one_resend (nin (rw (part1 c m w))) (re (part1 c m w))
  /\ (rv (part1 c m w) = inl (Some true) -> resends (re (part1 c m w)) = [])
  /\ (st w = ST_AWAITING -> mkind m <> KLogon -> resends (re (part1 c m w)) = []).
Proof.
  rewrite part1_nf. destruct (st w <? ST_NCE) eqn:E6; [repeat split; try left; reflexivity|].
  destruct (early_drop m w); [cbv zeta; cbn [re]|rewrite bind_unfold].
  - assert (H : resends (re (disconnect c ST_DISC_BROKEN None w)) = []).
    { apply resends_nil, disconnect_allev; cbn; auto; congruence. }
    repeat split; intros; try left; exact H.
  - assert (Hp : resends (re (pre_handlers c m w w)) = []) by (apply resends_nil, pre_handlers_allev; cbn; auto).
    pose proof (fun H1 H2 => pre_handlers_aw c m w H1 H2 w) as Hpw.
    destruct (rv (pre_handlers c m w w)); cbn [rv rw re]; [|repeat split; intros; try left; auto; discriminate].
    generalize dependent (rw (pre_handlers c m w w)). intros wp Hpw.
    destruct (gap_check_resend c m wp) as [G1 G2]. rewrite resends_app, Hp.
    split; [|split].
    + rewrite (gap_check_nin c m wp). unfold one_resend. rewrite resends_app, Hp. exact G1.
    + intros Hg. destruct (gap_check_some c m wp true Hg) as [_ [E _]]. rewrite E. reflexivity.
    + intros Hs Hk. rewrite G2; [reflexivity|]. apply Hpw; [stlia|exact Hk|left; exact Hs].
Qed.
(* the dispatcher with its final `else` evaluated: on_message only for a valid number that IS the expected number *)
Lemma dispatch_nf c m v w :
  dispatch c m v w =
  match mkind m with
  | KResend => finally_ (process_resend c m) restore_handling w
  | KTestReq => process_testrequest c m w
  | KHeartbeat => process_heartbeat c m w
  | KLogout | KApp =>
      mkR (inl tt) w (if v && match get_int T34 m with inl n => n =? nin w | inr _ => false end then [App m] else [])
  | KSeqReset | KLogon => mkR (inl tt) w []
  end.
Proof.
  unfold dispatch. destruct (mkind m); try reflexivity;
    (destruct v; [|reflexivity]; rewrite bind_getw; destruct (get_int T34 m) as [n|x]; [destruct (n =? nin w)|]; reflexivity).
Qed.

Lemma dispatch_apps c m v w :
  apps (re (dispatch c m v w)) = [] \/
  (apps (re (dispatch c m v w)) = [m] /\ v = true /\ get_int T34 m = inl (nin w)
   /\ (mkind m = KApp \/ mkind m = KLogout)).
Proof.
  rewrite dispatch_nf. destruct (mkind m) eqn:Ek; try (left; reflexivity).
  2: left; apply apps_nil, allev_finally; [apply process_resend_allev|apply restore_handling_allev]; cbn; auto.
  2: left; apply apps_nil, process_testrequest_allev; cbn; auto.
  2: left; apply apps_nil, process_heartbeat_allev; cbn; auto.
  all: cbn [re]; destruct v; [|left; reflexivity]; destruct (get_int T34 m) as [n|x]; [|left; reflexivity];
    destruct (n =? nin w) eqn:E; [|left; reflexivity]; right; assert (n = nin w) by lia; subst n; auto.
Qed.

Lemma dispatch_not_resend c m v : allev not_resend (dispatch c m v).
Proof. apply dispatch_allev; cbn; auto. intros t tags. apply not_resend_wire. Qed.

Lemma dispatch_nin c m v : pres nin (dispatch c m v).
Proof. apply dispatch_writes. ignores_solve. Qed.

Lemma replay_loop_aw c rows : forall a b, keeps aw_or_dead (replay_loop c rows a b).
Proof. apply replay_loop_keeps, send_msg_keeps_aw. Qed.

(* a heartbeat either clears the pending probe or drops the connection *)
Lemma process_heartbeat_keeps_st c m (Q : Z -> Prop) :
  (Q ST_NCE -> Q ST_LOGON_SENT) -> Q ST_DISC_BROKEN -> keeps (fun w => Q (st w)) (process_heartbeat c m).
Proof.
  intros H1 H2. pose proof (fun lm => disconnect_keeps_st c ST_DISC_BROKEN lm Q H1 (fun _ => H2)) as Hd.
  unfold process_heartbeat. keeps_tac.
Qed.

Definition awaiting (w : world) : Prop := st w = ST_AWAITING.

(* process_resend entered in RESENDREQ_AWAITING leaves the state alone *)
Lemma process_resend_awaiting c m : keeps awaiting (process_resend c m).
Proof.
  assert (Hs : forall m', keeps awaiting (send_msg c m')) by (intros; apply (send_msg_keeps_st c _ (fun s => s = ST_AWAITING)); stlia).
  pose proof (replay_loop_keeps awaiting c Hs) as Hl.
  assert (Hr : forall a b, keeps awaiting (recover_out a b)).
  { intros. apply (keeps_pres st (fun s => s = ST_AWAITING)), recover_out_writes. exact I. }
  (* neither its first nor its last statement sets a state then *)
  assert (He : keeps awaiting (w2 <- getw ;; if negb (st w2 =? ST_AWAITING) then state_set ST_ACTIVE else ret tt)).
  { apply keeps_bind_getw. intros w2 H2. unfold awaiting in H2. rewrite H2. exact H2. }
  unfold process_resend. apply keeps_bind_getw. intros w0 H0.
  match goal with |- awaiting (rw (?k w0)) => assert (Hk : keeps awaiting k); [|apply Hk; exact H0] end.
  unfold awaiting in H0. rewrite H0. cbn [Z.eqb ST_AWAITING Pos.eqb negb]. keeps_tac.
Qed.

Lemma dispatch_from_awaiting c m v w : awaiting w -> aw_or_dead (rw (dispatch c m v w)).
Proof.
  intros Hw. assert (Ha : aw_or_dead w) by (left; exact Hw).
  rewrite dispatch_nf. destruct (mkind m); try exact Ha.
  - left. apply keeps_finally; [apply process_resend_awaiting| |exact Hw].
    unfold restore_handling. apply keeps_bind_getw. intros w0 H0. unfold awaiting in H0.
    destruct (st w0 =? ST_HANDLING) eqn:E; [stlia|exact H0].
  - apply send_msg_keeps_aw, Ha.
  - apply (process_heartbeat_keeps_st c m (fun s => s = ST_AWAITING \/ s <= ST_DISC_BROKEN)); [stlia|stlia|exact Ha].
Qed.

(* dispatch is only reached on a live connection; still, a dead one stays dead except through
   process_resend (which sets RESENDREQ_HANDLING unless a resend is awaited) *)
Lemma dispatch_dead c m v w : dead w -> mkind m <> KResend -> dead (rw (dispatch c m v w)).
Proof.
  intros Hw Hk. rewrite dispatch_nf. destruct (mkind m); try exact Hw.
  - now elim Hk.
  - apply (send_msg_keeps_st c _ (fun s => s <= ST_DISC_BROKEN)); [stlia|exact Hw].
  - apply (process_heartbeat_keeps_st c m (fun s => s <= ST_DISC_BROKEN)); [stlia|stlia|exact Hw].
Qed.
(* a message that is not a SequenceReset advances the expected number by one exactly when it carries it *)
Lemma finalize_nin m now w n :
  mkind m <> KSeqReset -> get_int T34 m = inl n ->
  nin (rw (finalize m now w)) = if n =? nin w then n + 1 else nin w.
Proof.
  intros Hk Hn. unfold finalize. rewrite bind_unfold, (set_next_num_in_nf m n w Hk Hn).
  destruct (n =? nin w); [|reflexivity]. cbn [rv rw]. destruct (n <=? 0); [reflexivity|].
  apply finalize_tail_writes. ignores_solve.
Qed.

(* where a connection that awaited a resend can be after an inbound message: still awaiting, down, or ACTIVE with the
   resend watermark reset *)
Definition closed_or (w : world) : Prop :=
  st w = ST_AWAITING \/ dead w \/ (st w = ST_ACTIVE /\ maxres w = 0).

Lemma aw_closed w : aw_or_dead w -> closed_or w.
Proof. intros [H|H]; [left|right; left]; exact H. Qed.

Lemma finalize_closes m now w : aw_or_dead w -> closed_or (rw (finalize m now w)).
Proof.
  intros Hw. destruct (finalize_st m now w) as [H|[_ H]]; [|right; right; exact H].
  apply aw_closed. unfold aw_or_dead, dead. rewrite H. exact Hw.
Qed.
Lemma validate_ok_seq c m w : validate_integrity c m w = VOk -> exists n, get_int T34 m = inl n.
Proof.
  intros V. pose proof (validate_cases c m w) as H. rewrite V in H. destruct H as [s [t [n H]]]. exists n. tauto.
Qed.

Lemma validate_ok_low c m w n :
  validate_integrity c m w = VOk -> get_int T34 m = inl n -> n < nin w -> mkind m <> KSeqReset ->
  st w = ST_AWAITING.
Proof.
  intros V Hn Hlt Hk. pose proof (validate_cases c m w) as H. rewrite V in H.
  destruct H as [s [t [n' [_ [_ [_ [_ [Hn' [H|[H|H]]]]]]]]]]; [|contradiction|exact H].
  rewrite Hn in Hn'. inversion Hn'. lia.
Qed.
(* after a passing integrity check: the try body, then (when it gave a verdict) the dispatcher under `except`, and
   _finalize_message in the `finally` of a valid number *)
Lemma process_message_ok c m now w :
  validate_integrity c m w = VOk ->
  process_message c m now w =
  match rv (part1 c m w) with
  | inl (Some v) =>
      let r2 := dispatch c m v (rw (part1 c m w)) in
      let r3 := (if v then finalize m now else ret tt) (rw r2) in
      mkR (rv r3) (rw r3) (re (part1 c m w) ++ re r2 ++ re r3)
  | _ => mkR (inl tt) (rw (part1 c m w)) (re (part1 c m w))
  end.
Proof.
  intros V. unfold process_message. rewrite V, bind_try. cbv zeta.
  destruct (rv (part1 c m w)) as [[[|]|]|x]; unfold after_part1; rewrite ?bind_try; cbn [ret rv rw re];
    rewrite ?app_nil_r; reflexivity.
Qed.

(* the case rule of an inbound message: a property of the result holds if it holds of a disconnect, of an exception that
   changes nothing, and - after a passing check - of what follows the try body, with or without a verdict *)
Lemma process_message_case c m now w (Q : res unit -> Prop) :
  (forall lm, Q (disconnect c ST_DISC_BROKEN lm w)) ->
  (forall x, Q (mkR (inr x) w [])) ->
  (validate_integrity c m w = VOk ->
   (forall v, rv (part1 c m w) = inl (Some v) ->
              Q (mkR (rv ((if v then finalize m now else ret tt) (rw (dispatch c m v (rw (part1 c m w))))))
                     (rw ((if v then finalize m now else ret tt) (rw (dispatch c m v (rw (part1 c m w))))))
                     (re (part1 c m w) ++ re (dispatch c m v (rw (part1 c m w))) ++
                      re ((if v then finalize m now else ret tt) (rw (dispatch c m v (rw (part1 c m w))))))))
   /\ Q (mkR (inl tt) (rw (part1 c m w)) (re (part1 c m w)))) ->
  Q (process_message c m now w).
Proof.
  intros H1 H2 H3. destruct (validate_integrity c m w) eqn:V.
  2,3: unfold process_message; rewrite V; apply H1.
  2: unfold process_message; rewrite V; apply H2.
  rewrite (process_message_ok c m now w V). destruct (H3 eq_refl) as [Hs Hn].
  destruct (rv (part1 c m w)) as [[v|]|x]; [apply Hs; reflexivity|exact Hn..].
Qed.

(* without a passing integrity check the expected number does not move *)
Lemma process_message_not_ok_nin c m now w :
  validate_integrity c m w <> VOk -> nin (rw (process_message c m now w)) = nin w.
Proof.
  intros V. apply process_message_case; [intros lm; apply disconnect_writes; destruct lm; ignores_solve|reflexivity|contradiction].
Qed.

Lemma finalize_or_not_events (P : event -> Prop) (v : bool) m now w :
  (forall s, P (State s)) -> Forall P (re ((if v then finalize m now else ret tt) w)).
Proof. intros H. destruct v; [apply finalize_allev, H|constructor]. Qed.

(* at most one delivery: of an application message that carries exactly the expected number, which is then counted *)
Lemma process_message_apps c m now w :
  apps (re (process_message c m now w)) = [] \/
  (apps (re (process_message c m now w)) = [m] /\ mkind m = KApp /\ validate_integrity c m w = VOk /\
   get_int T34 m = inl (nin w) /\ nin (rw (process_message c m now w)) = nin w + 1).
Proof.
  pose proof (apps_nil _ (part1_not_app c m w)) as Pa.
  pattern (process_message c m now w). apply process_message_case; cbn [rw re].
  - intros lm. left. apply apps_nil, disconnect_allev; cbn; auto.
  - left. reflexivity.
  - intros V. split; [intros v E|left; exact Pa].
    rewrite !apps_app, Pa, (apps_nil _ (finalize_or_not_events not_app v m now _ (fun _ => I))), app_nil_r. cbn [app].
    destruct (dispatch_apps c m v (rw (part1 c m w))) as [D|[D [-> [Hn Hk]]]]; [left; exact D|right].
    destruct (part1_true c m w E) as [n [_ [_ [Hl _]]]]. destruct Hk as [Hk|Hk]; [|contradiction].
    assert (Hq : mkind m <> KSeqReset) by congruence. rewrite part1_nin in Hn by assumption.
    repeat split; auto. rewrite (finalize_nin m now _ (nin w) Hq Hn), dispatch_nin, part1_nin, Z.eqb_refl by assumption. reflexivity.
Qed.

(* a message that is not a SequenceReset is counted exactly when it passes the check and carries the expected number *)
Lemma process_message_nin c m now w :
  mkind m <> KSeqReset ->
  nin (rw (process_message c m now w)) = nin w \/
  (get_int T34 m = inl (nin w) /\ nin (rw (process_message c m now w)) = nin w + 1
   /\ validate_integrity c m w = VOk).
Proof.
  intros Hk. pose proof (part1_logout c m w) as Pl. pose proof (fun H => part1_nin c m Hk H w) as Pn.
  pattern (process_message c m now w). apply process_message_case; cbn [rw].
  - intros lm. left. apply disconnect_writes; destruct lm; ignores_solve.
  - left. reflexivity.
  - intros V. split.
    + intros v E. assert (Hnl : mkind m <> KLogout) by (intros H; destruct (Pl H) as [Hb _]; now apply (Hb v)).
      destruct v; [|left; cbn [ret rw]; rewrite dispatch_nin; exact (Pn Hnl)].
      destruct (part1_true c m w E) as [n [Hn _]]. rewrite (finalize_nin m now _ n Hk Hn), !dispatch_nin, (Pn Hnl).
      destruct (n =? nin w) eqn:En; [|left; reflexivity]. right. assert (n = nin w) by lia. subst n. auto.
    + destruct (kind_eq_dec (mkind m) KLogout) as [Hl|Hl]; [|left; exact (Pn Hl)].
      destruct (Pl Hl) as [_ [H|[H1 H2]]]; auto.
Qed.

(* at most one ResendRequest, from the number expected afterwards; none while a resend is awaited [Logon: D24] *)
Lemma process_message_resend c m now w :
  one_resend (nin (rw (process_message c m now w))) (re (process_message c m now w))
  /\ (st w = ST_AWAITING -> mkind m <> KLogon -> resends (re (process_message c m now w)) = []).
Proof.
  destruct (part1_resend c m w) as [P1 [P2 P3]].
  pattern (process_message c m now w). apply process_message_case; cbn [rw re].
  - intros lm. assert (H : resends (re (disconnect c ST_DISC_BROKEN lm w)) = []) by (apply resends_nil, disconnect_allev; cbn; auto).
    split; [left|intros _ _]; exact H.
  - split; [left|]; reflexivity.
  - intros V. split; [intros v E|split; assumption].
    pose proof (resends_nil _ (dispatch_not_resend c m v (rw (part1 c m w)))) as D.
    pose proof (resends_nil _ (finalize_or_not_events not_resend v m now (rw (dispatch c m v (rw (part1 c m w)))) (fun _ => I))) as F.
    split; [|intros Hs Hk; rewrite !resends_app, D, F, (P3 Hs Hk); reflexivity].
    rewrite app_assoc. apply one_resend_app_r; [exact F|]. apply one_resend_app_r; [exact D|].
    destruct v; [left; apply P2, E|]. cbn [ret rw]. rewrite dispatch_nin. exact P1.
Qed.

(* while a resend is awaited the state stays RESENDREQ_AWAITING until the connection drops or _finalize_message
   closes the gap *)
Lemma process_message_from_awaiting c m now w :
  st w = ST_AWAITING -> mkind m <> KLogon -> closed_or (rw (process_message c m now w)).
Proof.
  intros Hs Hk. pose proof (part1_from_awaiting c m w Hs Hk) as Pw.
  pattern (process_message c m now w). apply process_message_case; cbn [rw].
  - intros lm. apply aw_closed, disconnect_keeps_aw. left. exact Hs.
  - intros _. left. exact Hs.
  - intros V. split; [intros v E|apply aw_closed, Pw]. destruct v.
    + apply finalize_closes, dispatch_from_awaiting. destruct (part1_true c m w E) as [n [_ [_ [_ Hd]]]]. destruct Pw; [assumption|contradiction].
    + apply aw_closed, dispatch_from_awaiting, part1_false, E.
Qed.
(* where a SequenceReset m can leave the expected number: where it was (n0), at the frame's own number (a), or at its
   NewSeqNo *)
Definition reset_target (m : msg) (n0 a x : Z) : Prop :=
  x = n0 \/ x = a \/ exists b, get_int T36 m = inl b /\ x = b.

Lemma set_seq_num_in_keeps (Q : Z -> Prop) v : Q v -> keeps (fun w => Q (nin w)) (set_seq_num None (Some v)).
Proof. intros Hv. unfold set_seq_num. keeps_step; [keeps_tac|]. keeps_step; [|keeps_tac]. destruct (v <=? 0); [keeps_tac|]. apply keeps_modw. auto. Qed.

Section SeqReset.
  Context (c : cfg) (m : msg) (now n0 a : Z).
  Hypothesis Hk : mkind m = KSeqReset.
  Hypothesis Ha : get_int T34 m = inl a.
  Let Tgt := fun w => reset_target m n0 a (nin w).

  Lemma keeps_target_pres {A} (k : M A) : pres nin k -> keeps Tgt k.
  Proof. apply (keeps_pres nin (reset_target m n0 a)). Qed.

  Lemma process_seqreset_target : keeps Tgt (process_seqreset c m).
  Proof.
    unfold process_seqreset. apply keeps_bind_lift. intros a' Ha'.
    assert (a' = a) by congruence. subst a'.
    keeps_step. { apply (set_seq_num_in_keeps (reset_target m n0 a)). right. left. reflexivity. }
    apply keeps_bind_lift. intros b Hb.
    apply (set_seq_num_in_keeps (reset_target m n0 a)). right. right. exists b. auto.
  Qed.

  Lemma finalize_target : keeps Tgt (finalize m now).
  Proof.
    unfold finalize. apply keeps_bind; [|intros r].
    - unfold set_next_num_in. rewrite Hk. destruct (get T36 (mtags m)) as [v|] eqn:Eg; [|keeps_tac].
      destruct (py_int v) as [b|] eqn:Ep; [|keeps_tac].
      keeps_step; [|keeps_tac]. apply keeps_modw. intros w _. unfold Tgt. cbn.
      right. right. exists b. split; [|reflexivity]. unfold get_int. now rewrite Eg, Ep.
    - destruct (r <=? 0); [keeps_tac|]. apply keeps_target_pres, finalize_tail_writes. ignores_solve.
  Qed.

  Lemma process_message_target : keeps Tgt (process_message c m now).
  Proof.
    assert (Hd : forall lm, keeps Tgt (disconnect c ST_DISC_BROKEN lm)) by (intros; apply keeps_target_pres, disconnect_writes; destruct lm; ignores_solve).
    apply process_message_keeps; [exact Hd| |intros; apply keeps_target_pres, dispatch_nin|apply finalize_target].
    apply part1_keeps; [apply Hd| |apply keeps_target_pres, gap_check_nin].
    intros w0. rewrite pre_handlers_unfold, Hk.
    apply keeps_bind; [apply keeps_target_pres, accept_first_writes; ignores_solve|intros _; apply process_seqreset_target].
  Qed.
End SeqReset.

Lemma process_message_seqreset c m now w a :
  mkind m = KSeqReset -> get_int T34 m = inl a ->
  reset_target m (nin w) a (nin (rw (process_message c m now w))).
Proof.
  intros Hk Ha. apply (process_message_target c m now (nin w) a Hk Ha w). left. reflexivity.
Qed.
Definition seqnum (m : msg) : option Z := match get_int T34 m with inl n => Some n | inr _ => None end.

(* MsgSeqNum values handed to the application by one step, in order *)
Definition delivered (s : srec) : list Z :=
  flat_map (fun m => match seqnum m with Some n => [n] | None => [] end) (apps (s_events s)).

(* a SequenceReset the property allows to be honoured: own number = expected, NewSeqNo not backwards *)
Definition ok_seqreset (w : world) (m : msg) : Prop :=
  get_int T34 m = inl (nin w) /\ (forall b, get_int T36 m = inl b -> nin w <= b).

(* known-finding class D11: any other SequenceReset that passes the integrity check *)
Definition D11_step (c : cfg) (s : srec) : Prop :=
  exists m now, s_op s = OIn m now /\ mkind m = KSeqReset
                /\ validate_integrity c m (s_before s) = VOk /\ ~ ok_seqreset (s_before s) m.

Lemma ok_seqreset_dec w m : ok_seqreset w m \/ ~ ok_seqreset w m.
Proof.
  unfold ok_seqreset. destruct (get_int T34 m) as [a|x].
  2:{ right. intros [H _]. discriminate. }
  destruct (Z.eq_dec a (nin w)) as [->|Hne].
  2:{ right. intros [H _]. congruence. }
  destruct (get_int T36 m) as [b|x].
  2:{ left. split; auto. intros b Hb. discriminate. }
  destruct (Z_le_gt_dec (nin w) b).
  - left. split; auto. intros b' Hb. inversion Hb. subst. assumption.
  - right. intros [_ H]. specialize (H b eq_refl). lia.
Qed.

Lemma run_cons c w o h : run c w (o :: h) = mkS w o (step c o w) :: run c (rw (step c o w)) h.
Proof. reflexivity. Qed.

(* operations other than inbound messages neither deliver nor move the expected number *)
Lemma step_other c o w :
  (forall m now, o <> OIn m now) ->
  apps (re (step c o w)) = [] /\ nin (rw (step c o w)) = nin w.
Proof.
  intros Ho. destruct o as [m now|m|now|ds lm]; [exfalso; eapply Ho; eauto| | |]; cbn [step].
  - split; [apply apps_nil, send_msg_allev; cbn; auto | apply send_msg_writes; ignores_solve].
  - split; [apply apps_nil, send_test_req_allev; cbn; auto | apply send_test_req_writes; ignores_solve].
  - split; [apply apps_nil, disconnect_allev; cbn; auto | apply disconnect_writes; destruct lm; ignores_solve].
Qed.

(* one step, every start world: a delivery carries exactly the expected number, is the only one of the step, and
   the expected number afterwards is that number + 1 *)
Lemma step_deliver_exact c o w :
  let s := mkS w o (step c o w) in
  delivered s = [] \/ (delivered s = [nin w] /\ nin (s_after s) = nin w + 1).
Proof.
  unfold delivered, s_after, s_events. cbn [s_res]. pose proof (step_other c o w) as Ho.
  destruct o as [m now|m|now|ds lm].
  2-4: left; destruct Ho as [Ha _]; [discriminate|rewrite Ha; reflexivity].
  cbn [step]. destruct (process_message_apps c m now w) as [Ha|[Ha [_ [_ [Hs Hn]]]]]; rewrite Ha; [left; reflexivity|].
  right. unfold flat_map, seqnum. rewrite Hs. auto.
Qed.

(* one step outside class D11: the expected number does not decrease *)
Lemma step_nin_mono c o w :
  ~ D11_step c (mkS w o (step c o w)) -> nin w <= nin (rw (step c o w)).
Proof.
  intros H11. pose proof (step_other c o w) as Ho. destruct o as [m now|m|now|ds lm].
  2-4: destruct Ho as [_ Hn]; [discriminate|rewrite Hn; lia].
  cbn [step]. assert (Hd : mkind m = KSeqReset \/ mkind m <> KSeqReset) by (destruct (mkind m); auto; right; discriminate).
  destruct Hd as [Ek|Ek]; [|destruct (process_message_nin c m now w Ek) as [Pn|[_ [Pn _]]]; lia].
  destruct (validate_integrity c m w) eqn:V.
  2-4: rewrite process_message_not_ok_nin; [lia|congruence].
  destruct (ok_seqreset_dec w m) as [[Hok1 Hok2]|Hno]; [|elim H11; exists m, now; cbn; auto].
  destruct (process_message_seqreset c m now w (nin w) Ek Hok1) as [H|[H|[b [Hb H]]]]; try lia.
  specialize (Hok2 b Hb). lia.
Qed.

(* the per-step facts lifted over a history *)
Lemma run_deliver_exact c h w :
  Forall (fun s => delivered s = [] \/
                   (delivered s = [nin (s_before s)] /\ nin (s_after s) = nin (s_before s) + 1)) (run c w h).
Proof. apply run_Forall. intros. apply step_deliver_exact. Qed.

Lemma run_inorder c h : forall w,
  Forall (fun s => ~ D11_step c s) (run c w h) ->
  Forall (fun n => nin w <= n) (flat_map delivered (run c w h))
  /\ StronglySorted Z.lt (flat_map delivered (run c w h))
  /\ Forall (fun s => forall n, In n (delivered s) ->
                      n = nin (s_before s) /\ nin (s_after s) = n + 1 /\ delivered s = [n]) (run c w h).
Proof.
  intros w Hc. rewrite <- and_assoc. split.
  2:{ eapply Forall_impl; [|apply run_deliver_exact]. cbn beta. intros s [H|[H Hn]] n; rewrite H; cbn; [tauto|].
      intros [<-|[]]. auto. }
  (* the numbers delivered later are at least the expected number of now, which no step lowers *)
  revert w Hc. induction h as [|o h IH]; intros w Hc; cbn [run flat_map]; [split; constructor|].
  inversion Hc as [|s l H11 Hrest]; subst. destruct (IH _ Hrest) as [Ilb Isort].
  pose proof (step_nin_mono c o w H11) as Hmono.
  assert (Hlb : Forall (fun n => nin w <= n) (flat_map delivered (run c (rw (step c o w)) h))).
  { eapply Forall_impl; [|exact Ilb]. cbn beta. intros. lia. }
  destruct (step_deliver_exact c o w) as [Hd|[Hd Hn]]; cbn zeta in Hd; rewrite Hd; cbn [app]; [auto|].
  unfold s_after in Hn. cbn [s_res] in Hn. split; constructor; auto; [lia|].
  eapply Forall_impl; [|exact Ilb]. cbn beta. intros. lia.
Qed.
Definition resend_ok (s : srec) : Prop :=
  forall m now, s_op s = OIn m now ->
    (resends (s_events s) = [] \/
     exists rr, resends (s_events s) = [rr]
                /\ (st (s_before s) <> ST_AWAITING \/ mkind m = KLogon)
                /\ get T7 (mtags rr) = Some (z_to_dec (nin (s_after s)))
                /\ get T16 (mtags rr) = Some S_0)
    /\ (st (s_before s) = ST_AWAITING -> mkind m <> KLogon ->
        resends (s_events s) = [] /\ closed_or (s_after s)).

Lemma step_resend_ok c o w : resend_ok (mkS w o (step c o w)).
Proof.
  intros m now Ho. cbn [s_op] in Ho. subst o. unfold s_events, s_after. cbn [s_res s_before step].
  destruct (process_message_resend c m now w) as [R1 R2]. split.
  - destruct R1 as [R1|[rr [R1 [H7 H16]]]]; [left; exact R1|right]. exists rr. repeat split; auto.
    destruct (Z.eq_dec (st w) ST_AWAITING) as [Hs|Hs]; [|left; exact Hs].
    destruct (kind_eq_dec (mkind m) KLogon) as [Hk|Hk]; [right; exact Hk|].
    rewrite (R2 Hs Hk) in R1. discriminate.
  - intros Hs Hk. split; [apply R2|apply process_message_from_awaiting]; assumption.
Qed.
Definition counter_moves (c : cfg) (s : srec) : Prop :=
  nin (s_after s) = nin (s_before s)
  \/ (exists m now, s_op s = OIn m now /\ mkind m <> KSeqReset /\ validate_integrity c m (s_before s) = VOk
                    /\ get_int T34 m = inl (nin (s_before s)) /\ nin (s_after s) = nin (s_before s) + 1)
  \/ (exists m now a, s_op s = OIn m now /\ mkind m = KSeqReset /\ validate_integrity c m (s_before s) = VOk
                      /\ get_int T34 m = inl a
                      /\ (nin (s_after s) = a \/ exists b, get_int T36 m = inl b /\ nin (s_after s) = b)).

Lemma step_counter_moves c o w : counter_moves c (mkS w o (step c o w)).
Proof.
  unfold counter_moves, s_after. cbn [s_res s_before s_op]. pose proof (step_other c o w) as Ho.
  destruct o as [m now|m|now|ds lm].
  2-4: left; apply Ho; discriminate.
  cbn [step]. destruct (kind_eq_dec (mkind m) KSeqReset) as [Ek|Ek].
  - destruct (validate_integrity c m w) eqn:V.
    2-4: left; apply process_message_not_ok_nin; congruence.
    destruct (validate_ok_seq c m w V) as [a Ha].
    destruct (process_message_seqreset c m now w a Ek Ha) as [H|H]; [left; exact H|].
    right. right. exists m, now, a. auto.
  - destruct (process_message_nin c m now w Ek) as [Pn|[P1 [P2 P3]]]; [left; exact Pn|].
    right. left. exists m, now. auto.
Qed.

Lemma run_counter_moves c h w : Forall (counter_moves c) (run c w h).
Proof. apply run_Forall. intros. apply step_counter_moves. Qed.
Definition ok_seqresetb (w : world) (m : msg) : bool :=
  match get_int T34 m with
  | inl a => (a =? nin w) && match get_int T36 m with inl b => nin w <=? b | inr _ => true end
  | inr _ => false
  end.

Definition D11_stepb (c : cfg) (s : srec) : bool :=
  match s_op s with
  | OIn m _ =>
      match mkind m, validate_integrity c m (s_before s) with
      | KSeqReset, VOk => negb (ok_seqresetb (s_before s) m)
      | _, _ => false
      end
  | _ => false
  end.

Lemma ok_seqresetb_sound w m : ok_seqresetb w m = true -> ok_seqreset w m.
Proof.
  unfold ok_seqresetb, ok_seqreset. destruct (get_int T34 m) as [a|]; [|discriminate].
  intros H. apply andb_true_iff in H. destruct H as [H1 H2]. assert (a = nin w) by lia. subst a.
  split; auto. intros b Hb. rewrite Hb in H2. lia.
Qed.

Lemma no_D11_decided c l :
  forallb (fun s => negb (D11_stepb c s)) l = true -> Forall (fun s => ~ D11_step c s) l.
Proof.
  intros H. rewrite forallb_forall in H. apply Forall_forall. intros s Hs [m [now [Ho [Hk [V Hno]]]]].
  specialize (H s Hs). unfold D11_stepb in H. rewrite Ho, Hk, V in H.
  apply Hno, ok_seqresetb_sound. now destruct (ok_seqresetb (s_before s) m).
Qed.
From Coq Require String Ascii.
Import String.StringSyntax.
Delimit Scope string_scope with string.
From AFGen Require Import GenEnums.
Open Scope Z_scope.

Definition S (s : String.string) : str := map Ascii.N_of_ascii (String.list_ascii_of_string s).
Arguments S s%string.

Definition cfg0 : cfg := mkCfg (S "FIX.4.4") (S "CLI") (S "SRV") (S "20230101-10:00:00.000") sys_maxsize (fun _ => true).

(* a freshly connected acceptor / initiator over an empty journal *)
Definition w_acceptor : world := mkW ST_NCE ROLE_ACCEPTOR 1 1 0 None false 0 true (mkJ 0 0 [] []).
Definition w_initiator : world := mkW ST_NCE ROLE_INITIATOR 1 1 0 None false 0 true (mkJ 0 0 [] []).

(* what Codec.decode returns for a frame of the peer *)
Definition inbound (t : str) (seq : Z) (body : list tagv) : msg :=
  mkMsg t
    ([(T8, S "FIX.4.4"); (T9, S "100"); (T35, t); (T49, S "SRV"); (T56, S "CLI");
      (T34, z_to_dec seq); (T52, S "20230101-10:00:00.000")]
     ++ body ++ [(T10, S "000")]).

Definition i_logon (seq : Z) := OIn (inbound (S "A") seq [(T98, S "0"); (T108, S "30")]) 0.
Definition i_app (seq : Z) := OIn (inbound (S "D") seq [(S "11", S "ORD"); (S "55", S "SYM")]) 0.
Definition i_gapfill (seq new : Z) := OIn (mkMsg (S "4")
    [(T8, S "FIX.4.4"); (T9, S "100"); (T35, S "4"); (T49, S "SRV"); (T56, S "CLI");
     (T34, z_to_dec seq); (T52, S "20230101-10:00:00.000"); (T123, S "Y"); (T36, z_to_dec new); (T10, S "000")]) 0.
Definition i_reset (seq new : Z) := OIn (mkMsg (S "4")
    [(T8, S "FIX.4.4"); (T9, S "100"); (T35, S "4"); (T49, S "SRV"); (T56, S "CLI");
     (T34, z_to_dec seq); (T52, S "20230101-10:00:00.000"); (T36, z_to_dec new); (T10, S "000")]) 0.
Definition o_logon := OSend (mkMsg (S "A") [(T98, S "0"); (T108, S "30")]).

(* the former D10 witness (repaired in the code): Logon, 2, then 4 (gap: ResendRequest, RESENDREQ_AWAITING),
   then 2 again - tolerated by the integrity check while a resend is awaited, but no longer delivered *)
Definition h_dup := [i_logon 1; i_app 2; i_app 4; i_app 2].
(* D11: a gap fill numbered 5 while 2 is expected moves the expected number to 7: 2, 3, 4 are skipped and
   never asked for *)
Definition h_highfill := [i_logon 1; i_gapfill 5 7].
(* D11: a SequenceReset with NewSeqNo below the expected number is honoured: old numbers are delivered again *)
Definition h_backreset := [i_logon 1; i_app 2; i_app 3; i_reset 4 2; i_app 2].
(* D24: a Logon received by the initiator while RESENDREQ_AWAITING resets the state, and
   its number (above the expected one) triggers a second ResendRequest for the same gap *)
Definition h_logon_dup := [o_logon; i_logon 1; i_app 3; i_logon 5].
(* non-vacuity: a history with a real gap, a resend, a gap fill that closes the gap, satisfying the
   hypotheses of the partial theorems and delivering 2, 3, 4, 7 *)
Definition h_good := [i_logon 1; i_app 2; i_app 5; i_app 3; i_app 4; i_gapfill 5 7; i_app 7].
(* D26: an acceptor ignores a Logon received after the first one (swallowed assertion): a
   Logon numbered above the expected number reveals a gap for which nothing is requested *)
Definition h_relogon := [i_logon 1; i_logon 5].
Definition i_logout (seq : Z) := OIn (inbound (S "5") seq []) 0.

(* the model's constants are the enum numbers / values of the code (regenerated every run) *)
Fixpoint assoc_n (k : str) (l : list (str * N)) : option N :=
  match l with [] => None | (a, b) :: r => if str_eqb a k then Some b else assoc_n k r end.
Fixpoint assoc_s (k : str) (l : list (str * str)) : option str :=
  match l with [] => None | (a, b) :: r => if str_eqb a k then Some b else assoc_s k r end.

Definition stn (name : String.string) (z : Z) : bool :=
  match assoc_n (S name) conn_state with Some n => Z.of_N n =? z | None => false end.
Definition rl (name : String.string) (z : Z) : bool :=
  match assoc_n (S name) conn_role with Some n => Z.of_N n =? z | None => false end.
Definition mt (name : String.string) (v : str) : bool :=
  match assoc_s (S name) fmsg with Some x => str_eqb x v | None => false end.
Definition tg (name : String.string) (v : str) : bool :=
  match assoc_s (S name) ftag with Some x => str_eqb x v | None => false end.
Arguments stn name%string z%Z.
Arguments rl name%string z%Z.
Arguments mt name%string v.
Arguments tg name%string v.

Definition enums_ok : bool :=
  stn "DISCONNECTED_WCONN_TODAY" ST_DISC_WCONN && stn "DISCONNECTED_BROKEN_CONN" ST_DISC_BROKEN
  && stn "DISCONNECTED_NOCONN_TODAY" 1
  && stn "NETWORK_CONN_ESTABLISHED" ST_NCE && stn "LOGON_INITIAL_SENT" ST_LOGON_SENT
  && stn "LOGON_INITIAL_RECV" ST_LOGON_RECV && stn "RESENDREQ_HANDLING" ST_HANDLING
  && stn "RECV_SEQNUM_TOO_HIGH" ST_TOO_HIGH && stn "RESENDREQ_AWAITING" ST_AWAITING && stn "ACTIVE" ST_ACTIVE
  && rl "INITIATOR" ROLE_INITIATOR && rl "ACCEPTOR" ROLE_ACCEPTOR
  && mt "HEARTBEAT" MT_HEARTBEAT && mt "TESTREQUEST" MT_TESTREQUEST && mt "RESENDREQUEST" MT_RESENDREQUEST
  && mt "SEQUENCERESET" MT_SEQUENCERESET && mt "LOGOUT" MT_LOGOUT && mt "LOGON" MT_LOGON
  && tg "BeginSeqNo" T7 && tg "BeginString" T8 && tg "BodyLength" T9 && tg "CheckSum" T10 && tg "EndSeqNo" T16
  && tg "MsgSeqNum" T34 && tg "MsgType" T35 && tg "NewSeqNo" T36 && tg "PossDupFlag" T43
  && tg "SenderCompID" T49 && tg "SendingTime" T52 && tg "TargetCompID" T56 && tg "Text" T58
  && tg "EncryptMethod" T98 && tg "HeartBtInt" T108 && tg "TestReqID" T112 && tg "OrigSendingTime" T122
  && tg "GapFillFlag" T123
  && (sys_maxsize =? I64MAX).

Lemma enums_tied : enums_ok = true.
Proof. vm_compute. reflexivity. Qed.
