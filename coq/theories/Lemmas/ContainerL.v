(* Lemmas about the container model Fix/Container.v, for the theorems of Props/C18.v: the ordered-dict
   primitives; what a successful mutator does to the items (upd); groups, and the position an accessor
   reaches (locate, at_path); str() read back on clean containers; == as equality of content; the
   invariant wfc of every operation sequence; == dict.  At the end, the closed terms that the
   Examples of Props/C18.v evaluate. *)
From Coq Require Import ZArith NArith List Bool Lia ZifyBool.
From AF Require Import Base.Sx Py.Str Lemmas.StrB Fix.Container Fix.ContainerRun.
From AFGen Require Import GenEnums.
Import ListNotations.
Open Scope N_scope.

#[local] Arguments str_eqb : simpl never.

Lemma str_eqb_sym a b : str_eqb a b = str_eqb b a.
Proof. apply StrB.str_eqb_sym. Qed.

Lemma mem_In k l : mem k l = true <-> In k l.
Proof.
  unfold mem. rewrite existsb_exists. split.
  - intros [x [Hx E]]. apply str_eqb_eq in E. now subst.
  - intros H. exists k. split; [exact H|apply str_eqb_refl].
Qed.

Lemma neq_str_eqb k k' : k' <> k -> str_eqb k k' = false.
Proof. intros N. apply str_eqb_neq. congruence. Qed.

Section AssocL.
  Context {V : Type}.
  Implicit Types (l : list (str * V)) (k : str) (v : V).

  Lemma lookup_In k l v : lookup k l = Some v -> In (k, v) l.
  Proof.
    induction l as [|[k' v'] l IH]; cbn; [discriminate|].
    destruct (str_eqb k' k) eqn:E.
    - intros H. inversion H; subst. apply str_eqb_eq in E. subst. now left.
    - intros H. right. now apply IH.
  Qed.

  Lemma lookup_None k l : lookup k l = None <-> ~ In k (map fst l).
  Proof.
    induction l as [|[k' v'] l IH]; cbn; [split; [intros _ []|reflexivity]|].
    destruct (str_eqb k' k) eqn:E.
    - apply str_eqb_eq in E. split; [discriminate|]. intros []. now left.
    - apply str_eqb_neq in E. rewrite IH. tauto.
  Qed.

  Lemma has_false k l : has k l = false <-> ~ In k (map fst l).
  Proof. rewrite <- lookup_None. unfold has. destruct (lookup k l); split; congruence. Qed.

  Lemma has_In k l : has k l = true <-> In k (map fst l).
  Proof.
    split.
    - unfold has. destruct (lookup k l) eqn:E; [|discriminate]. intros _. apply lookup_In in E. now apply (in_map fst) in E.
    - intros H. destruct (has k l) eqn:E; [reflexivity|]. now apply has_false in E.
  Qed.

  Lemma In_lookup k v l : NoDup (map fst l) -> In (k, v) l -> lookup k l = Some v.
  Proof.
    induction l as [|[k' v'] l IH]; cbn; [intros _ []|].
    intros ND [H|H].
    - inversion H; subst. now rewrite str_eqb_refl.
    - inversion ND as [|? ? N1 N2]; subst. destruct (str_eqb k' k) eqn:E.
      + apply str_eqb_eq in E. subst. exfalso. apply N1. now apply (in_map fst) in H.
      + now apply IH.
  Qed.

  Lemma lookup_assign k k' v l :
    lookup k' (assign k v l) = if str_eqb k k' then Some v else lookup k' l.
  Proof.
    induction l as [|[k2 v2] l IH]; cbn; [reflexivity|].
    destruct (str_eqb k2 k) eqn:E; cbn.
    - apply str_eqb_eq in E. subst. now destruct (str_eqb k k').
    - rewrite IH. destruct (str_eqb k2 k') eqn:E'; [|reflexivity].
      apply str_eqb_eq in E'. subst. now rewrite str_eqb_sym, E.
  Qed.

  Lemma has_assign k k' v l : has k' (assign k v l) = str_eqb k k' || has k' l.
  Proof. unfold has. rewrite lookup_assign. now destruct (str_eqb k k'). Qed.

  Lemma assign_keys k v l :
    map fst (assign k v l) = if has k l then map fst l else map fst l ++ [k].
  Proof.
    unfold has. induction l as [|[k2 v2] l IH]; cbn; [reflexivity|].
    destruct (str_eqb k2 k); cbn; [reflexivity|]. rewrite IH. now destruct (lookup k l).
  Qed.

  Lemma assign_new k v l : has k l = false -> assign k v l = l ++ [(k, v)].
  Proof.
    unfold has. induction l as [|[k' v'] l IH]; cbn; [reflexivity|].
    destruct (str_eqb k' k) eqn:E; [discriminate|]. intros H. now rewrite IH.
  Qed.

  Lemma assign_same k v l : lookup k l = Some v -> assign k v l = l.
  Proof.
    induction l as [|[k' v'] l IH]; cbn; [discriminate|]. destruct (str_eqb k' k) eqn:E.
    - intros H. now inversion H.
    - intros H. now rewrite IH.
  Qed.

  Lemma assign_NoDup k v l : NoDup (map fst l) -> NoDup (map fst (assign k v l)).
  Proof.
    intros ND. rewrite assign_keys. destruct (has k l) eqn:E; [exact ND|].
    apply has_false in E. now apply NoDup_snoc.
  Qed.

  Lemma assign_Forall (P : str * V -> Prop) k v l : P (k, v) -> Forall P l -> Forall P (assign k v l).
  Proof.
    intros Pk F. induction F as [|[k2 v2] l H F IH]; cbn; [now constructor|].
    destruct (str_eqb k2 k) eqn:E; constructor; auto. apply str_eqb_eq in E. now subst.
  Qed.

  Lemma remove_keys k l :
    NoDup (map fst l) -> map fst (remove k l) = filter (fun k' => negb (str_eqb k' k)) (map fst l).
  Proof.
    induction l as [|[k' v'] l IH]; cbn; [reflexivity|]. intros ND. inversion ND as [|? ? N1 N2]; subst.
    destruct (str_eqb k' k) eqn:E; cbn.
    - apply str_eqb_eq in E. subst. symmetry. apply filter_all, Forall_forall.
      intros x Hx. apply negb_true_iff. apply str_eqb_neq. intros F. subst. contradiction.
    - now rewrite IH.
  Qed.

  Lemma lookup_remove_same k l : NoDup (map fst l) -> lookup k (remove k l) = None.
  Proof.
    intros ND. apply lookup_None. rewrite remove_keys by exact ND. intros H. apply filter_In in H.
    destruct H as [_ H]. now rewrite str_eqb_refl in H.
  Qed.

  Lemma lookup_remove_other k k' l : k' <> k -> lookup k' (remove k l) = lookup k' l.
  Proof.
    intros N. induction l as [|[k2 v2] l IH]; cbn; [reflexivity|].
    destruct (str_eqb k2 k) eqn:E; cbn.
    - apply str_eqb_eq in E. subst. now rewrite neq_str_eqb.
    - now rewrite IH.
  Qed.

  Lemma remove_Forall (P : str * V -> Prop) k l : Forall P l -> Forall P (remove k l).
  Proof.
    intros F. induction F as [|[k2 v2] l H F IH]; cbn; [constructor|].
    destruct (str_eqb k2 k); [exact F|now constructor].
  Qed.

  (* positional form: where the entry sits, and what assign and remove do there *)
  Lemma has_split k l :
    has k l = true ->
    exists l1 v0 l2, l = l1 ++ (k, v0) :: l2 /\ ~ In k (map fst l1) /\
      (forall v, assign k v l = l1 ++ (k, v) :: l2) /\ remove k l = l1 ++ l2.
  Proof.
    unfold has. induction l as [|[k' v'] l IH]; cbn; [discriminate|].
    destruct (str_eqb k' k) eqn:E.
    - intros _. apply str_eqb_eq in E. subst. exists [], v', l. repeat split. intros [].
    - intros H. destruct (IH H) as (l1 & v0 & l2 & -> & N & A & R). exists ((k', v') :: l1), v0, l2.
      cbn. rewrite R. repeat split; [|intros v; now rewrite A]. intros [F|F]; [|contradiction].
      apply str_eqb_neq in E. contradiction.
  Qed.
End AssocL.

Lemma remove_split {V} k (l : list (str * V)) :
  has k l = true ->
  exists l1 v0 l2, l = l1 ++ (k, v0) :: l2 /\ remove k l = l1 ++ l2 /\ ~ In k (map fst l1).
Proof. intros H. destruct (has_split k l H) as (l1 & v0 & l2 & E & N & _ & R). now exists l1, v0, l2. Qed.

Definition keys (c : container) : list str := map fst (items c).

Lemma mt_with_items c l : mt (with_items c l) = mt c.
Proof. reflexivity. Qed.

(* d[k] = v on a container: what every successful mutator other than del does *)
Definition upd (k : str) (v : value) (c : container) : container := with_items c (assign k v (items c)).

Lemma keys_upd k v c : keys (upd k v c) = if has k (items c) then keys c else keys c ++ [k].
Proof. apply assign_keys. Qed.

Lemma lookup_upd k k' v c :
  lookup k' (items (upd k v c)) = if str_eqb k k' then Some v else lookup k' (items c).
Proof. apply lookup_assign. Qed.

Lemma lookup_upd_same k v c : lookup k (items (upd k v c)) = Some v.
Proof. now rewrite lookup_upd, str_eqb_refl. Qed.

Lemma lookup_upd_other k k' v c : k' <> k -> lookup k' (items (upd k v c)) = lookup k' (items c).
Proof. intros N. now rewrite lookup_upd, neq_str_eqb. Qed.

Lemma upd_same k v c : lookup k (items c) = Some v -> upd k v c = c.
Proof. intros H. unfold upd. rewrite assign_same by exact H. now destruct c. Qed.

(* a decimal string that int() maps to z and str() maps back *)
Definition canonical (s : str) : bool :=
  match py_int s with Some z => str_eqb (z_to_dec z) s | None => false end.

(* every member of the regenerated FTag table: str(member) is its value, found by name, and the
   value is a canonical decimal string *)
Lemma ftag_table_ok :
  forallb (fun nv => str_eqb (tag_str (TFTag (fst nv))) (snd nv) && canonical (snd nv)) ftag = true.
Proof. vm_compute. reflexivity. Qed.

(* operations see a tag only through str(tag) *)
Lemma find_group_spelling g1 g2 gv g : tag_str g1 = tag_str g2 -> find_group g1 gv g = find_group g2 gv g.
Proof.
  intros H. induction g as [|x g IH]; cbn [find_group]; [reflexivity|].
  unfold c_contains, c_get. now rewrite H, IH.
Qed.

Definition val_of (v : setval) : value := match v with SVal s => VStr s | SCls k x => VCls k x end.

Lemma set_ok t s r c :
  tag_ok t = true -> r = true \/ has (tag_str t) (items c) = false ->
  c_set t (SVal s) r c = (upd (tag_str t) (VStr s) c, Ok tt).
Proof.
  intros T H. unfold c_set. rewrite T. cbn [negb].
  destruct H as [->|H]; [reflexivity|]. rewrite H. now rewrite andb_false_r.
Qed.

Lemma set_inv t v r c c' :
  c_set t v r c = (c', Ok tt) -> tag_ok t = true /\ c' = upd (tag_str t) (val_of v) c.
Proof.
  unfold c_set. destruct (tag_ok t), v as [s|k x], (negb r && has (tag_str t) (items c)); intros [= <-]; now split.
Qed.

Lemma set_new_at_end t s r c :
  tag_ok t = true -> has (tag_str t) (items c) = false ->
  c_set t (SVal s) r c = (with_items c (items c ++ [(tag_str t, VStr s)]), Ok tt).
Proof. intros T H. rewrite set_ok by auto. unfold upd. now rewrite assign_new. Qed.

Lemma del_spec t c :
  c_del t c = if has (tag_str t) (items c)
              then (with_items c (remove (tag_str t) (items c)), Ok tt) else (c, Exc EKeyError).
Proof. reflexivity. Qed.

Lemma del_keeps_others t c c' :
  NoDup (keys c) -> c_del t c = (c', Ok tt) ->
  keys c' = filter (fun k => negb (str_eqb k (tag_str t))) (keys c) /\ mt c' = mt c /\
  c_contains t c' = false /\
  forall k, k <> tag_str t -> lookup k (items c') = lookup k (items c).
Proof.
  unfold c_del, c_contains, keys, has. intros ND. destruct (lookup (tag_str t) (items c)); [|discriminate].
  intros H. inversion H; subst. cbn [items with_items]. rewrite lookup_remove_same by exact ND. repeat split.
  - now apply remove_keys.
  - intros k N. now apply lookup_remove_other.
Qed.

Lemma is_group_spec t c :
  c_is_group t c = match lookup (tag_str t) (items c) with
                   | None => None | Some (VGrp _) => Some true | Some _ => Some false end.
Proof. reflexivity. Qed.

Lemma group_list_classes t c :
  c_get_group_list t c = match lookup (tag_str t) (items c) with
                         | None => Exc ETagNotFound
                         | Some (VGrp g) => Ok g
                         | Some _ => Exc EUnmappedGrp
                         end.
Proof.
  unfold c_get_group_list, c_is_group. cbn [tag_str].
  destruct (lookup (tag_str t) (items c)) as [[s|g|k x]|]; reflexivity.
Qed.

(* list.insert with Python's clamping; -1 appends: old items keep their relative order *)
Lemma py_insert_spec {A} idx (x : A) l :
  let len := Z.of_nat (length l) in
  exists a b, l = a ++ b /\ py_insert idx x l = a ++ x :: b /\
    Z.of_nat (length a) =
      (if idx =? -1 then len else if 0 <=? idx then Z.min idx len else Z.max 0 (len + idx))%Z.
Proof.
  intros len. unfold py_insert. fold len.
  assert (I : forall z, (0 <= z <= len)%Z ->
            exists a b, l = a ++ b /\ insert_at (Z.to_nat z) x l = a ++ x :: b /\ Z.of_nat (length a) = z).
  { intros z Hz. exists (firstn (Z.to_nat z) l), (skipn (Z.to_nat z) l).
    split; [symmetry; apply firstn_skipn|]. split; [reflexivity|]. rewrite firstn_length. unfold len in Hz. lia. }
  destruct (idx =? -1)%Z; [exists l, []; rewrite app_nil_r; repeat split|].
  destruct (0 <=? idx)%Z eqn:E; apply I; unfold len; lia.
Qed.

(* the group add_group extends: the one stored under the tag, or a new one *)
Definition group_or_nil (t : tag) (c : container) : list container :=
  match c_get_group_list t c with Ok g => g | Exc _ => [] end.

(* add_group in terms of what is_group and get_group_list say about the tag *)
Lemma add_group_eq t item idx c :
  c_add_group t item idx c =
  if tag_ok t then
    match item, c_is_group t c with
    | Exc e, _ => (c, Exc e)
    | Ok _, Some false => (c, Exc EFIXMessage)
    | Ok it, _ =>
        (upd (tag_str t) (VGrp (py_insert idx it (group_or_nil t c))) c, Ok tt)
    end
  else (c, Exc EFIXMessage).
Proof.
  unfold c_add_group, group_or_nil. rewrite group_list_classes, is_group_spec.
  destruct (tag_ok t), item, (lookup (tag_str t) (items c)) as [[s|g|k x]|]; reflexivity.
Qed.

Lemma add_group_ok t it idx c :
  tag_ok t = true ->
  c_is_group t c <> Some false ->
  c_add_group t (Ok it) idx c = (upd (tag_str t) (VGrp (py_insert idx it (group_or_nil t c))) c, Ok tt).
Proof. intros T N. rewrite add_group_eq, T. now destruct (c_is_group t c) as [[|]|]. Qed.

Lemma add_group_inv t it idx c c' :
  c_add_group t (Ok it) idx c = (c', Ok tt) -> tag_ok t = true /\ c_is_group t c <> Some false.
Proof.
  rewrite add_group_eq. destruct (tag_ok t), (c_is_group t c) as [[|]|]; intros [=]; now split.
Qed.

(* get_group_by_index is nth_res at the position idx_pos computes: index order, Python's negative indices *)
Lemma group_by_index_spec t idx c :
  c_get_group_by_index t idx c =
  match c_get_group_list t c with
  | Exc e => Exc e
  | Ok g => match idx_pos idx (length g) with Exc e => Exc e | Ok n => nth_res n g end
  end.
Proof.
  unfold c_get_group_by_index, idx_pos, py_pos. destruct (c_get_group_list t c) as [g|e]; [|reflexivity].
  destruct (_ || _); [reflexivity|]. now destruct (0 <=? idx)%Z.
Qed.

(* outside [-len, len) : TagNotFoundError on both sides; inside, a position below len *)
Lemma idx_pos_cases idx len :
  (idx_pos idx len = Exc ETagNotFound /\ (Z.of_nat len <= idx \/ idx < - Z.of_nat len)%Z) \/
  (idx_pos idx len = Ok (py_pos idx len) /\ (py_pos idx len < len)%nat /\
   (- Z.of_nat len <= idx < Z.of_nat len)%Z).
Proof.
  unfold idx_pos, py_pos. destruct (_ || _) eqn:E; [left; split; [reflexivity|lia]|right].
  split; [reflexivity|]. destruct (0 <=? idx)%Z eqn:E2; lia.
Qed.

Lemma nth_res_ok n g : (n < length g)%nat -> exists x, nth_error g n = Some x /\ nth_res n g = Ok x.
Proof.
  intros H. unfold nth_res. destruct (nth_error g n) eqn:E.
  - now exists c.
  - apply nth_error_None in E. lia.
Qed.

Lemma group_by_index_nonneg t idx c g :
  c_get_group_list t c = Ok g -> (0 <= idx < Z.of_nat (length g))%Z ->
  exists x, nth_error g (Z.to_nat idx) = Some x /\ c_get_group_by_index t idx c = Ok x.
Proof.
  intros G H. rewrite group_by_index_spec, G.
  destruct (idx_pos_cases idx (length g)) as [[_ O]|(-> & L & _)]; [lia|].
  unfold py_pos in *. replace (0 <=? idx)%Z with true in * by lia. now apply nth_res_ok.
Qed.

Lemma group_by_index_negative t idx c g :
  c_get_group_list t c = Ok g -> (- Z.of_nat (length g) <= idx < 0)%Z ->
  exists x, nth_error g (Z.to_nat (Z.of_nat (length g) + idx)) = Some x
            /\ c_get_group_by_index t idx c = Ok x.
Proof.
  intros G H. rewrite group_by_index_spec, G.
  destruct (idx_pos_cases idx (length g)) as [[_ O]|(-> & L & _)]; [lia|].
  unfold py_pos in *. replace (0 <=? idx)%Z with false in * by lia. now apply nth_res_ok.
Qed.

Lemma group_by_index_out_of_range t idx c g :
  c_get_group_list t c = Ok g -> (Z.of_nat (length g) <= idx \/ idx < - Z.of_nat (length g))%Z ->
  c_get_group_by_index t idx c = Exc ETagNotFound.
Proof.
  intros G H. rewrite group_by_index_spec, G.
  now destruct (idx_pos_cases idx (length g)) as [[-> _]|(_ & _ & I)]; [|lia].
Qed.

Definition plain_at (k : str) (x : container) : Prop :=
  match lookup k (items x) with None | Some (VStr _) => True | Some _ => False end.
(* get_group_by_tag among items whose inner tag is plain or missing: the first, in index order, whose
   inner tag holds the value *)
Lemma find_group_first gt gv g :
  Forall (plain_at (tag_str gt)) g ->
  let no y := lookup (tag_str gt) (items y) <> Some (VStr gv) in
  match find_group gt gv g with
  | Ok x => exists a b, g = a ++ x :: b /\ lookup (tag_str gt) (items x) = Some (VStr gv) /\ Forall no a
  | Exc e => e = ETagNotFound /\ Forall no g
  end.
Proof.
  intros F no. induction F as [|x g P F IH]; cbn [find_group]; [now split|].
  assert (R : no x -> match find_group gt gv g with
                      | Ok y => exists a b, x :: g = a ++ y :: b /\ lookup (tag_str gt) (items y) = Some (VStr gv) /\ Forall no a
                      | Exc e => e = ETagNotFound /\ Forall no (x :: g) end).
  { intros N. destruct (find_group gt gv g) as [y|e].
    - destruct IH as (a & b & -> & L & A). exists (x :: a), b. now repeat split; [|constructor].
    - destruct IH as [-> A]. now split; [|constructor]. }
  unfold c_contains, has, c_get, plain_at, no in *.
  destruct (lookup (tag_str gt) (items x)) as [[s|g0|k y]|] eqn:L; try contradiction; [|now apply R].
  cbn [rval_is]. destruct (str_eqb s gv) eqn:E.
  - apply str_eqb_eq in E. subst s. exists [], g. now repeat split.
  - apply R. intros [= ->]. now rewrite str_eqb_refl in E.
Qed.

Lemma set_nth_same {A} n (x : A) l : nth_error l n = Some x -> set_nth n x l = l.
Proof.
  revert n. induction l as [|y l IH]; intros [|n]; cbn; try discriminate.
  - intros H. now inversion H.
  - intros H. now rewrite IH.
Qed.

Lemma nth_error_set_nth {A} n (x y : A) l : nth_error l n = Some y -> nth_error (set_nth n x l) n = Some x.
Proof.
  revert n. induction l as [|z l IH]; intros [|n]; cbn; try discriminate; [reflexivity|apply IH].
Qed.

Lemma set_nth_length {A} n (x : A) l : length (set_nth n x l) = length l.
Proof. revert n. induction l as [|z l IH]; intros [|n]; cbn; try reflexivity. now rewrite IH. Qed.

(* locate finds the very item the accessor returns *)
Lemma locate_by_index t idx c :
  c_get_group_by_index t idx c =
  match locate (SIdx t idx) c with Ok (_, _, _, x) => Ok x | Exc e => Exc e end.
Proof.
  rewrite group_by_index_spec. unfold locate, nth_res. cbn [step_tag].
  destruct (c_get_group_list t c) as [g|e]; [|reflexivity].
  destruct (idx_pos idx (length g)) as [n|e]; [|reflexivity]. now destruct (nth_error g n).
Qed.

Lemma find_group_by_pos gt gv g :
  find_group gt gv g = match find_group_pos gt gv g with Ok n => nth_res n g | Exc e => Exc e end.
Proof.
  induction g as [|x g IH]; cbn [find_group find_group_pos]; [reflexivity|].
  assert (R : find_group gt gv g =
              match (match find_group_pos gt gv g with Ok n => Ok (S n) | Exc e => Exc e end) with
              | Ok n => nth_res n (x :: g) | Exc e => Exc e end).
  { rewrite IH. destruct (find_group_pos gt gv g); reflexivity. }
  destruct (c_contains gt x); [|exact R].
  destruct (c_get gt DRaise x) as [r|e]; [|reflexivity].
  destruct (rval_is r gv); [reflexivity|exact R].
Qed.

Lemma locate_by_tag t gt gv c :
  c_get_group_by_tag t gt gv c =
  match locate (STag t gt gv) c with Ok (_, _, _, x) => Ok x | Exc e => Exc e end.
Proof.
  unfold c_get_group_by_tag, locate. cbn [step_tag].
  destruct (c_get_group_list t c) as [g|e]; [|reflexivity].
  rewrite find_group_by_pos. unfold nth_res. destruct (find_group_pos gt gv g) as [n|e]; [|reflexivity].
  now destruct (nth_error g n).
Qed.

Lemma locate_inv s c k g n x :
  locate s c = Ok (k, g, n, x) ->
  k = tag_str (step_tag s) /\ lookup k (items c) = Some (VGrp g) /\ nth_error g n = Some x.
Proof.
  unfold locate. rewrite group_list_classes.
  destruct (lookup (tag_str (step_tag s)) (items c)) as [[s0|g0|k0 x0]|] eqn:L; try discriminate.
  destruct (match s with SIdx _ idx => _ | STag _ gt gv => _ | SList _ n0 => _ end) as [n0|e]; [|discriminate].
  destruct (nth_error g0 n0) as [x0|] eqn:N; [|discriminate]. intros H. inversion H; subst. auto.
Qed.

Lemma locate_put_back s c k g n x : locate s c = Ok (k, g, n, x) -> upd k (VGrp (set_nth n x g)) c = c.
Proof.
  intros L. destruct (locate_inv _ _ _ _ _ _ L) as (_ & Lk & Ln).
  rewrite set_nth_same by exact Ln. now apply upd_same.
Qed.

(* a call through a path either fails on the way, and nothing changes, or it is f on some item x,
   and if f leaves x as it is then nothing changes *)
Lemma at_path_reach {R} path (f : container -> container * R) c :
  match snd (at_path path f c) with
  | Exc _ => fst (at_path path f c) = c
  | Ok r => exists x, r = snd (f x) /\ (fst (f x) = x -> fst (at_path path f c) = c)
  end.
Proof.
  revert c. induction path as [|s path IH]; intros c; cbn [at_path].
  - destruct (f c) as [c' r] eqn:F. exists c. now rewrite F.
  - destruct (locate s c) as [[[[k g] n] x]|e'] eqn:L; [|reflexivity].
    specialize (IH x). destruct (at_path path f x) as [x' [r|e]]; cbn [fst snd] in *.
    + destruct IH as (y & E & H). exists y. split; [exact E|]. intros F. rewrite (H F).
      now apply (locate_put_back s).
    + subst x'. now apply (locate_put_back s).
Qed.

Section ContainerInd.
  Context (P : container -> Prop) (Q : value -> Prop).
  Context (HC : forall m l, Forall (fun kv => Q (snd kv)) l -> P (C m l)).
  Context (HS : forall s, Q (VStr s)).
  Context (HG : forall g, Forall P g -> Q (VGrp g)).
  Context (HK : forall k x, Q (VCls k x)).

  Fixpoint container_ind2 (c : container) : P c :=
    match c with
    | C m l =>
        HC m l ((fix go (l : list (str * value)) : Forall (fun kv => Q (snd kv)) l :=
                   match l with
                   | [] => Forall_nil _
                   | kv :: l' => Forall_cons kv (value_ind2 (snd kv)) (go l')
                   end) l)
    end
  with value_ind2 (v : value) : Q v :=
    match v with
    | VStr s => HS s
    | VGrp g =>
        HG g ((fix go (g : list container) : Forall P g :=
                 match g with
                 | [] => Forall_nil _
                 | c :: g' => Forall_cons c (container_ind2 c) (go g')
                 end) g)
    | VCls k x => HK k x
    end.
End ContainerInd.

Definition field (kv : str * value) : str := fst kv ++ 61 :: render_v (snd kv).

Lemma render_items c : render c = join [124] (map field (items c)).
Proof. now destruct c. Qed.

Lemma render_v_grp g :
  render_v (VGrp g) = n_to_dec (N.of_nat (length g)) ++ [61; 62; 91] ++ join [44; 32] (map repr g) ++ [93].
Proof. reflexivity. Qed.

(* what follows the first piece of a joined text *)
Definition jtail (sep : str) (ps : list str) : str :=
  match ps with [] => [] | _ => sep ++ join sep ps end.

Lemma join_jtail sep p ps : join sep (p :: ps) = p ++ jtail sep ps.
Proof. destruct ps; cbn [join jtail]; [now rewrite app_nil_r|reflexivity]. Qed.

(* A list of pieces `piece x`, each preceded by the separator c0 :: sep, then a rest.  `after_list`
   says what may follow the whole list, `after_piece` what may follow one piece.  If the next piece of a
   text can be read off it (the Forall hypothesis of jtail_inj), the list and the rest can.  Used with
   pieces = fields "k=v" separated by "|", and pieces = group items separated by ", " and closed by "]". *)
Section JtailInj.
  Context {A : Type} (piece : A -> str) (ok : A -> bool) (c0 : N) (sep : str).
  Context (after_list after_piece : str -> Prop).
  Context (list_end_not_sep : forall r, ~ after_list (c0 :: r)).
  Context (list_end_piece_end : forall r, after_list r -> after_piece r).
  Context (sep_piece_end : forall r, after_piece (c0 :: r)).

  Lemma jtail_inj l1 :
    Forall (fun x => forall y r1 r2, ok x = true -> ok y = true -> after_piece r1 -> after_piece r2 ->
                       piece x ++ r1 = piece y ++ r2 -> x = y /\ r1 = r2) l1 ->
    forall l2 r1 r2, forallb ok l1 = true -> forallb ok l2 = true -> after_list r1 -> after_list r2 ->
      jtail (c0 :: sep) (map piece l1) ++ r1 = jtail (c0 :: sep) (map piece l2) ++ r2 -> l1 = l2 /\ r1 = r2.
  Proof.
    assert (E : forall ps r, after_list r -> after_piece (jtail (c0 :: sep) ps ++ r)).
    { intros [|p ps] r Tr; [now apply list_end_piece_end|apply sep_piece_end]. }
    intros F. induction F as [|x l1 Hx F IH]; intros [|y l2] r1 r2 O1 O2 T1 T2 H.
    - now split.
    - cbn in H. subst r1. now apply list_end_not_sep in T1.
    - cbn in H. subst r2. now apply list_end_not_sep in T2.
    - cbn [map jtail] in H. rewrite !join_jtail, <- !app_assoc in H. apply app_inv_head in H.
      cbn [forallb] in O1, O2. apply andb_true_iff in O1, O2.
      apply Hx in H; [|apply O1|apply O2|now apply E..]. destruct H as [-> H].
      apply IH in H; [|apply O1|apply O2|assumption..]. now destruct H as [-> ->].
  Qed.
End JtailInj.

(* the characters the rendering uses as punctuation *)
Definition delim (c : N) : bool :=
  (c =? 124) || (c =? 61) || (c =? 62) || (c =? 91) || (c =? 93) || (c =? 44) || (c =? 32).
Definition clean_str (s : str) : bool := forallb (fun c => negb (delim c)) s.
(* a key: no punctuation, not empty, not beginning like "msg_type=" *)
Definition clean_tag (s : str) : bool :=
  clean_str s && match s with c :: _ => negb (c =? 109) | [] => false end.

Fixpoint cleanb (c : container) : bool :=
  match c with
  | C m l => match m with Some s => clean_str s | None => true end
             && forallb (fun kv => clean_tag (fst kv) && cleanb_v (snd kv)) l
  end
with cleanb_v (v : value) : bool :=
  match v with
  | VStr s => clean_str s
  | VGrp g => forallb cleanb g
  | VCls _ _ => false
  end.

Definition clean_items (l : list (str * value)) : bool :=
  forallb (fun kv => clean_tag (fst kv) && cleanb_v (snd kv)) l.
(* __str__ does not print the msg_type of the outermost container *)
Definition clean (c : container) : bool := clean_items (items c).

Definition lead (r : str) : Prop := match r with [] => True | c :: _ => delim c = true end.
Definition term (r : str) : Prop := match r with [] => True | c :: _ => c = 44 \/ c = 93 end.
Definition vterm (r : str) : Prop := match r with [] => True | c :: _ => c = 124 \/ c = 44 \/ c = 93 end.

Lemma term_vterm r : term r -> vterm r.
Proof. destruct r; cbn; [auto|]. intros [H|H]; auto. Qed.
Lemma vterm_lead r : vterm r -> lead r.
Proof. destruct r; cbn; [auto|]. intros [H|[H|H]]; subst; reflexivity. Qed.

Lemma split_clean s1 s2 x y :
  clean_str s1 = true -> clean_str s2 = true -> lead x -> lead y ->
  s1 ++ x = s2 ++ y -> s1 = s2 /\ x = y.
Proof.
  revert s2. induction s1 as [|a s1 IH]; intros [|b s2] C1 C2 Lx Ly H; cbn [app] in H.
  - now split.
  - exfalso. subst x. cbn in Lx, C2. apply andb_true_iff in C2. destruct C2 as [C2 _]. rewrite Lx in C2. discriminate.
  - exfalso. subst y. cbn in Ly, C1. apply andb_true_iff in C1. destruct C1 as [C1 _]. rewrite Ly in C1. discriminate.
  - inversion H; subst. cbn in C1, C2. apply andb_true_iff in C1, C2.
    destruct (IH s2 (proj2 C1) (proj2 C2) Lx Ly H2) as [-> ->]. now split.
Qed.

Lemma digits_clean s : Forall (fun c => is_digit c = true) s -> clean_str s = true.
Proof.
  intros F. unfold clean_str. apply forallb_forall. intros c Hc. rewrite Forall_forall in F.
  specialize (F c Hc). unfold is_digit, delim in *. lia.
Qed.

Lemma clean_tag_z_to_dec z : clean_tag (z_to_dec z) = true.
Proof.
  assert (D : forall n, clean_tag (n_to_dec n) = true).
  { intros n. unfold clean_tag. rewrite digits_clean by apply n_to_dec_digits.
    destruct (n_to_dec_head n) as (c & r & -> & Dc). unfold is_digit in Dc. cbn [andb]. lia. }
  destruct z as [|p|p]; cbn [z_to_dec]; [reflexivity|apply D|].
  specialize (D (Npos p)). unfold clean_tag in *. apply andb_true_iff in D. destruct D as [D1 D2].
  cbn [clean_str forallb]. unfold clean_str in D1. rewrite D1. reflexivity.
Qed.

(* clean items begin with a character that is neither punctuation nor the m of "msg_type=" *)
Lemma items_head kv l r :
  clean_items (kv :: l) = true ->
  exists c r', join [124] (map field (kv :: l)) ++ r = c :: r' /\ delim c = false /\ c <> 109.
Proof.
  cbn [clean_items forallb map]. rewrite join_jtail. unfold field, clean_tag.
  destruct (fst kv) as [|c t]; cbn; [discriminate|]. intros H. exists c. eexists. split; [reflexivity|]. lia.
Qed.

Section RenderInj.
  Let P (c1 : container) : Prop :=
    forall c2 r1 r2, cleanb c1 = true -> cleanb c2 = true -> term r1 -> term r2 ->
                     repr c1 ++ r1 = repr c2 ++ r2 -> c1 = c2 /\ r1 = r2.
  Let Q (v1 : value) : Prop :=
    forall v2 r1 r2, cleanb_v v1 = true -> cleanb_v v2 = true -> vterm r1 -> vterm r2 ->
                     render_v v1 ++ r1 = render_v v2 ++ r2 -> v1 = v2 /\ r1 = r2.

  Lemma field_inj kv1 :
    Q (snd kv1) ->
    forall kv2 r1 r2, clean_tag (fst kv1) && cleanb_v (snd kv1) = true ->
      clean_tag (fst kv2) && cleanb_v (snd kv2) = true -> vterm r1 -> vterm r2 ->
      field kv1 ++ r1 = field kv2 ++ r2 -> kv1 = kv2 /\ r1 = r2.
  Proof.
    destruct kv1 as [t1 v1]. intros Hv [t2 v2] r1 r2 C1 C2 T1 T2 H. unfold field, clean_tag in *. cbn [fst snd] in *.
    apply andb_true_iff in C1, C2. destruct C1 as [C1 Cv1], C2 as [C2 Cv2]. apply andb_true_iff in C1, C2.
    rewrite <- !app_assoc in H. apply split_clean in H; [|apply C1|apply C2|reflexivity..].
    destruct H as [-> [= H]]. apply Hv in H; [|assumption..]. now destruct H as [-> ->].
  Qed.

  Lemma items_inj l1 :
    Forall (fun kv => Q (snd kv)) l1 ->
    forall l2 r1 r2, clean_items l1 = true -> clean_items l2 = true -> term r1 -> term r2 ->
      join [124] (map field l1) ++ r1 = join [124] (map field l2) ++ r2 -> l1 = l2 /\ r1 = r2.
  Proof.
    assert (NIL : forall kv l r r', clean_items (kv :: l) = true -> term r ->
                    r <> join [124] (map field (kv :: l)) ++ r').
    { intros kv l r r' Cl T E. destruct (items_head kv l r' Cl) as (c & s & E' & D & _).
      rewrite E' in E. subst r. unfold delim in D. cbn in T. lia. }
    intros F l2 r1 r2 C1 C2 T1 T2 H. destruct l1 as [|kv1 l1], l2 as [|kv2 l2].
    - now split.
    - now apply NIL in H.
    - symmetry in H. now apply NIL in H.
    - apply (f_equal (cons 124)) in H.
      apply (jtail_inj field (fun kv => clean_tag (fst kv) && cleanb_v (snd kv)) 124 [] term vterm)
        with (l1 := kv1 :: l1) (l2 := kv2 :: l2); [| | | |assumption..].
      + (* "," and "]" are not "|" *) cbn. lia.
      + apply term_vterm.
      + (* after "|" a field ends *) intros r. now left.
      + eapply Forall_impl; [|exact F]. intros kv. apply field_inj.
  Qed.

  Lemma group_inj g1 :
    Forall P g1 ->
    forall g2 r1 r2, length g1 = length g2 -> forallb cleanb g1 = true -> forallb cleanb g2 = true ->
      join [44; 32] (map repr g1) ++ 93 :: r1 = join [44; 32] (map repr g2) ++ 93 :: r2 ->
      g1 = g2 /\ r1 = r2.
  Proof.
    intros F g2 r1 r2 L C1 C2 H. destruct g1 as [|c1 g1], g2 as [|c2 g2]; try discriminate L.
    - now injection H as ->.
    - apply (f_equal (app [44; 32])) in H.
      apply (jtail_inj repr cleanb 44 [32] (fun r => exists r', r = 93 :: r') term)
        with (l1 := c1 :: g1) (l2 := c2 :: g2) in H.
      + destruct H as [-> [= ->]]. now split.
      + (* "]" is not "," *) now intros r [r' [=]].
      + (* after "]" an item ends *) intros r [r' ->]. now right.
      + (* after "," an item ends *) intros r. now left.
      + exact F.
      + exact C1.
      + exact C2.
      + now exists r1.
      + now exists r2.
  Qed.

  Lemma repr_inj_C m1 l1 : Forall (fun kv => Q (snd kv)) l1 -> P (C m1 l1).
  Proof.
    assert (M : forall s l r r', clean_items l = true -> term r ->
                  mt_prefix (Some s) ++ r' <> join [124] (map field l) ++ r).
    { intros s [|kv l] r r' Cl T E; [cbn in E; subst r; cbn in T; lia|].
      destruct (items_head kv l r Cl) as (c & x & E' & _ & N). rewrite E' in E. now injection E as <-. }
    intros F [m2 l2] r1 r2 C1 C2 T1 T2 H.
    cbn [cleanb] in C1, C2. apply andb_true_iff in C1, C2. destruct C1 as [Cm1 C1], C2 as [Cm2 C2].
    unfold repr in H. cbn [mt render] in H. fold field in H. rewrite <- !app_assoc in H.
    destruct m1 as [s1|], m2 as [s2|].
    - cbn [mt_prefix] in H. rewrite <- !app_assoc in H. apply app_inv_head in H.
      apply split_clean in H; [|exact Cm1|exact Cm2|reflexivity|reflexivity].
      destruct H as [-> [= H]]. destruct (items_inj l1 F l2 r1 r2 C1 C2 T1 T2 H) as [-> ->]. now split.
    - now apply M in H.
    - symmetry in H. now apply M in H.
    - destruct (items_inj l1 F l2 r1 r2 C1 C2 T1 T2 H) as [-> ->]. now split.
  Qed.

  (* a string value is not the text of a group: after the clean part comes "=>[" and not a terminator *)
  Lemma str_not_grp s g r1 r2 : clean_str s = true -> vterm r1 -> s ++ r1 <> render_v (VGrp g) ++ r2.
  Proof.
    intros Cs T H. rewrite render_v_grp, <- app_assoc in H.
    apply split_clean in H; [|exact Cs|apply digits_clean, n_to_dec_digits|now apply vterm_lead|reflexivity].
    destruct H as [_ ->]. cbn in T. lia.
  Qed.

  Lemma render_v_inj_VStr s1 : Q (VStr s1).
  Proof.
    intros [s2|g2|k2 x2] r1 r2 C1 C2 T1 T2 H; cbn [cleanb_v] in C1, C2; try discriminate C2.
    - cbn [render_v] in H. apply split_clean in H; auto using vterm_lead. destruct H as [-> ->]. now split.
    - now apply str_not_grp in H.
  Qed.

  Lemma render_v_inj_VGrp g1 : Forall P g1 -> Q (VGrp g1).
  Proof.
    intros F [s2|g2|k2 x2] r1 r2 C1 C2 T1 T2 H; cbn [cleanb_v] in C1, C2; try discriminate C2.
    - symmetry in H. now apply str_not_grp in H.
    - rewrite !render_v_grp, <- !app_assoc in H. cbn [app] in H.
      apply split_clean in H; [|apply digits_clean, n_to_dec_digits|apply digits_clean, n_to_dec_digits
                               |reflexivity|reflexivity].
      destruct H as [HL [= H]]. apply dec_inj, Nat2N.inj in HL.
      destruct (group_inj g1 F g2 r1 r2 HL C1 C2 H) as [-> ->]. now split.
  Qed.

  Lemma render_v_inj_VCls k x : Q (VCls k x).
  Proof. intros v2 r1 r2 C1. discriminate C1. Qed.

  Lemma container_inj c : P c.
  Proof. exact (container_ind2 P Q repr_inj_C render_v_inj_VStr render_v_inj_VGrp render_v_inj_VCls c). Qed.
  Lemma value_inj v : Q v.
  Proof. exact (value_ind2 P Q repr_inj_C render_v_inj_VStr render_v_inj_VGrp render_v_inj_VCls v). Qed.
End RenderInj.

Section ContInd.
  Context (P : cont -> Prop).
  Context (HS : forall s, P (KStr s)) (HE : P KErr) (HK : forall t, P (KCls t)).
  Context (HG : forall g, Forall (Forall (fun kv => P (snd kv))) g -> P (KGrp g)).

  Fixpoint cont_ind2 (a : cont) : P a :=
    match a with
    | KStr s => HS s
    | KErr => HE
    | KCls t => HK t
    | KGrp g =>
        HG g ((fix go (g : list (list (str * cont))) : Forall (Forall (fun kv => P (snd kv))) g :=
                 match g with
                 | [] => Forall_nil _
                 | l :: g' =>
                     Forall_cons l
                       ((fix go2 (l : list (str * cont)) : Forall (fun kv => P (snd kv)) l :=
                           match l with
                           | [] => Forall_nil _
                           | kv :: l' => Forall_cons kv (cont_ind2 (snd kv)) (go2 l')
                           end) l)
                       (go g')
                 end) g)
    end.
End ContInd.

Lemma list_eqb_spec {A} (eqb : A -> A -> bool) l1 :
  Forall (fun x => forall y, eqb x y = true <-> x = y) l1 ->
  forall l2, list_eqb eqb l1 l2 = true <-> l1 = l2.
Proof.
  intros F. induction F as [|x l1 Hx F IH]; intros [|y l2]; cbn [list_eqb]; try (split; congruence).
  rewrite andb_true_iff, Hx, IH. split; [intros [-> ->]; reflexivity|intros [= -> ->]; now split].
Qed.

Lemma pair_eqb_spec (p : str * cont) :
  (forall b, cont_eqb (snd p) b = true <-> snd p = b) -> forall q, pair_eqb p q = true <-> p = q.
Proof.
  destruct p as [k v]. intros Hv [k' v']. unfold pair_eqb. cbn [fst snd] in *.
  rewrite andb_true_iff, str_eqb_eq, Hv. split; [intros [-> ->]; reflexivity|intros [= -> ->]; now split].
Qed.

Lemma cont_eqb_eq a : forall b, cont_eqb a b = true <-> a = b.
Proof.
  induction a as [s| |t|g IH] using cont_ind2; intros [t'|h| |t']; cbn [cont_eqb]; rewrite ?str_eqb_eq;
    try (split; congruence).
  transitivity (g = h); [|split; congruence].
  apply list_eqb_spec. eapply Forall_impl; [|exact IH]. intros l Fl. apply list_eqb_spec.
  eapply Forall_impl; [|exact Fl]. intros p. apply pair_eqb_spec.
Qed.

Lemma c_eq_iff_content a b : c_eq a b = true <-> content a = content b.
Proof.
  unfold c_eq. apply list_eqb_spec. apply Forall_forall. intros p _. apply pair_eqb_spec, cont_eqb_eq.
Qed.

Lemma content_items c : content c = map (fun kv => (fst kv, content_v (snd kv))) (items c).
Proof. now destruct c. Qed.

Lemma c_eq_same_items a b : items a = items b -> c_eq a b = true.
Proof. intros H. apply c_eq_iff_content. now rewrite !content_items, H. Qed.

Lemma c_eq_refl a : c_eq a a = true.
Proof. now apply c_eq_same_items. Qed.

Lemma c_eq_sym a b : c_eq a b = c_eq b a.
Proof. apply eq_true_iff_eq. rewrite !c_eq_iff_content. split; congruence. Qed.

Lemma c_eq_trans a b c : c_eq a b = true -> c_eq b c = true -> c_eq a c = true.
Proof. rewrite !c_eq_iff_content. congruence. Qed.

(* containers built from plain strings and plain FIXContainer items only (no class objects, no
   FIXMessage inside a group): content is the items themselves *)
Fixpoint pureb (c : container) : bool :=
  match c with
  | C m l => match m with None => true | Some _ => false end
             && forallb (fun kv => pureb_v (snd kv)) l
  end
with pureb_v (v : value) : bool :=
  match v with
  | VStr _ => true
  | VGrp g => forallb pureb g
  | VCls _ _ => false
  end.
Definition pure (c : container) : bool := forallb (fun kv => pureb_v (snd kv)) (items c).

Lemma map_inj_on {A B} (f : A -> B) (ok : A -> bool) l1 :
  Forall (fun x => forall y, ok x = true -> ok y = true -> f x = f y -> x = y) l1 ->
  forall l2, forallb ok l1 = true -> forallb ok l2 = true -> map f l1 = map f l2 -> l1 = l2.
Proof.
  intros F. induction F as [|x l1 Hx F IH]; intros [|y l2] O1 O2 H; try discriminate H; [reflexivity|].
  cbn [forallb] in O1, O2. apply andb_true_iff in O1, O2. injection H as Hxy Hl.
  now rewrite (Hx y (proj1 O1) (proj1 O2) Hxy), (IH l2 (proj2 O1) (proj2 O2) Hl).
Qed.

Lemma content_inj c1 : forall c2, pureb c1 = true -> pureb c2 = true -> content c1 = content c2 -> c1 = c2.
Proof.
  induction c1 as [m l IH|s|g IH|k x] using container_ind2
    with (Q := fun v1 => forall v2, pureb_v v1 = true -> pureb_v v2 = true -> content_v v1 = content_v v2 -> v1 = v2).
  - intros [m2 l2] P1 P2 H. cbn [pureb content] in *. destruct m as [?|], m2 as [?|]; try discriminate. f_equal.
    apply (map_inj_on _ (fun kv => pureb_v (snd kv))) in H; [exact H| |exact P1|exact P2]. eapply Forall_impl; [|exact IH].
    intros [k v] Hv [k' v'] Pv Pv' [= -> E]. f_equal. now apply Hv.
  - intros [t|h|k x] _ P2 H; try discriminate. cbn in H. congruence.
  - intros [s|h|[] x] P1 P2 H; try discriminate. injection H as H. f_equal. now apply (map_inj_on content pureb) in H.
  - discriminate.
Qed.

(* well formed: keys are unique and are integer keys (int() accepts them), at every depth *)
Inductive wfc : container -> Prop :=
| wf_C m l : NoDup (map fst l) -> Forall (fun k => key_ok k = true) (map fst l) ->
             Forall (fun kv => wfv (snd kv)) l -> wfc (C m l)
with wfv : value -> Prop :=
| wf_VStr s : wfv (VStr s)
| wf_VGrp g : Forall wfc g -> wfv (VGrp g)
| wf_VCls k x : wfv (VCls k x).

Lemma wfc_keys c : wfc c -> NoDup (keys c).
Proof. intros H. now inversion H. Qed.

Lemma wfc_int_keys c : wfc c -> Forall (fun k => key_ok k = true) (keys c).
Proof. intros H. now inversion H. Qed.

Lemma wf_empty m : wfc (C m []).
Proof. constructor; constructor. Qed.

Lemma wf_lookup c k v : wfc c -> lookup k (items c) = Some v -> wfv v.
Proof.
  intros W L. apply lookup_In in L. destruct W as [m l _ _ F]. rewrite Forall_forall in F.
  now apply (F (k, v)).
Qed.

Lemma wf_upd c k v : wfc c -> key_ok k = true -> wfv v -> wfc (upd k v c).
Proof.
  intros W K Wv. destruct W as [m l ND FK FV]. unfold upd. cbn [items with_items mt]. constructor.
  - now apply assign_NoDup.
  - rewrite Forall_map in *. now apply assign_Forall.
  - now apply assign_Forall.
Qed.

Lemma wf_remove c k : wfc c -> wfc (with_items c (remove k (items c))).
Proof.
  intros W. destruct W as [m l ND FK FV]. cbn [items with_items mt]. constructor.
  - rewrite remove_keys by exact ND. now apply NoDup_filter.
  - rewrite Forall_map in *. now apply remove_Forall.
  - now apply remove_Forall.
Qed.

Lemma set_wf t v r c : wfc c -> wfc (fst (c_set t v r c)).
Proof.
  intros W. unfold c_set. destruct (tag_ok t) eqn:T; cbn [negb fst]; [|exact W].
  destruct v as [s|k x].
  - destruct (negb r && has (tag_str t) (items c)); cbn [fst]; [exact W|].
    apply wf_upd; [exact W|exact T|constructor].
  - cbn [fst]. apply wf_upd; [exact W|exact T|constructor].
Qed.

Lemma del_wf t c : wfc c -> wfc (fst (c_del t c)).
Proof.
  intros W. unfold c_del. destruct (has (tag_str t) (items c)); cbn [fst]; [|exact W]. now apply wf_remove.
Qed.

Lemma py_insert_Forall {A} (P : A -> Prop) idx x l : P x -> Forall P l -> Forall P (py_insert idx x l).
Proof.
  intros Px F. destruct (py_insert_spec idx x l) as (a & b & E & -> & _). subst l.
  apply Forall_app in F. destruct F as [Fa Fb]. apply Forall_app. split; [exact Fa|now constructor].
Qed.

Lemma group_list_wf t c g : wfc c -> c_get_group_list t c = Ok g -> Forall wfc g.
Proof.
  intros W. rewrite group_list_classes.
  destruct (lookup (tag_str t) (items c)) as [[s|g0|k x]|] eqn:L; try discriminate.
  intros [= <-]. pose proof (wf_lookup _ _ _ W L) as Wg. now inversion Wg.
Qed.

Lemma add_group_wf t item idx c :
  wfc c -> (forall it, item = Ok it -> wfc it) -> wfc (fst (c_add_group t item idx c)).
Proof.
  intros W Wi. rewrite add_group_eq. destruct (tag_ok t) eqn:T; [|exact W]. destruct item as [it|e]; [|exact W].
  assert (G : Forall wfc (group_or_nil t c)).
  { unfold group_or_nil. destruct (c_get_group_list t c) eqn:E; [now apply (group_list_wf t c)|constructor]. }
  destruct (c_is_group t c) as [[|]|]; try exact W;
    (apply wf_upd; [exact W|exact T|]); constructor; apply py_insert_Forall; auto.
Qed.

Lemma set_group_wf t g c :
  wfc c -> (forall g', g = Ok g' -> Forall wfc g') -> wfc (fst (c_set_group t g c)).
Proof.
  intros W Wg. unfold c_set_group. destruct (tag_ok t) eqn:T; cbn [negb fst]; [|exact W].
  destruct (has (tag_str t) (items c)); cbn [fst]; [exact W|].
  destruct g as [g'|e]; cbn [fst]; [|exact W]. apply wf_upd; [exact W|exact T|]. constructor. now apply Wg.
Qed.

Section DitemInd.
  Context (P : ditem -> Prop) (Q : dval -> Prop).
  Context (HD : forall d, Forall (fun td => Q (snd td)) d -> P (IDict d)).
  Context (HV : forall j, P (IVar j)).
  Context (HB : P IBad).
  Context (HVal : forall v, Q (DVal v)).
  Context (HL : forall l, Forall P l -> Q (DList l)).

  Fixpoint ditem_ind2 (i : ditem) : P i :=
    match i with
    | IDict d =>
        HD d ((fix go (d : list (tag * dval)) : Forall (fun td => Q (snd td)) d :=
                 match d with
                 | [] => Forall_nil _
                 | td :: d' => Forall_cons td (dval_ind2 (snd td)) (go d')
                 end) d)
    | IVar j => HV j
    | IBad => HB
    end
  with dval_ind2 (dv : dval) : Q dv :=
    match dv with
    | DVal v => HVal v
    | DList l =>
        HL l ((fix go (l : list ditem) : Forall P l :=
                 match l with
                 | [] => Forall_nil _
                 | i :: l' => Forall_cons i (ditem_ind2 i) (go l')
                 end) l)
    end.
End DitemInd.

Definition dentry_wf (e : dentry) : Prop :=
  match e with EGrp (Ok g) => Forall wfc g | _ => True end.

Lemma init_step_wf c t e c' : wfc c -> dentry_wf e -> init_step c t e = Ok c' -> wfc c'.
Proof.
  intros W We. unfold init_step.
  assert (H : wfc (fst (match e with EVal v => c_set t v false c | EGrp g => c_set_group t g c end))).
  { destruct e as [v|g]; [now apply set_wf|]. apply set_group_wf; [exact W|]. now intros g' ->. }
  destruct (match e with EVal _ => _ | EGrp _ => _ end) as [c1 [u|x]]; [|discriminate]. now intros [= <-].
Qed.

Lemma build_from_wf conv d :
  Forall (fun td => dentry_wf (conv (snd td))) d ->
  forall c c', wfc c -> build_from conv d c = Ok c' -> wfc c'.
Proof.
  intros F. induction F as [|td d Hd F IH]; intros c c' W; cbn [build_from]; [now intros [= <-]|].
  destruct (init_step c (fst td) (conv (snd td))) as [c1|e] eqn:E; [|discriminate].
  apply IH. now apply (init_step_wf _ _ _ _ W Hd E).
Qed.

Lemma mapM_Forall {A B} (f : A -> res B) (P : B -> Prop) l ys :
  Forall (fun x => forall y, f x = Ok y -> P y) l -> mapM f l = Ok ys -> Forall P ys.
Proof.
  intros F. revert ys. induction F as [|x l Hx F IH]; intros ys; cbn [mapM].
  - intros H. inversion H. constructor.
  - destruct (f x) as [y|e] eqn:E; [|discriminate]. destruct (mapM f l) as [ys'|e]; [|discriminate].
    intros H. inversion H; subst. constructor; [now apply Hx|now apply IH].
Qed.

Lemma conv_list_wf p l :
  (forall g, mapM (conv_item p) l = Ok g -> Forall wfc g) -> dentry_wf (conv_dval p (DList l)).
Proof.
  intros H. change (conv_dval p (DList l)) with (EGrp (mapM (conv_item p) l)). cbn [dentry_wf].
  destruct (mapM (conv_item p) l); [now apply H|exact I].
Qed.

Section ConvWf.
  Context (p : list container) (Wp : Forall wfc p).

  Lemma var_wf j : wfc (nth j p empty).
  Proof.
    destruct (nth_in_or_default j p empty) as [H| ->]; [|apply wf_empty].
    rewrite Forall_forall in Wp. now apply Wp.
  Qed.

  Lemma conv_item_wf i : forall c, conv_item p i = Ok c -> wfc c.
  Proof.
    induction i as [d F|j| |v|l F] using ditem_ind2 with (Q := fun dv => dentry_wf (conv_dval p dv)).
    - intros c. change (conv_item p (IDict d)) with (build_from (conv_dval p) d empty).
      now apply build_from_wf; [|apply wf_empty].
    - intros c [= <-]. apply var_wf.
    - discriminate.
    - exact I.
    - apply conv_list_wf. intros g. now apply mapM_Forall.
  Qed.

  Lemma conv_items_wf l g : mapM (conv_item p) l = Ok g -> Forall wfc g.
  Proof. apply mapM_Forall. apply Forall_forall. intros i _. apply conv_item_wf. Qed.

  Lemma c_new_wf m d c : c_new p m d = Ok c -> wfc c.
  Proof.
    unfold c_new. apply build_from_wf; [|apply wf_empty]. apply Forall_forall.
    intros [t [v|l]] _; [exact I|]. apply conv_list_wf, conv_items_wf.
  Qed.
End ConvWf.

Lemma set_nth_Forall {A} (P : A -> Prop) n x l : P x -> Forall P l -> Forall P (set_nth n x l).
Proof.
  intros Px F. revert n. induction F as [|y l Hy F IH]; intros [|n]; cbn [set_nth]; try constructor; auto.
Qed.

Lemma locate_wf s c k g n x :
  wfc c -> locate s c = Ok (k, g, n, x) -> key_ok k = true /\ Forall wfc g /\ wfc x.
Proof.
  intros W L. destruct (locate_inv _ _ _ _ _ _ L) as (_ & Lk & Ln).
  pose proof (wf_lookup _ _ _ W Lk) as Wg. inversion Wg as [|g' Fg|]; subst. split; [|split].
  - pose proof (wfc_int_keys _ W) as F. rewrite Forall_forall in F. apply F.
    apply lookup_In in Lk. now apply (in_map fst) in Lk.
  - exact Fg.
  - rewrite Forall_forall in Fg. apply Fg. now apply nth_error_In in Ln.
Qed.

Lemma located_wf s c x :
  wfc c -> match locate s c with Ok (_, _, _, y) => Ok y | Exc e => Exc e end = Ok x -> wfc x.
Proof.
  intros W. destruct (locate s c) as [[[[k g] n] y]|e] eqn:L; intros [= <-]. now apply (locate_wf _ _ _ _ _ _ W L).
Qed.

Lemma group_by_index_wf t idx c x : wfc c -> c_get_group_by_index t idx c = Ok x -> wfc x.
Proof. rewrite locate_by_index. apply located_wf. Qed.

Lemma group_by_tag_wf t gt gv c x : wfc c -> c_get_group_by_tag t gt gv c = Ok x -> wfc x.
Proof. rewrite locate_by_tag. apply located_wf. Qed.

Lemma at_path_wf {R} path (f : container -> container * R) :
  (forall x, wfc x -> wfc (fst (f x))) -> forall c, wfc c -> wfc (fst (at_path path f c)).
Proof.
  intros F. induction path as [|s path IH]; intros c W; cbn [at_path].
  - specialize (F c W). destruct (f c). exact F.
  - destruct (locate s c) as [[[[k g] n] x]|e'] eqn:L; [|exact W].
    destruct (locate_wf _ _ _ _ _ _ W L) as (K & Fg & Wx). specialize (IH x Wx).
    destruct (at_path path f x) as [x' r]. cbn [fst] in *.
    apply wf_upd; [exact W|exact K|]. constructor. now apply set_nth_Forall.
Qed.

Lemma fst_let {A B A' B'} (r : A * B) (f : A -> A') (g : B -> B') :
  fst (let (a, b) := r in (f a, g b)) = f (fst r).
Proof. now destruct r. Qed.

Lemma set_msg_type_wf s x : wfc x -> wfc (set_msg_type s x).
Proof. intros W. destruct W as [[m|] l]; now constructor. Qed.

Lemma apply_lop_wf p o x : Forall wfc p -> wfc x -> wfc (fst (apply_lop p o x)).
Proof.
  intros Wp W. destruct o; cbn [apply_lop]; rewrite ?fst_let.
  - now apply set_wf.
  - now apply del_wf.
  - apply add_group_wf; [exact W|]. intros it'. now apply conv_item_wf.
  - apply set_group_wf; [exact W|]. intros g'. now apply conv_items_wf.
  - now apply set_msg_type_wf.
  - exact W.
Qed.

Lemma store_wf p dst r : Forall wfc p -> (forall c, r = Ok c -> wfc c) -> Forall wfc (store p dst r).
Proof.
  intros W H. unfold store. destruct dst as [j|], r as [c|e]; try exact W. apply set_nth_Forall; auto.
Qed.

Lemma step_wf p o : Forall wfc p -> Forall wfc (fst (step p o)).
Proof.
  intros W. pose proof (var_wf p W) as V.
  destruct o; cbn [step]; rewrite ?fst_let; try exact W.
  - destruct (c_new p m d) as [c|e] eqn:E; cbn [fst]; [|exact W].
    apply set_nth_Forall; [|exact W]. now apply (c_new_wf p W m d).
  - apply set_nth_Forall; [|exact W]. apply set_wf, V.
  - apply set_nth_Forall; [|exact W]. apply del_wf, V.
  - apply set_nth_Forall; [|exact W]. apply add_group_wf; [apply V|]. intros it'. now apply conv_item_wf.
  - apply set_nth_Forall; [|exact W]. apply set_group_wf; [apply V|]. intros g'. now apply conv_items_wf.
  - apply store_wf; [exact W|]. intros c. apply group_by_tag_wf, V.
  - apply store_wf; [exact W|]. intros c. apply group_by_index_wf, V.
  - cbn [fst]. pose proof (set_msg_type_wf s _ (V i)) as H. unfold var in *.
    destruct (nth i p empty) as [[s0|] l]; [|exact W]. now apply set_nth_Forall.
  - apply set_nth_Forall; [|exact W]. apply at_path_wf; [|apply V]. intros x. now apply apply_lop_wf.
Qed.

Lemma init_wf n : Forall wfc (init n).
Proof. unfold init. induction n; cbn; constructor; [apply wf_empty|assumption]. Qed.

(* keys stay unique and integer, at every depth, in every variable, after every operation sequence *)
Lemma reachable_wf n ops : Forall wfc (run_state n ops).
Proof.
  unfold run_state.
  assert (G : forall p, Forall wfc p -> Forall wfc (fold_left (fun p o => fst (step p o)) ops p)).
  { induction ops as [|o ops IH]; cbn [fold_left]; intros p W; [exact W|]. apply IH. now apply step_wf. }
  apply G. apply init_wf.
Qed.

Definition dict_key (tv : tag * str) : str := tag_str (fst tv).
Definition holds_pair (c : container) (tv : tag * str) : Prop :=
  lookup (dict_key tv) (items c) = Some (VStr (snd tv)).
Definition same_core_keys (other : list (tag * str)) (c : container) : Prop :=
  set_eqb (core_keys (map dict_key other)) (core_keys (keys c)) = true.
(* what the property asks for: same tags and same values, the framing tags left out on both sides *)
Definition dict_content_eq (other : list (tag * str)) (c : container) : Prop :=
  same_core_keys other c /\
  Forall (fun tv => mem (dict_key tv) ignore_tags = true \/ holds_pair c tv) other.

(* what the loop makes of one pair: Ok true lets it go on, anything else is its result *)
Definition verdict (c : container) (tv : tag * str) : res bool :=
  if mem (dict_key tv) ignore_tags then Ok true
  else match lookup (dict_key tv) (items c) with
       | Some (VStr s) => Ok (str_eqb s (snd tv))
       | Some (VGrp _) => Exc EFIXMessage
       | Some (VCls KTagNotFound _) | None => Exc ETagNotFound
       | Some (VCls KRepeating _) => Exc ERepeatingTag
       | Some (VCls _ _) => Ok false
       end.

Lemma eq_dict_loop_cons tv o c :
  eq_dict_loop (tv :: o) c = match verdict c tv with Ok true => eq_dict_loop o c | r => r end.
Proof.
  destruct tv as [t v]. unfold verdict, dict_key. cbn [eq_dict_loop fst snd]. unfold c_is_group, c_get.
  destruct (mem _ _); [reflexivity|]. now destruct (lookup _ _) as [[s|g|[] x]|].
Qed.

Lemma verdict_true c tv : verdict c tv = Ok true <-> mem (dict_key tv) ignore_tags = true \/ holds_pair c tv.
Proof.
  unfold verdict, holds_pair. destruct (mem _ _); [split; auto|].
  destruct (lookup _ _) as [[s|g|[] x]|]; try (split; [discriminate|intros [|]; discriminate]).
  split; [intros [= E]; right; apply str_eqb_eq in E; now subst|intros [|[= ->]]; [discriminate|now rewrite str_eqb_refl]].
Qed.

Lemma eq_dict_loop_true other c :
  eq_dict_loop other c = Ok true <->
  Forall (fun tv => mem (dict_key tv) ignore_tags = true \/ holds_pair c tv) other.
Proof.
  induction other as [|tv o IH]; [split; [constructor|reflexivity]|].
  rewrite eq_dict_loop_cons, Forall_cons_iff, <- verdict_true, <- IH.
  destruct (verdict c tv) as [[|]|e]; split; try discriminate; tauto.
Qed.

(* the loop ends with Ok true or with the verdict on one of the pairs *)
Lemma eq_dict_loop_res other c :
  eq_dict_loop other c = Ok true \/ exists tv, In tv other /\ eq_dict_loop other c = verdict c tv.
Proof.
  induction other as [|tv o IH]; [now left|]. rewrite eq_dict_loop_cons.
  destruct (verdict c tv) as [[|]|e] eqn:E; try (right; exists tv; split; [now left|now rewrite E]).
  destruct IH as [IH|(tv' & I & IH)]; [now left|]. right. exists tv'. split; [now right|exact IH].
Qed.

(* the key test of == dict says that both sides have the same tags, the framing tags aside *)
Lemma same_core_keys_iff other c :
  same_core_keys other c <->
  forall k, mem k ignore_tags = false -> (In k (map dict_key other) <-> In k (keys c)).
Proof.
  assert (I : forall k ks, In k (core_keys ks) <-> In k ks /\ mem k ignore_tags = false).
  { intros k ks. unfold core_keys. rewrite filter_In, negb_true_iff. tauto. }
  unfold same_core_keys, set_eqb. rewrite andb_true_iff, !forallb_forall.
  setoid_rewrite mem_In. setoid_rewrite I. split.
  - intros [A B] k M. split; intros H; [apply A|apply B]; auto.
  - intros H. split; intros k [J M]; (split; [now apply (H k M)|exact M]).
Qed.

Lemma core_key_present other c tv :
  same_core_keys other c -> In tv other -> mem (dict_key tv) ignore_tags = false ->
  lookup (dict_key tv) (items c) <> None.
Proof.
  intros S I M L. apply lookup_None in L. apply L. apply (proj1 (same_core_keys_iff _ _) S _ M).
  now apply in_map.
Qed.

(* the text collisions of D18, for C18_eq_no_collision *)
Definition w_a : container := C None [([49], VStr [97; 124; 50; 61; 98])].          (* {1: "a|2=b"} *)
Definition w_b : container := C None [([49], VStr [97]); ([50], VStr [98])].        (* {1: "a", 2: "b"} *)
Definition w_c : container := C None [([49], VStr [49; 61; 62; 91; 93])].           (* {1: "1=>[]"} *)
Definition w_d : container := C None [([49], VGrp [empty])].                        (* {1: [{}]} *)
Definition w_e : container := C None [([50], VStr [98]); ([49], VStr [97])].        (* {2: "b", 1: "a"} *)
Definition w_err1 : container := C None [([49], VCls KTagNotFound [])].             (* {1: TagNotFoundError} *)
Definition w_err2 : container := C None [([49], VCls KRepeating [])].               (* {1: RepeatingTagError} *)
Definition w_errs : container := C None [([49], VStr ERR)].                         (* {1: "#err#"} *)
Definition w_m1 : container := C None [([55; 56], VGrp [C (Some [68]) [([49], VStr [97])]])].  (* {78: [FIXMessage("D", {1: "a"})]} *)
Definition w_m2 : container := C (Some [65]) [([55; 56], VGrp [C None [([49], VStr [97])]])].  (* FIXMessage("A", {78: [{1: "a"}]}) *)

(* the former D18 witnesses, for C18_repaired_witnesses *)
Definition w_msg : container := C (Some [68]) [([49], VStr [97])].                  (* FIXMessage("D", {1: "a"}) *)
Definition w_dict : list (tag * str) := [(TInt 35, [68]); (TInt 1, [97])].           (* {35: "D", 1: "a"} *)
Definition w_msg2 : container := C (Some [68]) [([51; 53], VStr [68]); ([49], VStr [97])].   (* {35: "D", 1: "a"} *)
Definition w_dict2 : list (tag * str) := [(TInt 35, [88]); (TInt 1, [97])].                  (* {35: "X", 1: "a"} *)
Definition w_grp : container := C None [([55; 56], VGrp [empty; empty])].           (* {78: [{}, {}]} *)

(* a reachable pool, for C18_nonvacuous *)
Definition ACCOUNT : str := [65; 99; 99; 111; 117; 110; 116].
Definition ex_ops : list op :=
  [ONew 0 None [(TFTag ACCOUNT, DVal (SVal [97]));
                (TInt 78, DList [IDict [(TStr [55; 57], DVal (SVal [120]))]; IDict []])];
   OSet 1 (TInt 1) (SVal [97]) false;
   OAddGroup 1 (TStr [55; 56]) (IDict [(TInt 79, DVal (SVal [120]))]) (-1);
   OAddGroup 1 (TInt 78) (IDict []) 5;
   OSet 1 (TStr [49]) (SVal [98]) false;
   OSet 2 (TInt 35) (SVal [68]) false;
   OSet 2 (TStr [32; 53]) (SVal [98]) false].

Definition hist_dict : list (tag * dval) :=
  [(TInt 11, DVal (SVal [111])); (TInt 78, DList [IDict [(TInt 79, DVal (SVal [97])); (TInt 80, DVal (SVal [49]))];
                                                   IDict [(TInt 79, DVal (SVal [98]))]])].
(* for C18_eq_follows_history: two equal containers; == ; append to an existing group of the first ; == ;
   the same on the second ; == ; replace a tag inside item 0 reached by get_group_by_index ; == ; the same
   change reached by get_group_by_tag on the second ; == ; delete inside the item get_group_list(..)[-1] ;
   == ; an accessor that fails *)
Definition hist_ops : list op :=
  [ONew 0 None hist_dict; ONew 1 None hist_dict; OEq 0 1;
   OAddGroup 0 (TInt 78) (IDict [(TInt 79, DVal (SVal [99]))]) (-1); OEq 0 1; OEq 1 0;
   OAddGroup 1 (TStr [55; 56]) (IDict [(TInt 79, DVal (SVal [99]))]) 2; OEq 0 1;
   OAt 0 [SIdx (TInt 78) 0] (LSet (TInt 80) (SVal [50]) true); OEq 0 1; OEq 1 0;
   OAt 1 [STag (TInt 78) (TInt 79) [97]] (LSet (TStr [56; 48]) (SVal [50]) true); OEq 0 1;
   OAt 0 [SList (TInt 78) (-1)] (LDel (TInt 79)); OEq 0 1;
   OAt 0 [SIdx (TInt 78) 7] (LDel (TInt 79))].

Fixpoint outcomes (p : pool) (ops : list op) : list outcome :=
  match ops with [] => [] | o :: ops' => let (p', r) := step p o in r :: outcomes p' ops' end.

