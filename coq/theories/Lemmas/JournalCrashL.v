(* Crash safety of the journal model (C08): what a fresh connection sees after the process died
   at an arbitrary primitive SQL statement / commit of an arbitrary operation sequence. *)
From Coq Require Import ZArith List Bool Lia.
From AF Require Import Fix.Journal Fix.JournalRun Lemmas.JournalL Lemmas.JournalRunL.
Import ListNotations.
Open Scope Z_scope.

(* nothing is pending on the connection (an implicit transaction may still be open) *)
Definition clean (d : db) : Prop := cur d = committed d.

Definition stepf (st : rstate) (o : op) : rstate := fst (step st o).
Definition run_from (st : rstate) (ops : list op) : rstate := fold_left stepf ops st.

(* JournalRunL.run_state is the run from the empty journal *)
Lemma run_state_from ops : run_state ops = run_from init ops.
Proof. reflexivity. Qed.

Lemma run_from_app st a b : run_from st (a ++ b) = run_from (run_from st a) b.
Proof. unfold run_from. apply fold_left_app. Qed.

Lemma run_state_snoc ops o : run_state (ops ++ [o]) = stepf (run_state ops) o.
Proof. rewrite !run_state_from, run_from_app. reflexivity. Qed.

Definition is_commit (p : prim) : bool := match p with PCommit => true | _ => false end.

Fixpoint commit_only_last (ps : list prim) : bool :=
  match ps with
  | [] => true
  | p :: ps' => match ps' with
                | [] => true
                | _ => negb (is_commit p) && commit_only_last ps'
                end
  end.

Lemma exec_prim_noncommit p d : is_commit p = false -> committed (fst (exec_prim p d)) = committed d.
Proof.
  destruct p; cbn [is_commit]; intros H; try discriminate; cbn [exec_prim];
    destruct (apply_stmt _ _); reflexivity.
Qed.

(* dying strictly inside a statement list whose only commit is its last element leaves the
   committed tables untouched *)
Lemma budget_keeps_committed ps : forall d b,
  commit_only_last ps = true -> (b < count_exec ps d)%nat ->
  committed (fst (exec_budget ps d b)) = committed d.
Proof.
  induction ps as [|p ps IH]; intros d b C L; [cbn in L; lia|].
  destruct b as [|b]; [reflexivity|].
  cbn [exec_budget count_exec] in *.
  destruct (exec_prim p d) as [d' ok] eqn:E.
  destruct ok; [|lia].
  destruct ps as [|q ps]; [cbn in L; lia|].
  apply andb_prop in C. destruct C as [C1 C2]. apply negb_true_iff in C1.
  rewrite IH; [|exact C2|lia].
  pose proof (exec_prim_noncommit p d C1) as H. rewrite E in H. exact H.
Qed.

(* running out the budget after the statement list has finished is the same as running it *)
Lemma budget_enough ps : forall d b,
  (count_exec ps d <= b)%nat -> fst (exec_budget ps d b) = fst (exec_prims ps d).
Proof.
  induction ps as [|p ps IH]; intros d b L; [destruct b; reflexivity|].
  cbn [exec_budget count_exec exec_prims] in *.
  destruct b as [|b]; [destruct (exec_prim p d) as [d' ok]; destruct ok; lia|].
  destruct (exec_prim p d) as [d' ok]. destruct ok; [apply IH; lia|reflexivity].
Qed.

Lemma prims_commit_only_last hs o : commit_only_last (prims_of hs o) = true.
Proof.
  destruct o as [tg sd|h dir msg|h o i|h dir lo hi|h dir n| |hs' dir|msg|]; cbn [prims_of]; try reflexivity.
  - destruct (find_seq_no msg); [|reflexivity]. unfold persist_prims. destruct (dir =? OUTBOUND); reflexivity.
  - destruct (_ || _); reflexivity.
Qed.

Definition set_args (s : session) (o i : option Z) : option (Z * Z) :=
  let bad_o := match o with Some v => v <=? 0 | None => false end in
  let bad_i := match i with Some v => v <=? 0 | None => false end in
  if bad_o || bad_i then None
  else Some (match o with Some v => v | None => next_out s end,
             match i with Some v => v | None => next_in s end).

(* set_seq_num by components: the database, the key of the returned session object, the error *)
Lemma set_seq_num_nf s o i d :
  fst (fst (set_seq_num s o i d)) =
    match set_args s o i with
    | Some (no, ni) => let t := set_tables (cur d) (key s) no ni in mkDb t t false
    | None => d
    end
  /\ key (snd (fst (set_seq_num s o i d))) = key s
  /\ snd (set_seq_num s o i d) = match set_args s o i with None => Some EAssertion | Some _ => None end.
Proof.
  unfold set_seq_num, set_args.
  destruct o as [v|], i as [w|]; try destruct (v <=? 0); try destruct (w <=? 0); cbn; auto.
Qed.

Lemma prims_of_set hs h o i :
  prims_of hs (OSetSeq h o i) =
  match set_args (handle hs h) o i with
  | Some (no, ni) => set_seq_num_prims (handle hs h) no ni
  | None => []
  end.
Proof. cbn [prims_of]. unfold set_args. now destruct (_ || _). Qed.

(* the database effect of an operation is the effect of its primitive list (this is what makes
   run_crash, which counts primitives of prims_of, a statement about step) *)
Lemma step_db st o :
  r_db (stepf st o) = match o with
                      | OReopen => reopen (r_db st)
                      | _ => fst (exec_prims (prims_of (r_hs st) o) (r_db st))
                      end.
Proof.
  unfold stepf.
  destruct o as [tg sd|h dir msg|h o i|h dir lo hi|h dir n| |hs' dir|msg|]; try reflexivity.
  - cbn [step prims_of]. unfold create_or_load.
    destruct (exec_prims (create_or_load_prims tg sd) (r_db st)) as [d' ok].
    destruct ok; [reflexivity|]. destruct (lookup_session _ _ _); reflexivity.
  - cbn [step prims_of]. unfold persist_msg. destruct (find_seq_no msg) as [seq|]; [|reflexivity].
    destruct (exec_prims _ _) as [d' ok]. reflexivity.
  - rewrite prims_of_set. cbn [step].
    destruct (set_seq_num_nf (handle (r_hs st) h) o i (r_db st)) as [E _].
    destruct (set_seq_num _ _ _ _) as [[d' s'] e]. cbn [fst r_db] in *. rewrite E.
    now destruct (set_args _ o i) as [[no ni]|].
Qed.

(* what one operation does to the tables: nothing, or one of three changes *)
Inductive tstep (hs : list session) (t : tables) : op -> tables -> Prop :=
| ts_same o : tstep hs t o t
| ts_create tg sd :
    has_session t tg sd = false ->
    tstep hs t (OCreate tg sd) (mkT (t_sessions t ++ [mkS (next_sid t) tg sd 0 0]) (t_messages t))
| ts_persist h dir msg n :
    find_seq_no msg = Some n -> lookup t (key (handle hs h)) dir n = None ->
    tstep hs t (OPersist h dir msg) (persist_tables t n (key (handle hs h)) dir msg)
| ts_set h o i no ni :
    set_args (handle hs h) o i = Some (no, ni) ->
    tstep hs t (OSetSeq h o i) (set_tables t (key (handle hs h)) no ni).

Lemma prims_of_effect hs o d :
  clean d ->
  let d' := fst (exec_prims (prims_of hs o) d) in clean d' /\ tstep hs (cur d) o (cur d').
Proof.
  intros C.
  destruct o as [tg sd|h dir msg|h o i|h dir lo hi|h dir n| |hs' dir|msg|]; try (split; [exact C|constructor]).
  - cbn [prims_of create_or_load_prims exec_prims exec_prim apply_stmt].
    destruct (has_session (cur d) tg sd) eqn:H; (split; [|now constructor]); [exact C|reflexivity].
  - cbn [prims_of]. destruct (find_seq_no msg) as [n|] eqn:F; [|split; [exact C|constructor]].
    rewrite exec_persist_prims. destruct (lookup (cur d) (key (handle hs h)) dir n) eqn:L.
    + split; [exact C|constructor].
    + split; [reflexivity|now constructor].
  - rewrite prims_of_set. destruct (set_args (handle hs h) o i) as [[no ni]|] eqn:A; [|split; [exact C|constructor]].
    rewrite exec_set_prims. split; [reflexivity|now constructor].
Qed.

Lemma step_effect st o :
  clean (r_db st) ->
  clean (r_db (stepf st o)) /\ tstep (r_hs st) (cur (r_db st)) o (cur (r_db (stepf st o))).
Proof.
  intros C. rewrite step_db. destruct o; try exact (prims_of_effect _ _ _ C).
  split; [reflexivity|]. cbn. rewrite <- C. constructor.
Qed.

Lemma step_clean st o : clean (r_db st) -> clean (r_db (stepf st o)).
Proof. apply step_effect. Qed.

Lemma step_tstep st o : clean (r_db st) -> tstep (r_hs st) (cur (r_db st)) o (cur (r_db (stepf st o))).
Proof. apply step_effect. Qed.

Lemma reachable_clean ops : clean (r_db (run_state ops)).
Proof. apply (fold_left_inv (fun st => clean (r_db st))); [exact step_clean|reflexivity]. Qed.

Lemma run_from_wf ops : forall st, db_wf (r_db st) -> db_wf (r_db (run_from st ops)).
Proof. apply (fold_left_inv (fun st => db_wf (r_db st))). exact step_wf. Qed.

(* the states between operations *)
Definition at_rest (st : rstate) : Prop := db_wf (r_db st) /\ clean (r_db st).

Lemma step_at_rest st o : at_rest st -> at_rest (stepf st o).
Proof. intros [W C]. split; [now apply step_wf|now apply step_clean]. Qed.

Lemma reachable_at_rest ops : at_rest (run_state ops).
Proof. split; [apply reachable_wf|apply reachable_clean]. Qed.

(* P holds along a run as long as the guard G, which may look at the operations still to come, holds *)
Lemma run_from_inv (P : rstate -> Prop) (G : rstate -> list op -> Prop) :
  (forall st o ops, at_rest st -> P st -> G st (o :: ops) -> P (stepf st o) /\ G (stepf st o) ops) ->
  forall j ops st, at_rest st -> P st -> G st ops -> P (run_from st (firstn j ops)).
Proof.
  intros H. induction j as [|j IH]; intros [|o ops] st K p g; cbn; auto.
  destruct (H st o ops K p g). apply IH; auto using step_at_rest.
Qed.

Lemma run_from_inv_all (P : rstate -> Prop) (G : rstate -> list op -> Prop) :
  (forall st o ops, at_rest st -> P st -> G st (o :: ops) -> P (stepf st o) /\ G (stepf st o) ops) ->
  forall ops st, at_rest st -> P st -> G st ops -> P (run_from st ops).
Proof. intros H ops st K p g. rewrite <- (firstn_all ops). now apply (run_from_inv P G H). Qed.

(* number of primitives (data-modifying statements incl. a failing INSERT, and commits) that
   operation o executes when started in state st *)
Definition cost (st : rstate) (o : op) : nat := count_exec (prims_of (r_hs st) o) (r_db st).

(* primitives executed by the first j operations of ops *)
Fixpoint prefix_cost (st : rstate) (ops : list op) (j : nat) : nat :=
  match j with
  | O => O
  | S j' => match ops with
            | [] => O
            | o :: ops' => (cost st o + prefix_cost (stepf st o) ops' j')%nat
            end
  end.

(* all-or-nothing for one operation started with nothing pending: whatever the budget, the
   committed tables are those before the operation or those after it *)
Lemma op_all_or_nothing st o b :
  clean (r_db st) ->
  let d' := fst (exec_budget (prims_of (r_hs st) o) (r_db st) b) in
  ((b < cost st o)%nat -> committed d' = cur (r_db st))
  /\ ((cost st o <= b)%nat -> committed d' = cur (r_db (stepf st o))).
Proof.
  intros C d'. split.
  - intros L. unfold d'. rewrite budget_keeps_committed; [symmetry; exact C|apply prims_commit_only_last|exact L].
  - intros L. unfold d'. rewrite budget_enough by exact L.
    pose proof (step_clean st o C) as C'. unfold clean in C'. rewrite C'. rewrite step_db. destruct o; reflexivity.
Qed.

Lemma run_crash_spec ops : forall st b done0,
  clean (r_db st) ->
  let '(d, done, died) := run_crash st ops b done0 in
  exists j, done = (done0 + j)%nat /\ (j <= length ops)%nat
    /\ committed d = cur (r_db (run_from st (firstn j ops)))
    /\ (died = false -> j = length ops)
    /\ (died = true -> (j < length ops)%nat)
    /\ (prefix_cost st ops j <= b)%nat
    /\ (died = true -> (b < prefix_cost st ops (S j))%nat).
Proof.
  induction ops as [|o ops IH]; intros st b done0 C; cbn [run_crash].
  (* nothing is pending at st: in the two cases where no further operation completes, the
     committed tables are the current tables of st *)
  - exists O. cbn. split; [lia|]. split; [lia|]. split; [symmetry; exact C|].
    intuition (discriminate || lia).
  - fold (cost st o). destruct (Nat.ltb_spec b (cost st o)) as [LT|LT].
    + exists O. cbn [firstn run_from fold_left length prefix_cost]. split; [lia|]. split; [lia|]. split.
      { rewrite budget_keeps_committed; [symmetry; exact C|apply prims_commit_only_last|exact LT]. }
      intuition (discriminate || lia).
    + specialize (IH (stepf st o) (b - cost st o)%nat (S done0) (step_clean st o C)).
      destruct (step st o) as [st' r] eqn:St. replace st' with (stepf st o) by (unfold stepf; now rewrite St).
      destruct (run_crash (stepf st o) ops _ _) as [[d done] died]. destruct IH as [j IH].
      exists (S j). cbn [firstn length prefix_cost] in *.
      (* the committed tables are IH's: a run from st over o :: l is the run from stepf st o over l *)
      change (run_from st (o :: firstn j ops)) with (run_from (stepf st o) (firstn j ops)). intuition lia.
Qed.

Lemma observe_cur d1 d2 : cur d1 = cur d2 -> observe d1 = observe d2.
Proof. intros E. unfold observe, sessions, get_all_msgs. now rewrite E. Qed.

Lemma recovered_cur ops k :
  let '(d, done, _) := run_crash init ops k 0 in cur (reopen d) = cur (r_db (run_state (firstn done ops))).
Proof.
  pose proof (run_crash_spec ops init k 0 eq_refl) as H.
  destruct (run_crash init ops k 0) as [[d done] died]. destruct H as [j [-> [_ [Eq _]]]]. exact Eq.
Qed.

Lemma firstn_past {A} (pre : list A) o post done :
  (length pre < done)%nat ->
  firstn done (pre ++ o :: post) = (pre ++ [o]) ++ firstn (done - S (length pre)) post.
Proof.
  intros L. rewrite firstn_app. rewrite firstn_all2 by lia.
  replace (done - length pre)%nat with (S (done - S (length pre))) by lia.
  cbn [firstn]. rewrite <- app_assoc. reflexivity.
Qed.

Lemma recovered_after pre p post k :
  let '(d, done, _) := run_crash init (pre ++ p :: post) k 0 in
  (length pre < done)%nat ->
  cur (reopen d) = cur (r_db (run_from (stepf (run_state pre) p) (firstn (done - S (length pre)) post))).
Proof.
  pose proof (recovered_cur (pre ++ p :: post) k) as E.
  destruct (run_crash init (pre ++ p :: post) k 0) as [[d done] died].
  intros L. rewrite E, firstn_past by exact L.
  now rewrite run_state_from, run_from_app, <- run_state_from, run_state_snoc.
Qed.

(* set_seq_num that removes entry (sid, dir, n) *)
Definition removes (hs : list session) (o : op) (sid dir n : Z) : bool :=
  match o with
  | OSetSeq h o' i' =>
      match set_args (handle hs h) o' i' with
      | Some (no, ni) =>
          (sid =? key (handle hs h)) && (((dir =? INBOUND) && (ni <=? n)) || ((dir =? OUTBOUND) && (no <=? n)))
      | None => false
      end
  | _ => false
  end.

Lemma tstep_keeps_row hs t o t' sid dir n m :
  wf t -> tstep hs t o t' ->
  lookup t sid dir n = Some m -> removes hs o sid dir n = false -> lookup t' sid dir n = Some m.
Proof.
  intros W T L R. destruct T as [o|tg sd H|h dir' msg n' F L'|h o i no ni A]; try exact L.
  - rewrite lookup_persist_tables by exact L'.
    destruct ((n =? n') && (sid =? key (handle hs h)) && (dir =? dir')) eqn:K; [|exact L].
    rewrite !andb_true_iff, !Z.eqb_eq in K. destruct K as [[-> ->] ->]. congruence.
  - cbn [removes] in R. rewrite A in R. rewrite lookup_set_tables by exact W. now rewrite R.
Qed.

Fixpoint never_removed (st : rstate) (ops : list op) (sid dir n : Z) : bool :=
  match ops with
  | [] => true
  | o :: ops' => negb (removes (r_hs st) o sid dir n) && never_removed (stepf st o) ops' sid dir n
  end.

Lemma run_keeps_row ops st sid dir n m :
  at_rest st -> lookup (cur (r_db st)) sid dir n = Some m -> never_removed st ops sid dir n = true ->
  lookup (cur (r_db (run_from st ops))) sid dir n = Some m.
Proof.
  apply (run_from_inv_all (fun st => lookup (cur (r_db st)) sid dir n = Some m)
                          (fun st ops => never_removed st ops sid dir n = true)).
  clear. intros st o ops [[W _] C] L N. cbn [never_removed] in N.
  apply andb_prop in N. destruct N as [N1 N2]. apply negb_true_iff in N1. split; [|exact N2].
  eapply tstep_keeps_row; eauto using step_tstep.
Qed.

Lemma persist_ok_free msg s dir d n :
  find_seq_no msg = Some n -> snd (persist_msg msg s dir d) = None -> lookup (cur d) (key s) dir n = None.
Proof.
  intros F OK. rewrite persist_msg_nf, F in OK. now destruct (lookup (cur d) (key s) dir n).
Qed.

Lemma persist_commit_state st h dir msg n :
  let s := handle (r_hs st) h in
  find_seq_no msg = Some n -> lookup (cur (r_db st)) (key s) dir n = None ->
  let t' := cur (r_db (stepf st (OPersist h dir msg))) in
  lookup t' (key s) dir n = Some msg
  /\ counter t' (key s) =
     option_map (fun c => if dir =? OUTBOUND then (n, snd c) else (fst c, n)) (counter (cur (r_db st)) (key s)).
Proof.
  intros s F L t'. unfold t'. rewrite step_db. cbn [prims_of]. rewrite F. fold s.
  rewrite exec_persist_prims, L. now apply persist_tables_own.
Qed.

(* durability from any state between operations: a persist_msg that returned stays retrievable
   byte-for-byte until a set_seq_num removes it *)
Lemma persist_survives st h dir msg n ops :
  let s := handle (r_hs st) h in
  at_rest st -> find_seq_no msg = Some n -> snd (persist_msg msg s dir (r_db st)) = None ->
  never_removed (stepf st (OPersist h dir msg)) ops (key s) dir n = true ->
  lookup (cur (r_db (run_from (stepf st (OPersist h dir msg)) ops))) (key s) dir n = Some msg.
Proof.
  intros s K F OK N. apply run_keeps_row; [now apply step_at_rest| |exact N].
  apply (persist_commit_state st h dir msg n F). now apply (persist_ok_free msg).
Qed.

(* operation o does not write session sid *)
Definition quiet (hs : list session) (o : op) (sid : Z) : bool :=
  match o with
  | OPersist h _ _ => negb (key (handle hs h) =? sid)
  | OSetSeq h _ _ => negb (key (handle hs h) =? sid)
  | _ => true
  end.

Lemma tstep_quiet hs t o t' sid c :
  wf t -> tstep hs t o t' -> quiet hs o sid = true -> counter t sid = Some c ->
  counter t' sid = Some c /\ forall dir n, lookup t' sid dir n = lookup t sid dir n.
Proof.
  intros W T Q Ct. destruct T as [o|tg sd H|h dir' msg n' F L'|h o i no ni A]; cbn [quiet] in Q.
  - split; [exact Ct|reflexivity].
  - split; [|reflexivity]. now rewrite counter_add_session, Ct.
  - apply negb_true_iff in Q. rewrite Z.eqb_sym in Q. split.
    + rewrite counter_persist_tables, Ct. cbn. now rewrite Q.
    + intros dir n. rewrite lookup_persist_tables by exact L'. now rewrite Q, andb_false_r.
  - apply negb_true_iff in Q. rewrite Z.eqb_sym in Q. split.
    + rewrite counter_set_tables, Ct. cbn. now rewrite Q.
    + intros dir n. rewrite lookup_set_tables by exact W. now rewrite Q.
Qed.

Fixpoint all_quiet (st : rstate) (ops : list op) (sid : Z) : bool :=
  match ops with
  | [] => true
  | o :: ops' => quiet (r_hs st) o sid && all_quiet (stepf st o) ops' sid
  end.

Lemma run_quiet ops st sid c :
  at_rest st -> counter (cur (r_db st)) sid = Some c -> all_quiet st ops sid = true ->
  counter (cur (r_db (run_from st ops))) sid = Some c
  /\ forall dir n, lookup (cur (r_db (run_from st ops))) sid dir n = lookup (cur (r_db st)) sid dir n.
Proof.
  intros K Ct. set (t0 := cur (r_db st)).
  apply (run_from_inv_all (fun st => counter (cur (r_db st)) sid = Some c
                                     /\ forall dir n, lookup (cur (r_db st)) sid dir n = lookup t0 sid dir n)
                          (fun st ops => all_quiet st ops sid = true)); [|exact K|now split].
  clear K Ct. intros st' o ops' [[W _] C] [Ct Lk] Q. cbn [all_quiet] in Q. apply andb_prop in Q. destruct Q as [Q1 Q2].
  destruct (tstep_quiet _ _ _ _ sid c W (step_tstep st' o C) Q1 Ct) as [Ct' Lk'].
  repeat split; [exact Ct'| |exact Q2]. intros dir n. now rewrite Lk'.
Qed.

(* from any state between operations: after a set_seq_num that returned, the stored counters are
   the new values minus one, nothing at or above them is stored and everything below is
   untouched, until an operation writes that session again *)
Lemma set_seq_survives st h o i no ni c ops :
  let s := handle (r_hs st) h in
  at_rest st -> set_args s o i = Some (no, ni) -> counter (cur (r_db st)) (key s) = Some c ->
  all_quiet (stepf st (OSetSeq h o i)) ops (key s) = true ->
  let t' := cur (r_db (run_from (stepf st (OSetSeq h o i)) ops)) in
  counter t' (key s) = Some (no - 1, ni - 1)
  /\ (forall n, ni <= n -> lookup t' (key s) INBOUND n = None)
  /\ (forall n, no <= n -> lookup t' (key s) OUTBOUND n = None)
  /\ (forall n, n < ni -> lookup t' (key s) INBOUND n = lookup (cur (r_db st)) (key s) INBOUND n)
  /\ (forall n, n < no -> lookup t' (key s) OUTBOUND n = lookup (cur (r_db st)) (key s) OUTBOUND n).
Proof.
  intros s K A Ct Q t'. set (p := OSetSeq h o i) in *. pose proof (proj1 (proj1 K)) as W.
  assert (Db : cur (r_db (stepf st p)) = set_tables (cur (r_db st)) (key s) no ni).
  { unfold p. rewrite step_db, prims_of_set. fold s. now rewrite A. }
  assert (Ct' : counter (cur (r_db (stepf st p))) (key s) = Some (no - 1, ni - 1)).
  { rewrite Db, counter_set_tables, Ct. cbn. now rewrite Z.eqb_refl. }
  destruct (run_quiet _ _ _ _ (step_at_rest st p K) Ct' Q) as [Ct'' Lk].
  split; [exact Ct''|]. unfold t'.
  repeat split; intros n Hn; rewrite Lk, Db, lookup_set_tables by exact W; rewrite Z.eqb_refl; unfold INBOUND, OUTBOUND; cbn.
  - apply Z.leb_le in Hn. now rewrite Hn.
  - apply Z.leb_le in Hn. now rewrite Hn.
  - apply Z.leb_gt in Hn. now rewrite Hn.
  - apply Z.leb_gt in Hn. now rewrite Hn.
Qed.

Lemma in_del_from r sid from dir l :
  In r (del_from sid from dir l) -> In r l /\ (m_sid r = sid -> m_dir r = dir -> m_seq r < from).
Proof.
  unfold del_from. rewrite filter_In. intros [I K]. split; [exact I|]. intros <- <-.
  rewrite !Z.eqb_refl, andb_true_r in K. now apply negb_true_iff, Z.leb_gt in K.
Qed.

Lemma tstep_rows hs t o t' r :
  tstep hs t o t' -> In r (t_messages t') ->
  In r (t_messages t)
  \/ exists h, o = OPersist h (m_dir r) (m_msg r) /\ key (handle hs h) = m_sid r
               /\ find_seq_no (m_msg r) = Some (m_seq r)
               /\ lookup t (m_sid r) (m_dir r) (m_seq r) = None.
Proof.
  intros T I. destruct T as [o|tg sd H|h dir msg n F L|h o i no ni A]; [now left|now left| |].
  - rewrite persist_tables_messages, in_app_iff in I. destruct I as [I|[<-|[]]]; [now left|].
    right. exists h. cbn. auto.
  - left. cbn [set_tables t_messages] in I. now do 2 apply in_del_from, proj1 in I.
Qed.

(* every stored row was written by a persist_msg of the history that returned, and the commit
   that made the row durable also set the counter of that direction to the row's number: in the
   state right after that call the row is present with counter = its number *)
Lemma row_written ops : forall r,
  In r (t_messages (cur (r_db (run_state ops)))) ->
  exists pre h post,
    ops = pre ++ OPersist h (m_dir r) (m_msg r) :: post
    /\ let st := run_state pre in
       let t' := cur (r_db (run_state (pre ++ [OPersist h (m_dir r) (m_msg r)]))) in
       key (handle (r_hs st) h) = m_sid r
       /\ find_seq_no (m_msg r) = Some (m_seq r)
       /\ lookup t' (m_sid r) (m_dir r) (m_seq r) = Some (m_msg r)
       /\ counter t' (m_sid r) =
          option_map (fun c => if m_dir r =? OUTBOUND then (m_seq r, snd c) else (fst c, m_seq r))
                     (counter (cur (r_db st)) (m_sid r)).
Proof.
  induction ops as [|o ops IH] using rev_ind; intros r H; [destruct H|].
  rewrite run_state_snoc in H.
  destruct (tstep_rows _ _ _ _ _ (step_tstep _ o (reachable_clean ops)) H) as [H'|[h [-> [K [F L]]]]].
  - destruct (IH r H') as [pre [h [post [-> P]]]]. exists pre, h, (post ++ [o]).
    split; [now rewrite <- app_assoc|exact P].
  - exists ops, h, []. split; [reflexivity|]. cbn zeta. rewrite run_state_snoc, <- K in *.
    split; [reflexivity|]. split; [exact F|]. now apply persist_commit_state.
Qed.

(* DESIGN.md's form of "row implies counter": the stored counter of a direction is at least every
   stored number of that direction.  It is an invariant only of histories that store numbers in
   ascending order per session and direction (what the session engine does); C13 allows any order. *)
Definition below (t : tables) : Prop :=
  forall r c, In r (t_messages t) -> counter t (m_sid r) = Some c ->
    (m_dir r = OUTBOUND -> m_seq r <= fst c) /\ (m_dir r = INBOUND -> m_seq r <= snd c).

Definition asc_stepb (st : rstate) (o : op) : bool :=
  match o with
  | OPersist h dir msg =>
      match find_seq_no msg, counter (cur (r_db st)) (key (handle (r_hs st) h)) with
      | Some n, Some c => ctr_dir dir c <=? n
      | _, _ => true
      end
  | _ => true
  end.

Fixpoint ascending (st : rstate) (ops : list op) : bool :=
  match ops with
  | [] => true
  | o :: ops' => asc_stepb st o && ascending (stepf st o) ops'
  end.

(* below is kept because a new session id is fresh: no stored row and no handle carries it yet *)
Definition sids_known (t : tables) : Prop := forall r, In r (t_messages t) -> m_sid r < next_sid t.
Definition handles_known (st : rstate) : Prop := forall s, In s (r_hs st) -> key s < next_sid (cur (r_db st)).

Record asc_inv (st : rstate) : Prop := mkAI {
  ai_below : below (cur (r_db st));
  ai_sids : sids_known (cur (r_db st));
  ai_hs : handles_known st
}.

Lemma handle_known st h : handles_known st -> key (handle (r_hs st) h) < next_sid (cur (r_db st)).
Proof.
  intros H. unfold handle. destruct (nth_in_or_default h (r_hs st) dummy_session) as [I|E].
  - now apply H.
  - rewrite E. unfold next_sid. cbn. lia.
Qed.

Lemma next_sid_upd f sid t : next_sid (upd_sessions f sid t) = next_sid t.
Proof. unfold next_sid, upd_sessions. cbn. now rewrite map_length. Qed.

Lemma tstep_next_sid hs t o t' : tstep hs t o t' -> next_sid t <= next_sid t'.
Proof.
  intros T. destruct T as [o|tg sd H|h dir msg n F L|h o i no ni A].
  - lia.
  - unfold next_sid. cbn. rewrite app_length. lia.
  - unfold persist_tables. destruct (dir =? OUTBOUND); rewrite next_sid_upd; reflexivity.
  - rewrite set_tables_upd, next_sid_upd. reflexivity.
Qed.

Lemma tstep_sids hs t o t' :
  tstep hs t o t' -> (forall h, key (handle hs h) < next_sid t) -> sids_known t -> sids_known t'.
Proof.
  intros T Hk S r I. pose proof (tstep_next_sid _ _ _ _ T) as M.
  destruct (tstep_rows _ _ _ _ _ T I) as [I'|[h [_ [K _]]]].
  - specialize (S r I'). lia.
  - specialize (Hk h). lia.
Qed.

Lemma tstep_below st o t' :
  tstep (r_hs st) (cur (r_db st)) o t' ->
  below (cur (r_db st)) -> sids_known (cur (r_db st)) -> asc_stepb st o = true -> below t'.
Proof.
  set (t := cur (r_db st)). intros T B S A r c I Ct.
  destruct T as [o|tg sd H|h dir msg n F L|h o i no ni E].
  - now apply B.
  - cbn [t_messages] in I. rewrite counter_add_session in Ct.
    destruct (counter t (m_sid r)) eqn:C0; [apply (B r c I); congruence|].
    cbn [s_id] in Ct. destruct (next_sid t =? m_sid r) eqn:Q; [|discriminate].
    apply Z.eqb_eq in Q. specialize (S r I). lia.
  - cbn [asc_stepb] in A. rewrite F in A. fold t in A. set (sid := key (handle (r_hs st) h)) in *.
    rewrite persist_tables_messages, in_app_iff in I. rewrite counter_persist_tables in Ct.
    destruct (counter t (m_sid r)) as [c0|] eqn:C0; [|discriminate]. cbn in Ct. injection Ct as <-.
    destruct I as [I|[<-|[]]].
    + specialize (B r c0 I C0). destruct (m_sid r =? sid) eqn:Q; [|exact B].
      apply Z.eqb_eq in Q. rewrite Q in C0. rewrite C0 in A. unfold ctr_dir in A.
      destruct (dir =? OUTBOUND); apply Z.leb_le in A; cbn; lia.
    + cbn [m_sid m_dir m_seq]. rewrite Z.eqb_refl. unfold INBOUND, OUTBOUND.
      destruct (Z.eqb_spec dir 1); cbn; lia.
  - rewrite counter_set_tables in Ct. cbn [set_tables t_messages] in I.
    apply in_del_from in I. destruct I as [I K2]. apply in_del_from in I. destruct I as [I K1].
    destruct (counter t (m_sid r)) as [c0|] eqn:C0; [|discriminate]. cbn in Ct. injection Ct as <-.
    specialize (B r c0 I C0). destruct (m_sid r =? key (handle (r_hs st) h)) eqn:Q; [|exact B].
    apply Z.eqb_eq in Q. cbn. split; intros D; [specialize (K2 Q D)|specialize (K1 Q D)]; lia.
Qed.

Lemma in_set_nth {A} (x y : A) l : forall n, In x (set_nth n y l) -> x = y \/ In x l.
Proof.
  induction l as [|a l IH]; intros [|n] H; cbn in *; try tauto.
  - destruct H; auto.
  - destruct H as [H|H]; [|apply IH in H]; tauto.
Qed.

Lemma step_hs st o s :
  In s (r_hs (stepf st o)) ->
  In s (r_hs st) \/ (exists h, key s = key (handle (r_hs st) h))
  \/ exists r, In r (t_sessions (cur (r_db (stepf st o)))) /\ key s = s_id r.
Proof.
  unfold stepf. destruct o as [tg sd|h dir msg|h o i|h dir lo hi|h dir n| |hs' dir|msg|]; cbn [step]; auto.
  - rewrite create_or_load_nf. destruct (lookup_session (cur (r_db st)) tg sd) as [r|] eqn:L; cbn; rewrite in_app_iff.
    + apply lookup_session_some in L. intros [I'|[<-|[]]]; [auto|]. right. right. exists r. tauto.
    + intros [I'|[<-|[]]]; [auto|]. right. right. eexists. rewrite in_app_iff. cbn. eauto.
  - destruct (persist_msg _ _ _ _). auto.
  - destruct (set_seq_num_nf (handle (r_hs st) h) o i (r_db st)) as [_ [K _]].
    destruct (set_seq_num _ _ _ _) as [[d' s'] e]. cbn [fst snd r_hs] in *.
    intros I. apply in_set_nth in I. destruct I as [->|I]; [eauto|auto].
Qed.

Lemma step_handles st o : at_rest st -> handles_known st -> handles_known (stepf st o).
Proof.
  intros K H s I. pose proof (tstep_next_sid _ _ _ _ (step_tstep st o (proj2 K))) as M.
  destruct (step_hs _ _ _ I) as [I'|[[h E]|[r [Ir E]]]].
  - specialize (H s I'). lia.
  - pose proof (handle_known st h H). lia.
  - destruct (step_at_rest st o K) as [[[_ Ids _] _] _]. pose proof (ids_bound _ _ _ Ids Ir). unfold next_sid. lia.
Qed.

Lemma step_asc_inv st o : at_rest st -> asc_inv st -> asc_stepb st o = true -> asc_inv (stepf st o).
Proof.
  intros K [B S H] A. pose proof (step_tstep st o (proj2 K)) as T. constructor.
  - now apply (tstep_below st o).
  - apply (tstep_sids _ _ _ _ T); [|exact S]. intros h. now apply handle_known.
  - now apply step_handles.
Qed.

Lemma asc_inv_init : asc_inv init.
Proof. constructor; [intros r c I|intros r I|intros s I]; destruct I. Qed.

(* for ascending histories every stored number stays at most the stored counter of its session
   and direction, at every operation boundary *)
Lemma run_asc_inv j ops st : at_rest st -> asc_inv st -> ascending st ops = true -> asc_inv (run_from st (firstn j ops)).
Proof.
  apply (run_from_inv asc_inv (fun st ops => ascending st ops = true)).
  clear. intros st o ops K I A. cbn [ascending] in A. apply andb_prop in A. destruct A as [A1 A2].
  split; [now apply step_asc_inv|exact A2].
Qed.
