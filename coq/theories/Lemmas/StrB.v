(* The lemmas about lists, about the string functions of Py/Str.v and about decimal printing (Base/Sx.v) against int()
   that more than one file needs.  No lemma here looks at a model of the repository. *)
From Coq Require Import ZArith NArith List Bool Lia ZifyBool.
From AF Require Import Base.Sx Py.Str.
Import ListNotations.
Open Scope N_scope.

Lemma firstn_exact : forall {A} (a b : list A), firstn (length a) (a ++ b) = a.
Proof. induction a; intros; cbn; [reflexivity | rewrite IHa; reflexivity]. Qed.

Lemma skipn_exact : forall {A} (a b : list A), skipn (length a) (a ++ b) = b.
Proof. induction a; intros; cbn; [reflexivity | apply IHa]. Qed.

Lemma skipn_app_le : forall {A} n (a b : list A), (n <= length a)%nat -> skipn n (a ++ b) = skipn n a ++ b.
Proof. intros A n a b H. rewrite skipn_app. replace (n - length a)%nat with 0%nat by lia. reflexivity. Qed.

Lemma firstn_prefix : forall {A} n (l x y : list A) k, firstn n l = x ++ y -> k = length x -> firstn k l = x.
Proof. intros A n l x y k H ->. rewrite <- (firstn_skipn n l), H, <- app_assoc. apply firstn_exact. Qed.

Lemma skipn_skipn' : forall {A} (x y : nat) (l : list A), skipn x (skipn y l) = skipn (y + x) l.
Proof.
  intros A x y. induction y as [|y IH]; intros l; [reflexivity|].
  destruct l as [|a l]; [rewrite !skipn_nil; reflexivity|]. cbn [skipn Nat.add]. apply IH.
Qed.

Lemma filter_all : forall {A} (f : A -> bool) l, Forall (fun x => f x = true) l -> filter f l = l.
Proof. intros A f l H. induction H as [|x l Hx _ IH]; cbn; [reflexivity|]. rewrite Hx, IH. reflexivity. Qed.

Lemma forallb_Forall : forall {A} (p : A -> bool) (P : A -> Prop), (forall c, p c = true <-> P c) ->
  forall s, forallb p s = true <-> Forall P s.
Proof. intros A p P H s. rewrite forallb_forall, Forall_forall. split; intros F c Hc; apply H, F, Hc. Qed.

Lemma NoDup_snoc : forall {A} (l : list A) x, NoDup l -> ~ In x l -> NoDup (l ++ [x]).
Proof. intros A l x ND N. apply (NoDup_Add (Add_app x l [])). rewrite app_nil_r. constructor; assumption. Qed.

Lemma NoDup_map_inj : forall {A B} (f : A -> B) l x y, NoDup (map f l) -> In x l -> In y l -> f x = f y -> x = y.
Proof.
  intros A B f. induction l as [|z l IH]; cbn [map In]; [contradiction|].
  intros x y ND [->|Ix] [->|Iy] E; inversion ND as [|? ? NI ND']; subst.
  - reflexivity.
  - exfalso. apply NI. rewrite E. apply in_map, Iy.
  - exfalso. apply NI. rewrite <- E. apply in_map, Ix.
  - apply IH; assumption.
Qed.

(* two ways of cutting one list: the shorter first piece is a prefix of the longer *)
Lemma app_split_le : forall {A} (a b c d : list A), a ++ b = c ++ d -> (length c <= length a)%nat ->
  exists l, a = c ++ l /\ d = l ++ b.
Proof.
  intros A a b c d E H. apply app_eq_app in E as [l [[E1 E2]|[E1 E2]]]; [exists l; split; assumption|].
  rewrite E1, app_length in H. destruct l; [|cbn [length] in H; lia].
  exists []. rewrite app_nil_r in *. split; [symmetry; exact E1 | symmetry; exact E2].
Qed.

Lemma str_eqb_eq : forall a b, str_eqb a b = true <-> a = b.
Proof.
  induction a as [|x a IH]; destruct b as [|y b]; cbn; split; intro H; try congruence; try discriminate.
  - apply andb_true_iff in H as [H1 H2]. apply N.eqb_eq in H1. apply IH in H2. congruence.
  - inversion H; subst. apply andb_true_iff; split; [apply N.eqb_refl | apply IH; reflexivity].
Qed.

Lemma str_eqb_refl : forall a, str_eqb a a = true.
Proof. intro a. apply str_eqb_eq. reflexivity. Qed.

Lemma str_eqb_neq : forall a b, str_eqb a b = false <-> a <> b.
Proof. intros a b. rewrite <- str_eqb_eq. destruct (str_eqb a b); split; congruence. Qed.

Lemma str_eqb_sym : forall a b, str_eqb a b = str_eqb b a.
Proof. intros a b. apply eq_true_iff_eq. rewrite !str_eqb_eq. split; congruence. Qed.

Definition cfree (c : N) (s : str) : Prop := ~ In c s.

Lemma cfree_app : forall c a b, cfree c (a ++ b) <-> cfree c a /\ cfree c b.
Proof. unfold cfree. intros. rewrite in_app_iff. tauto. Qed.

Lemma cfree_cons : forall c x s, cfree c (x :: s) <-> x <> c /\ cfree c s.
Proof. unfold cfree. cbn. tauto. Qed.

Definition cfreeb (c : N) (s : str) : bool := forallb (fun x => negb (x =? c)) s.

Lemma cfreeb_spec : forall c s, cfreeb c s = true <-> cfree c s.
Proof.
  unfold cfreeb, cfree. intros c s. rewrite forallb_forall. split.
  - intros H I. apply H in I. rewrite N.eqb_refl in I. discriminate.
  - intros H x I. destruct (x =? c) eqn:E; [apply N.eqb_eq in E; subst; contradiction | reflexivity].
Qed.

Lemma prefixb_spec : forall p s, prefixb p s = true <-> exists r, s = p ++ r.
Proof.
  induction p as [|x p IH]; intros s; cbn.
  - split; [exists s; reflexivity | reflexivity].
  - destruct s as [|y s].
    + split; [discriminate | intros [r Hr]; discriminate].
    + rewrite andb_true_iff, N.eqb_eq, IH. split.
      * intros [E [r Hr]]. subst. exists r. reflexivity.
      * intros [r Hr]. inversion Hr; subst. split; [reflexivity | exists r; reflexivity].
Qed.

Lemma prefixb_app : forall p s, prefixb p (p ++ s) = true.
Proof. intros p s. apply prefixb_spec. exists s. reflexivity. Qed.

Lemma prefixb_app_r : forall p a b, prefixb p a = true -> prefixb p (a ++ b) = true.
Proof. intros p a b H. apply prefixb_spec in H as [r ->]. rewrite <- app_assoc. apply prefixb_app. Qed.

Lemma prefixb_len : forall p s, prefixb p s = true -> (length p <= length s)%nat.
Proof. intros p s H. apply prefixb_spec in H as [r E]. subst. rewrite app_length. lia. Qed.

Lemma prefixb_app_short : forall p a b, prefixb p (a ++ b) = true -> (length p <= length a)%nat -> prefixb p a = true.
Proof.
  induction p as [|x p IH]; intros a b H L; [reflexivity|].
  destruct a as [|y a]; cbn in *; [lia|].
  apply andb_true_iff in H as [H1 H2]. rewrite H1. cbn. apply (IH a b H2). lia.
Qed.

(* a pattern without the character c does not match across an occurrence of c *)
Lemma prefixb_sep : forall c p a b, cfree c p -> prefixb p a = false -> prefixb p (a ++ c :: b) = false.
Proof.
  induction p as [|x p IH]; intros a b Hc H; [discriminate|].
  apply cfree_cons in Hc as [Hx Hp].
  destruct a as [|y a]; cbn in *.
  - destruct (x =? c) eqn:E; [apply N.eqb_eq in E; contradiction | reflexivity].
  - destruct (x =? y); cbn in *; [apply IH; assumption | reflexivity].
Qed.

Lemma find_sub_from_shift : forall p s i, find_sub_from p s i = option_map (fun k => (k + i)%nat) (find_sub_from p s 0).
Proof.
  intros p s. induction s as [|x s IH]; intros i; cbn.
  - destruct (prefixb p []); reflexivity.
  - destruct (prefixb p (x :: s)); [reflexivity|].
    rewrite (IH (S i)), (IH 1%nat). destruct (find_sub_from p s 0); cbn; [f_equal; lia | reflexivity].
Qed.

Lemma find_sub_cons : forall p x s,
  find_sub p (x :: s) = if prefixb p (x :: s) then Some 0%nat else option_map S (find_sub p s).
Proof.
  intros. unfold find_sub. cbn [find_sub_from]. destruct (prefixb p (x :: s)); [reflexivity|].
  rewrite find_sub_from_shift. destruct (find_sub_from p s 0); cbn; [f_equal; lia | reflexivity].
Qed.

Lemma find_sub_nil : forall p, find_sub p [] = if prefixb p [] then Some 0%nat else None.
Proof. intros. unfold find_sub. cbn. destruct (prefixb p []); reflexivity. Qed.

Lemma find_sub_head : forall p s, prefixb p s = true -> find_sub p s = Some 0%nat.
Proof. intros p s H. destruct s; [rewrite find_sub_nil | rewrite find_sub_cons]; rewrite H; reflexivity. Qed.

(* first occurrence: p matches at offset i and at no smaller offset *)
Lemma find_sub_iff : forall p s i, find_sub p s = Some i <->
  (i <= length s)%nat /\ prefixb p (skipn i s) = true /\ forall k, (k < i)%nat -> prefixb p (skipn k s) = false.
Proof.
  intros p s. induction s as [|x s IH]; intro i.
  - rewrite find_sub_nil. destruct i as [|i]; cbn [skipn length].
    + destruct (prefixb p []); split; intro H.
      * split; [lia|]. split; [reflexivity|]. intros k Hk. lia.
      * reflexivity.
      * discriminate.
      * destruct H as [_ [H _]]. discriminate.
    + split; [destruct (prefixb p []); discriminate | intros [H _]; lia].
  - rewrite find_sub_cons. destruct (prefixb p (x :: s)) eqn:E; destruct i as [|i]; cbn [skipn length].
    + split; [intros _; split; [lia|]; split; [exact E | intros k Hk; lia] | reflexivity].
    + split; [discriminate | intros [_ [_ H]]; specialize (H 0%nat ltac:(lia)); cbn [skipn] in H; congruence].
    + split; [destruct (find_sub p s); discriminate | intros [_ [H _]]; congruence].
    + transitivity (find_sub p s = Some i); [destruct (find_sub p s); cbn; split; congruence|].
      rewrite IH. split; intros [H1 [H2 H3]]; (split; [lia|]; split; [exact H2|]).
      * intros [|k] Hk; [exact E | apply H3; lia].
      * intros k Hk. apply (H3 (S k)). lia.
Qed.

Lemma find_sub_some_bound : forall p a k, find_sub p a = Some k -> (k + length p <= length a)%nat.
Proof.
  intros p a k H. apply find_sub_iff in H as [H1 [H2 _]]. apply prefixb_len in H2. rewrite skipn_length in H2. lia.
Qed.

Lemma find_sub_some_ext : forall p a b k, find_sub p a = Some k -> find_sub p (a ++ b) = Some k.
Proof.
  intros p a b k H. pose proof (find_sub_some_bound _ _ _ H) as L. apply find_sub_iff in H as [H1 [H2 H3]].
  apply find_sub_iff. split; [rewrite app_length; lia|]. split.
  - rewrite skipn_app_le by lia. apply prefixb_app_r, H2.
  - intros j Hj. rewrite skipn_app_le by lia. destruct (prefixb p (skipn j a ++ b)) eqn:E; [|reflexivity].
    rewrite <- (H3 j Hj). symmetry. apply (prefixb_app_short _ _ _ E). rewrite skipn_length. lia.
Qed.

Lemma find_sub_none_prefix : forall p a b, find_sub p (a ++ b) = None -> find_sub p a = None.
Proof.
  intros p a b H. destruct (find_sub p a) as [k|] eqn:E; [|reflexivity].
  rewrite (find_sub_some_ext p a b k E) in H. discriminate.
Qed.

(* the first occurrence of p splits the text; p does not occur before it *)
Lemma find_sub_split : forall p s i, find_sub p s = Some i ->
  exists a b, s = a ++ p ++ b /\ length a = i /\ (p <> [] -> find_sub p a = None).
Proof.
  intros p s i H. apply find_sub_iff in H as [Hi [Hp Hmin]]. apply prefixb_spec in Hp as [b Hb].
  exists (firstn i s), b. rewrite <- Hb, firstn_skipn, firstn_length_le by exact Hi.
  split; [reflexivity|]. split; [reflexivity|]. intro Hne.
  destruct (find_sub p (firstn i s)) as [j|] eqn:E; [exfalso | reflexivity].
  pose proof (find_sub_some_bound _ _ _ E) as L. rewrite firstn_length_le in L by exact Hi.
  apply (find_sub_some_ext _ _ (skipn i s)) in E. rewrite firstn_skipn in E. apply find_sub_iff in E as [_ [E _]].
  rewrite Hmin in E; [discriminate | destruct p; [contradiction | cbn [length] in L; lia]].
Qed.

Lemma find_sub_spec : forall p s i, find_sub p s = Some i ->
  (i + length p <= length s)%nat /\ exists r, skipn i s = p ++ r.
Proof.
  intros p s i H. split; [exact (find_sub_some_bound _ _ _ H)|].
  apply find_sub_iff in H as [_ [H _]]. apply prefixb_spec. exact H.
Qed.

Lemma find_sub_none_suffix : forall p a b, find_sub p (a ++ b) = None -> find_sub p b = None.
Proof.
  intros p a. induction a as [|x a IH]; intros b H; [assumption|].
  cbn [app] in H. rewrite find_sub_cons in H.
  destruct (prefixb p (x :: a ++ b)); [discriminate|].
  destruct (find_sub p (a ++ b)) eqn:F; [discriminate|]. apply IH. assumption.
Qed.

(* occurrences do not straddle a separator the pattern does not contain *)
Lemma find_sub_sep : forall c p a b, cfree c p -> p <> [] -> find_sub p a = None ->
  find_sub p (a ++ c :: b) = option_map (fun k => (length a + 1 + k)%nat) (find_sub p b).
Proof.
  intros c p a b Hc Hp. induction a as [|x a IH]; intros H.
  - cbn [app length]. rewrite find_sub_cons.
    destruct p as [|y p]; [contradiction|].
    apply cfree_cons in Hc as [Hy _]. cbn [prefixb].
    destruct (y =? c) eqn:E; [apply N.eqb_eq in E; contradiction|]. cbn.
    destruct (find_sub (y :: p) b); reflexivity.
  - cbn [app]. rewrite find_sub_cons in *.
    destruct (prefixb p (x :: a)) eqn:E; [discriminate|].
    change (x :: a ++ c :: b) with ((x :: a) ++ c :: b).
    rewrite (prefixb_sep c p (x :: a) b Hc E).
    destruct (find_sub p a) eqn:F; [discriminate|].
    rewrite (IH eq_refl). cbn [length]. destruct (find_sub p b); cbn; [f_equal; lia | reflexivity].
Qed.

(* a pattern c :: q in text that is c-free up to the first c *)
Lemma find_sub_first_char : forall c q f T, cfree c f ->
  find_sub (c :: q) (f ++ c :: T) =
  if prefixb q T then Some (length f) else option_map (fun k => (length f + 1 + k)%nat) (find_sub (c :: q) T).
Proof.
  intros c q f T. induction f as [|x f IH]; intro H.
  - cbn [app length]. rewrite find_sub_cons. cbn [prefixb]. rewrite N.eqb_refl. cbn [andb].
    destruct (prefixb q T); [reflexivity|]. destruct (find_sub (c :: q) T); reflexivity.
  - apply cfree_cons in H as [Hx Hf]. cbn [app length]. rewrite find_sub_cons. cbn [prefixb].
    destruct (c =? x) eqn:E; [apply N.eqb_eq in E; subst; contradiction|]. cbn [andb].
    rewrite (IH Hf). destruct (prefixb q T); [reflexivity|]. destruct (find_sub (c :: q) T); reflexivity.
Qed.

Lemma find_sub_single : forall c f T, cfree c f -> find_sub [c] (f ++ c :: T) = Some (length f).
Proof. intros c f T H. rewrite (find_sub_first_char c [] f T H). reflexivity. Qed.

Lemma find_sub_char_none : forall c s, find_sub [c] s = None -> ~ In c s.
Proof.
  intros c. induction s as [|x s IH]; intros H; [intros []|]. rewrite find_sub_cons in H. cbn [prefixb] in H.
  destruct (N.eqb c x) eqn:E; [discriminate|]. apply N.eqb_neq in E.
  destruct (find_sub [c] s); [discriminate|]. intros [F|F]; [congruence | exact (IH eq_refl F)].
Qed.

Lemma find_sub_char : forall c s j, find_sub [c] s = Some j ->
  exists v b, s = v ++ c :: b /\ length v = j /\ ~ In c v.
Proof.
  intros c s j H. destruct (find_sub_split _ _ _ H) as (v & b & -> & <- & Hv). exists v, b.
  split; [reflexivity|]. split; [reflexivity|]. apply find_sub_char_none, Hv. discriminate.
Qed.

Lemma prefixb_no_border : forall x p' c J w, ~ In x p' ->
  prefixb (x :: p') (c :: J) = false -> prefixb (x :: p') (c :: J ++ x :: w) = false.
Proof.
  intros x p' c J w Hx H. cbn [prefixb] in *. destruct (x =? c); cbn [andb] in *; [|reflexivity].
  apply prefixb_sep; assumption.
Qed.

(* junk without an occurrence, followed by text that starts with the pattern's first character:
   no occurrence starts inside the junk *)
Lemma find_sub_junk_gen : forall x p' J w, ~ In x p' -> find_sub (x :: p') J = None ->
  find_sub (x :: p') (J ++ x :: w) = option_map (fun k => (length J + k)%nat) (find_sub (x :: p') (x :: w)).
Proof.
  intros x p' J w Hx. induction J as [|c J IH]; intro HJ.
  - cbn [app length]. destruct (find_sub (x :: p') (x :: w)); reflexivity.
  - cbn [app length]. rewrite find_sub_cons in HJ.
    destruct (prefixb (x :: p') (c :: J)) eqn:E; [discriminate|].
    destruct (find_sub (x :: p') J) eqn:F; [discriminate|].
    rewrite find_sub_cons, (prefixb_no_border x p' c J w Hx E), (IH eq_refl).
    destruct (find_sub (x :: p') (x :: w)); reflexivity.
Qed.

Lemma split_on_nonempty : forall c s, split_on c s <> [].
Proof.
  intros c s. destruct s as [|x s]; cbn; [discriminate|].
  destruct (x =? c); [discriminate|]. destruct (split_on c s); discriminate.
Qed.

Lemma split_on_free : forall c s, cfree c s -> split_on c s = [s].
Proof.
  intros c s. induction s as [|x s IH]; intros H; [reflexivity|].
  apply cfree_cons in H as [Hx Hs]. cbn.
  destruct (x =? c) eqn:E; [apply N.eqb_eq in E; contradiction|]. rewrite (IH Hs). reflexivity.
Qed.

Lemma split_on_app : forall c (a b : str), split_on c (a ++ c :: b) = split_on c a ++ split_on c b.
Proof.
  intros c. induction a as [|x a IH]; intros b; cbn [app split_on].
  - rewrite N.eqb_refl. reflexivity.
  - rewrite IH. destruct (N.eqb x c); [reflexivity|].
    destruct (split_on c a) as [|p ps] eqn:E; [destruct (split_on_nonempty c a E) | reflexivity].
Qed.

Lemma split_on_app_sep : forall c f s, cfree c f -> split_on c (f ++ c :: s) = f :: split_on c s.
Proof. intros c f s H. rewrite split_on_app, (split_on_free c f H). reflexivity. Qed.

Lemma join_cons : forall sep p ps, ps <> [] -> join sep (p :: ps) = p ++ sep ++ join sep ps.
Proof. intros sep p ps H. destruct ps; [contradiction | reflexivity]. Qed.

Lemma join_split_on : forall c s, join [c] (split_on c s) = s.
Proof.
  intros c. induction s as [|x s IH]; [reflexivity|]. cbn [split_on].
  destruct (N.eqb x c) eqn:E.
  - apply N.eqb_eq in E. subst x. rewrite join_cons, IH by apply split_on_nonempty. reflexivity.
  - destruct (split_on c s) as [|p [|p' ps]] eqn:S; [destruct (split_on_nonempty c s S)| |].
    + cbn in *. rewrite IH. reflexivity.
    + rewrite join_cons in * by discriminate. rewrite <- IH. reflexivity.
Qed.

Lemma split_on_hd : forall c (s f : str) l, split_on c s = f :: l -> exists rest, s = f ++ rest.
Proof.
  intros c s f l H. rewrite <- (join_split_on c s), H.
  destruct l; [exists []; symmetry; apply app_nil_r | eexists; reflexivity].
Qed.

(* the text of a list of fields, each followed by the separator *)
Definition flat (fs : list str) : str := concat (map (fun f => f ++ [1]) fs).

Lemma flat_cons : forall f fs, flat (f :: fs) = f ++ 1 :: flat fs.
Proof. intros. unfold flat. cbn. rewrite <- app_assoc. reflexivity. Qed.

Lemma flat_app : forall a b, flat (a ++ b) = flat a ++ flat b.
Proof. intros. unfold flat. rewrite map_app, concat_app. reflexivity. Qed.

Lemma flat_forallb : forall (p : N -> bool) fs,
  p 1 = true -> Forall (fun f => forallb p f = true) fs -> forallb p (flat fs) = true.
Proof.
  intros p fs H1 H. induction H as [|f fs Hf _ IH]; [reflexivity|].
  rewrite flat_cons, forallb_app, Hf. cbn [forallb]. rewrite H1. exact IH.
Qed.

Lemma join_flat : forall fs, fs <> [] -> join [1] fs ++ [1] = flat fs.
Proof.
  induction fs as [|f fs IH]; intros H; [contradiction|].
  rewrite flat_cons. destruct fs as [|g fs].
  - cbn. reflexivity.
  - change (join [1] (f :: g :: fs)) with (f ++ [1] ++ join [1] (g :: fs)).
    rewrite <- IH by discriminate. rewrite <- !app_assoc. reflexivity.
Qed.

Lemma join_app : forall a b, a <> [] -> b <> [] -> join [1] (a ++ b) = join [1] a ++ [1] ++ join [1] b.
Proof.
  induction a as [|f a IH]; intros b Ha Hb; [contradiction|].
  destruct a as [|g a].
  - cbn [app]. destruct b; [contradiction|]. reflexivity.
  - change ((f :: g :: a) ++ b) with (f :: (g :: a) ++ b).
    change (join [1] (f :: (g :: a) ++ b)) with (f ++ [1] ++ join [1] ((g :: a) ++ b)).
    rewrite IH by (discriminate || assumption).
    change (join [1] (f :: g :: a)) with (f ++ [1] ++ join [1] (g :: a)).
    rewrite <- !app_assoc. reflexivity.
Qed.

Lemma split_on_flat : forall fs, Forall (cfree 1) fs -> split_on 1 (flat fs) = fs ++ [[]].
Proof.
  induction fs as [|f fs IH]; intros H; [reflexivity|].
  inversion H; subst. rewrite flat_cons, split_on_app_sep by assumption. rewrite IH by assumption. reflexivity.
Qed.

Lemma flat_length_pos : forall f fs, (0 < length (flat (f :: fs)))%nat.
Proof. intros. rewrite flat_cons, app_length. cbn. lia. Qed.

Lemma split1_field : forall c t v, cfree c t -> split1 c (t ++ c :: v) = (t, Some v).
Proof.
  intros c t v. induction t as [|x t IH]; intros H; cbn.
  - rewrite N.eqb_refl. reflexivity.
  - apply cfree_cons in H as [Hx Ht].
    destruct (x =? c) eqn:E; [apply N.eqb_eq in E; contradiction|]. rewrite (IH Ht). reflexivity.
Qed.

Lemma split1_some : forall c s a b, split1 c s = (a, Some b) -> s = a ++ c :: b.
Proof.
  intros c. induction s as [|x s IH]; intros a b H; [discriminate|]. cbn [split1] in H.
  destruct (N.eqb x c) eqn:E.
  - apply N.eqb_eq in E. subst x. inversion H. reflexivity.
  - destruct (split1 c s) as [a' b']. inversion H. subst. rewrite (IH _ _ eq_refl). reflexivity.
Qed.

Lemma fold_add_acc : forall s a, fold_left N.add s a = a + fold_left N.add s 0.
Proof.
  induction s as [|x s IH]; intros a; cbn; [lia|].
  rewrite (IH (a + x)), (IH x). lia.
Qed.

Lemma sum_codes_app : forall a b, sum_codes (a ++ b) = sum_codes a + sum_codes b.
Proof. intros. unfold sum_codes. rewrite fold_left_app. apply fold_add_acc. Qed.

Lemma sum_codes_cons : forall c s, sum_codes (c :: s) = c + sum_codes s.
Proof. intros c s. apply (sum_codes_app [c] s). Qed.

Lemma sum_codes_soh : sum_codes [1] = 1.
Proof. reflexivity. Qed.

Definition dstep (a c : N) : N := 10 * a + (c - 48).
Definition dval (s : str) (a : N) : N := fold_left dstep s a.

Lemma size_nat_gt : forall n, n < 2 ^ N.of_nat (N.size_nat n).
Proof.
  destruct n as [|p]; [cbn; lia|]. cbn [N.size_nat].
  induction p as [p IH|p IH|]; cbn [Pos.size_nat].
  - rewrite Nat2N.inj_succ, N.pow_succ_r'. lia.
  - rewrite Nat2N.inj_succ, N.pow_succ_r'. lia.
  - cbn. lia.
Qed.

Lemma pow10_pos : forall k, 0 < 10 ^ k.
Proof. intro k. apply N.neq_0_lt_0. apply N.pow_nonzero. discriminate. Qed.

Lemma n_to_dec_fuel_S : forall f n acc, n_to_dec_fuel (S f) n acc =
  let (q, r) := N.div_eucl n 10 in
  if q =? 0 then digit_char r :: acc else n_to_dec_fuel f q (digit_char r :: acc).
Proof. reflexivity. Qed.

(* D is the decimal text of n, without leading zero unless it is one digit *)
Definition dec_of (D : str) (n : N) : Prop :=
  D <> [] /\ Forall (fun c => is_digit c = true) D
  /\ (forall a, dval D a = a * 10 ^ N.of_nat (length D) + n)
  /\ n < 10 ^ N.of_nat (length D)
  /\ (10 ^ N.of_nat (length D - 1) <= n \/ length D = 1%nat).

Lemma dec_one : forall r, r < 10 -> dec_of [digit_char r] r.
Proof.
  intros r Hr. split; [discriminate|]. split; [constructor; [unfold digit_char, is_digit; lia | constructor]|].
  cbn [length]. change (N.of_nat 1) with 1. rewrite N.pow_1_r.
  split; [intro a; unfold dval; cbn [fold_left]; unfold dstep, digit_char; lia|]. split; [exact Hr | right; reflexivity].
Qed.

Lemma dec_snoc : forall D q r, dec_of D q -> q <> 0 -> r < 10 -> dec_of (D ++ [digit_char r]) (10 * q + r).
Proof.
  intros D q r [Hne [Hdig [Hval [Hlt Hge]]]] Hq Hr.
  assert (Hlen : length (D ++ [digit_char r]) = S (length D)) by (rewrite app_length; cbn; lia).
  unfold dec_of. rewrite Hlen, Nat2N.inj_succ, N.pow_succ_r'. replace (S (length D) - 1)%nat with (length D) by lia.
  split; [destruct D; discriminate|].
  split; [apply Forall_app; split; [assumption|]; constructor; [unfold digit_char, is_digit; lia | constructor]|].
  split; [|split; [lia|left]].
  - intro a. unfold dval. rewrite fold_left_app. fold (dval D a). rewrite Hval. cbn [fold_left]. unfold dstep, digit_char.
    generalize (10 ^ N.of_nat (length D)). intro P. nia.
  - destruct Hge as [Hge|Hge]; [|rewrite Hge; change (N.of_nat 1) with 1; rewrite N.pow_1_r; lia].
    destruct (length D) as [|k]; [destruct D; [contradiction | lia]|].
    replace (S k - 1)%nat with k in Hge by lia. rewrite Nat2N.inj_succ, N.pow_succ_r'. lia.
Qed.

Lemma n_to_dec_fuel_spec : forall f n acc, n < 2 ^ N.of_nat f ->
  exists D, n_to_dec_fuel (S f) n acc = D ++ acc /\ dec_of D n.
Proof.
  induction f as [|f IH]; intros n acc Hn.
  - assert (n = 0) by (cbn in Hn; lia). subst. exists [48]. split; [reflexivity | exact (dec_one 0 eq_refl)].
  - rewrite n_to_dec_fuel_S.
    pose proof (N.div_eucl_spec n 10) as Hd. pose proof (N.mod_lt n 10 ltac:(discriminate)) as Hr.
    unfold N.modulo in Hr. destruct (N.div_eucl n 10) as [q r]. cbn [snd] in Hr. subst n.
    destruct (q =? 0) eqn:Eq.
    + apply N.eqb_eq in Eq. subst q. exists [digit_char r]. split; [reflexivity | exact (dec_one r Hr)].
    + apply N.eqb_neq in Eq.
      destruct (IH q (digit_char r :: acc)) as [D [HD HDq]]; [rewrite Nat2N.inj_succ, N.pow_succ_r' in Hn; lia|].
      exists (D ++ [digit_char r]). rewrite HD, <- app_assoc. split; [reflexivity | exact (dec_snoc D q r HDq Eq Hr)].
Qed.

Lemma n_to_dec_dec_of : forall n, dec_of (n_to_dec n) n.
Proof.
  intro n. unfold n_to_dec. destruct (n_to_dec_fuel_spec (N.size_nat n) n [] (size_nat_gt n)) as [D [HD H]].
  rewrite HD, app_nil_r. exact H.
Qed.

Lemma n_to_dec_spec : forall n,
  n_to_dec n <> [] /\ Forall (fun c => is_digit c = true) (n_to_dec n)
  /\ dval (n_to_dec n) 0 = n
  /\ (10 ^ N.of_nat (length (n_to_dec n) - 1) <= n \/ length (n_to_dec n) = 1%nat).
Proof.
  intro n. destruct (n_to_dec_dec_of n) as [Hne [Hdig [Hval [_ Hge]]]].
  split; [exact Hne|]. split; [exact Hdig|]. split; [rewrite Hval; lia | exact Hge].
Qed.

Lemma n_to_dec_digits : forall n, Forall (fun c => is_digit c = true) (n_to_dec n).
Proof. intro n. apply (n_to_dec_spec n). Qed.

Lemma digits_us_digits : forall s a, Forall (fun c => is_digit c = true) s -> digits_us s a false = Some (dval s a).
Proof.
  induction s as [|c s IH]; intros a H; [reflexivity|].
  inversion H; subst. cbn [digits_us]. rewrite H2. rewrite IH by assumption. reflexivity.
Qed.

Lemma lstrip_nonws : forall ws s, Forall (fun c => ws c = false) s -> lstrip ws s = s.
Proof. intros ws s [|c r H _]; [reflexivity|]. cbn [lstrip]. rewrite H. reflexivity. Qed.

Lemma strip_nonws : forall ws s, Forall (fun c => ws c = false) s -> strip ws s = s.
Proof.
  intros ws s H. unfold strip. rewrite (lstrip_nonws ws s H), (lstrip_nonws ws _ (Forall_rev H)). apply rev_involutive.
Qed.

Lemma ws_str_digit : forall c, is_digit c = true -> ws_str c = false.
Proof. intros c H. unfold is_digit, ws_str in *. lia. Qed.

Lemma filter_digits : forall s, Forall (fun c => is_digit c = true) s -> filter is_digit s = s.
Proof. exact (filter_all is_digit). Qed.

(* the sign split at the head of py_int_gen, on a text that starts with a digit *)
Lemma sign_match_digit : forall (d : N) (r : str), is_digit d = true ->
  match d :: r with
  | 45 :: r0 => (true, r0)
  | 43 :: r0 => (false, r0)
  | _ => (false, d :: r)
  end = (false, d :: r).
Proof.
  intros d r H. unfold is_digit in H.
  assert (E : d = 48 \/ d = 49 \/ d = 50 \/ d = 51 \/ d = 52 \/ d = 53 \/ d = 54 \/ d = 55 \/ d = 56 \/ d = 57) by lia.
  repeat (destruct E as [E|E]; [subst; reflexivity|]). subst. reflexivity.
Qed.

(* int() of an optional "-" and a non-empty digit string none of whose characters int() strips: the digit limit
   decides, as py_int_gen tests it (in N, so that no proof has to handle the unary numeral 4300) *)
Lemma py_int_gen_signed : forall ws (neg : bool) b,
  b <> [] -> Forall (fun c => is_digit c = true) b -> Forall (fun c => ws c = false) (if neg then 45 :: b else b) ->
  py_int_gen ws (if neg then 45 :: b else b)
  = if 4300 <? N.of_nat (length b) then None
    else Some (if neg then - Z.of_N (dval b 0) else Z.of_N (dval b 0))%Z.
Proof.
  intros ws neg b Hne Hd W. unfold py_int_gen. destruct b as [|c r]; [contradiction|]. pose proof (Forall_inv Hd) as Hc.
  destruct neg; rewrite (strip_nonws ws _ W); cbv zeta.
  - rewrite (filter_digits _ Hd), (digits_us_digits _ 0 Hd), Hc. reflexivity.
  - rewrite sign_match_digit by exact Hc. rewrite (filter_digits _ Hd), (digits_us_digits _ 0 Hd), Hc. reflexivity.
Qed.

Lemma py_int_signed : forall (neg : bool) b, b <> [] -> Forall (fun c => is_digit c = true) b ->
  py_int (if neg then 45 :: b else b)
  = if 4300 <? N.of_nat (length b) then None
    else Some (if neg then - Z.of_N (dval b 0) else Z.of_N (dval b 0))%Z.
Proof.
  intros neg b Hne Hd. apply py_int_gen_signed; [exact Hne | exact Hd|].
  pose proof (Forall_impl _ ws_str_digit Hd) as W. destruct neg; [constructor; [reflexivity | exact W] | exact W].
Qed.

Lemma py_int_gen_digits : forall ws s, (forall c, is_digit c = true -> ws c = false) ->
  s <> [] -> Forall (fun c => is_digit c = true) s -> N.of_nat (length s) <= 4300 ->
  py_int_gen ws s = Some (Z.of_N (dval s 0)).
Proof.
  intros ws s Hws Hne Hd Hl.
  rewrite (py_int_gen_signed ws false s Hne Hd (Forall_impl _ Hws Hd)), (proj2 (N.ltb_ge _ _) Hl). reflexivity.
Qed.

(* the unary bound of the statements below is turned into the boolean test, once *)
Lemma digit_limit : forall s : str, (length s <= 4300)%nat -> (4300 <? N.of_nat (length s)) = false.
Proof. intros s H. lia. Qed.

Lemma py_int_digits : forall s, s <> [] -> Forall (fun c => is_digit c = true) s -> (length s <= 4300)%nat ->
  py_int s = Some (Z.of_N (dval s 0)).
Proof. intros s Hne Hd Hl. rewrite (py_int_signed false s Hne Hd), (digit_limit s Hl). reflexivity. Qed.

Lemma py_int_minus : forall s, s <> [] -> Forall (fun c => is_digit c = true) s -> (length s <= 4300)%nat ->
  py_int (45 :: s) = Some (- Z.of_N (dval s 0))%Z.
Proof. intros s Hne Hd Hl. rewrite (py_int_signed true s Hne Hd), (digit_limit s Hl). reflexivity. Qed.

Lemma dval_n_to_dec : forall n, dval (n_to_dec n) 0 = n.
Proof. intro n. apply (n_to_dec_spec n). Qed.

Lemma dec_inj : forall a b, n_to_dec a = n_to_dec b -> a = b.
Proof. intros a b H. rewrite <- (dval_n_to_dec a), H. apply dval_n_to_dec. Qed.

Lemma n_to_dec_head : forall n, exists c r, n_to_dec n = c :: r /\ is_digit c = true.
Proof.
  intro n. destruct (n_to_dec_spec n) as (NE & F & _). destruct (n_to_dec n) as [|c r]; [contradiction|].
  exists c, r. split; [reflexivity | exact (Forall_inv F)].
Qed.

(* a left inverse of z_to_dec: the sign, then the value of the digits (int(str(z)) without the digit limit) *)
Definition z_of_dec (s : str) : Z :=
  match s with
  | c :: r => if c =? 45 then - Z.of_N (dval r 0) else Z.of_N (dval s 0)
  | [] => 0
  end.

Lemma z_of_dec_to_dec : forall z, z_of_dec (z_to_dec z) = z.
Proof.
  intros [|p|p]; cbn [z_to_dec]; [reflexivity| |].
  - destruct (n_to_dec_head (Npos p)) as (c & r & E & D). unfold z_of_dec. rewrite E.
    replace (c =? 45) with false by (unfold is_digit in D; lia).
    rewrite <- E, dval_n_to_dec. reflexivity.
  - cbn [z_of_dec]. rewrite N.eqb_refl, dval_n_to_dec. reflexivity.
Qed.

Lemma z_to_dec_inj : forall a b, z_to_dec a = z_to_dec b -> a = b.
Proof. intros a b H. rewrite <- (z_of_dec_to_dec a), H. apply z_of_dec_to_dec. Qed.

Lemma dval_shift : forall b x, dval b x = x * 10 ^ N.of_nat (length b) + dval b 0.
Proof.
  unfold dval. induction b as [|c b IH]; intros x; cbn [fold_left length].
  - change (10 ^ N.of_nat 0) with 1. lia.
  - rewrite (IH (dstep x c)), (IH (dstep 0 c)). unfold dstep. rewrite Nat2N.inj_succ, N.pow_succ_r'. lia.
Qed.

(* a number below 10^k prints in at most k digits: only the order of the exponents is used, 10^k is never evaluated *)
Lemma n_to_dec_length : forall n k, n < 10 ^ k -> 0 < k -> N.of_nat (length (n_to_dec n)) <= k.
Proof.
  intros n k Hn Hk. destruct (n_to_dec_spec n) as [_ [_ [_ [Hge|Hge]]]].
  - apply (N.le_lt_trans _ _ _ Hge), N.pow_lt_mono_r_iff in Hn; [clear Hge; lia | reflexivity].
  - rewrite Hge. clear -Hk. lia.
Qed.

Lemma n_to_dec_len : forall n, n < 10 ^ 4300 -> N.of_nat (length (n_to_dec n)) <= 4300.
Proof. intros n Hn. apply (n_to_dec_length n 4300 Hn). reflexivity. Qed.

Lemma py_int_gen_n_to_dec : forall ws n, (forall c, is_digit c = true -> ws c = false) -> n < 10 ^ 4300 ->
  py_int_gen ws (n_to_dec n) = Some (Z.of_N n).
Proof.
  intros ws n Hws Hn. rewrite <- (dval_n_to_dec n) at 2.
  exact (py_int_gen_digits ws _ Hws (proj1 (n_to_dec_spec n)) (n_to_dec_digits n) (n_to_dec_len n Hn)).
Qed.

Lemma py_int_n_to_dec : forall n, n < 10 ^ 4300 -> py_int (n_to_dec n) = Some (Z.of_N n).
Proof. intros n. apply py_int_gen_n_to_dec, ws_str_digit. Qed.

(* int(str(z)) = z below the digit limit, stated by the length int() tests and by the value *)
Lemma py_int_z_to_dec : forall z, (length (z_to_dec z) <= 4300)%nat -> py_int (z_to_dec z) = Some z.
Proof.
  intros [|p|p]; cbn [z_to_dec length]; intros L; [reflexivity| |].
  - rewrite py_int_digits, dval_n_to_dec; [reflexivity | apply n_to_dec_spec | apply n_to_dec_digits | exact L].
  - rewrite py_int_minus, dval_n_to_dec; [reflexivity | apply n_to_dec_spec | apply n_to_dec_digits|].
    exact (Nat.lt_le_incl _ _ L).
Qed.

Lemma py_int_gen_z_to_dec : forall ws z, (forall c, is_digit c = true -> ws c = false) -> ((z < 0)%Z -> ws 45 = false) ->
  Z.abs_N z < 10 ^ 4300 -> py_int_gen ws (z_to_dec z) = Some z.
Proof.
  intros ws [|p|p] Hws H45 Hz; [exact (py_int_gen_n_to_dec ws 0 Hws eq_refl) | exact (py_int_gen_n_to_dec ws _ Hws Hz)|].
  change (Z.abs_N (Z.neg p)) with (Npos p) in Hz. pose proof (n_to_dec_digits (Npos p)) as Hd. cbn [z_to_dec].
  rewrite (py_int_gen_signed ws true _ (proj1 (n_to_dec_spec _)) Hd), (proj2 (N.ltb_ge _ _) (n_to_dec_len _ Hz)), dval_n_to_dec.
  - reflexivity.
  - constructor; [exact (H45 eq_refl) | exact (Forall_impl _ Hws Hd)].
Qed.

Lemma digits_cfree : forall c s, Forall (fun x => is_digit x = true) s -> is_digit c = false -> cfree c s.
Proof.
  intros c s H Hc I. rewrite Forall_forall in H. apply H in I. congruence.
Qed.

Lemma n_to_dec_cfree : forall c n, is_digit c = false -> cfree c (n_to_dec n).
Proof. intros c n H. apply digits_cfree; [apply n_to_dec_digits | assumption]. Qed.

Lemma is_digit_range : forall c, is_digit c = true <-> 48 <= c <= 57.
Proof. intro c. unfold is_digit. rewrite andb_true_iff, !N.leb_le. tauto. Qed.

Lemma n_to_dec_range : forall n, Forall (fun c => 48 <= c <= 57) (n_to_dec n).
Proof. intro n. eapply Forall_impl; [|apply n_to_dec_digits]. intro c. apply is_digit_range. Qed.

Lemma digits_forallb : forall (P : N -> bool) s,
  (forall c, 48 <= c <= 57 -> P c = true) -> Forall (fun c => 48 <= c <= 57) s -> forallb P s = true.
Proof. intros P s HP H. apply forallb_forall. rewrite Forall_forall in H. auto. Qed.

(* a property of "-" and of the ten digits holds of every character of a printed integer *)
Lemma z_to_dec_forallb : forall (P : N -> bool) z,
  P 45 = true -> (forall c, 48 <= c <= 57 -> P c = true) -> forallb P (z_to_dec z) = true.
Proof.
  intros P z H45 HP. destruct z as [|p|p]; cbn [z_to_dec forallb].
  - rewrite HP by lia. reflexivity.
  - apply digits_forallb, n_to_dec_range. exact HP.
  - rewrite H45. apply digits_forallb, n_to_dec_range. exact HP.
Qed.

Lemma z_to_dec_soh_free : forall z, cfree 1 (z_to_dec z).
Proof.
  intro z. apply cfreeb_spec, z_to_dec_forallb; [reflexivity|]. intros c H. lia.
Qed.

Definition below256 (P : N -> bool) : bool := forallb P (map N.of_nat (seq 0 256)).

Lemma below256_spec : forall P, below256 P = true -> forall c, c < 256 -> P c = true.
Proof.
  unfold below256. intros P H c Hc. rewrite forallb_forall in H. apply H.
  apply in_map_iff. exists (N.to_nat c). split; [apply N2Nat.id | apply in_seq; lia].
Qed.

Lemma fmt03_spec : forall c, c < 256 ->
  length (fmt03 c) = 3%nat /\ Forall (fun x => is_digit x = true) (fmt03 c) /\ dval (fmt03 c) 0 = c.
Proof.
  intros c Hc.
  assert (H : below256 (fun c => Nat.eqb (length (fmt03 c)) 3 && forallb is_digit (fmt03 c)
                                 && (dval (fmt03 c) 0 =? c)) = true) by (vm_compute; reflexivity).
  pose proof (below256_spec _ H c Hc) as Hb. cbv beta in Hb.
  apply andb_true_iff in Hb as [Hb H3]. apply andb_true_iff in Hb as [H1 H2].
  split; [apply Nat.eqb_eq; exact H1|]. split; [|apply N.eqb_eq; exact H3].
  apply Forall_forall. apply forallb_forall. exact H2.
Qed.

(* the digits hold for every c; that they spell c needs c < 1000 (stated for c < 256, where it is checked) *)
Lemma fmt03_range : forall c, Forall (fun d => 48 <= d <= 57) (fmt03 c).
Proof.
  intro c. unfold fmt03, pad3. pose proof (n_to_dec_range c) as D. assert (Z : 48 <= 48 <= 57) by lia.
  destruct (length (n_to_dec c)) as [|[|[|]]]; auto using Forall_cons.
Qed.

Lemma fmt03_digits : forall c, c < 256 ->
  exists d1 d2 d3, fmt03 c = [d1; d2; d3]
    /\ 48 <= d1 <= 57 /\ 48 <= d2 <= 57 /\ 48 <= d3 <= 57
    /\ 100 * (d1 - 48) + 10 * (d2 - 48) + (d3 - 48) = c.
Proof.
  intros c H. destruct (fmt03_spec c H) as (L & D & V).
  destruct (fmt03 c) as [|d1 [|d2 [|d3 [|]]]]; try discriminate.
  inversion D as [|? ? D1 D']. inversion D' as [|? ? D2 D'']. inversion D'' as [|? ? D3 _].
  apply is_digit_range in D1, D2, D3. unfold dval, dstep in V. cbn [fold_left] in V.
  exists d1, d2, d3. repeat split; try tauto. lia.
Qed.

Lemma checksum_lt : forall s, (sum_codes s) mod 256 < 256.
Proof. intro s. apply N.mod_lt. discriminate. Qed.
