(* Lemmas about the journal model: refinement to a map (sid, dir, n) -> bytes + counters. *)
From Coq Require Import ZArith List Bool Lia Sorting.Sorted Permutation.
From AF Require Import Base.Sx Fix.Journal Lemmas.StrB.
Import ListNotations.
Open Scope Z_scope.

Definition mkey (r : mrow) : Z * Z * Z := (m_seq r, m_sid r, m_dir r).

Definition lookup (t : tables) (sid dir n : Z) : option str :=
  option_map m_msg (find (fun r => key_eqb r n sid dir) (t_messages t)).

Definition counter (t : tables) (sid : Z) : option (Z * Z) :=
  option_map (fun r => (s_out r, s_in r)) (find (fun r => s_id r =? sid) (t_sessions t)).

(* the session ids of l are k, k+1, ... in row order *)
Fixpoint ids_from (k : Z) (l : list srow) : Prop :=
  match l with
  | [] => True
  | r :: l' => s_id r = k /\ ids_from (k + 1) l'
  end.

Definition comp_key (r : srow) : str * str := (s_target r, s_sender r).

(* well-formed tables: primary key of message unique; session ids are 1..n in row order;
   (target, sender) unique *)
Record wf (t : tables) : Prop := mkWf {
  wf_keys : NoDup (map mkey (t_messages t));
  wf_ids : ids_from 1 (t_sessions t);
  wf_comp : NoDup (map comp_key (t_sessions t))
}.

Definition db_wf (d : db) : Prop := wf (cur d) /\ wf (committed d).

Lemma key_eqb_true r n sid dir : key_eqb r n sid dir = true <-> mkey r = (n, sid, dir).
Proof.
  unfold key_eqb, mkey. rewrite !andb_true_iff, !Z.eqb_eq. split.
  - intros [[A B] C]. congruence.
  - intros H. inversion H. auto.
Qed.

Lemma find_app {A} (f : A -> bool) l x :
  find f (l ++ [x]) = match find f l with Some y => Some y | None => if f x then Some x else None end.
Proof. induction l as [|a l IH]; cbn; [destruct (f x); reflexivity|]. destruct (f a); auto. Qed.

Lemma existsb_find {A} (f : A -> bool) l : existsb f l = if find f l then true else false.
Proof. induction l as [|a l IH]; cbn; [reflexivity|]. now destruct (f a). Qed.

Lemma has_msg_lookup t n sid dir : has_msg t n sid dir = if lookup t sid dir n then true else false.
Proof. unfold has_msg, lookup. rewrite existsb_find. now destruct (find _ _). Qed.

Lemma has_msg_in t r : In r (t_messages t) -> has_msg t (m_seq r) (m_sid r) (m_dir r) = true.
Proof. intros I. apply existsb_exists. exists r. split; [exact I|]. now apply key_eqb_true. Qed.

Lemma find_key_filter (p : mrow -> bool) l n sid dir :
  NoDup (map mkey l) ->
  find (fun r => key_eqb r n sid dir) (filter p l) =
  match find (fun r => key_eqb r n sid dir) l with
  | Some r => if p r then Some r else None
  | None => None
  end.
Proof.
  induction l as [|x l IH]; cbn; [reflexivity|]. intros ND. inversion ND as [|? ? Hnotin ND']. subst.
  destruct (key_eqb x n sid dir) eqn:K.
  - destruct (p x) eqn:P; cbn; [now rewrite K|].
    rewrite IH by assumption.
    destruct (find _ l) eqn:F; [|reflexivity].
    apply find_some in F. destruct F as [Hin Hk].
    apply key_eqb_true in K. apply key_eqb_true in Hk.
    exfalso. apply Hnotin. rewrite K, <- Hk. now apply in_map.
  - destruct (p x) eqn:P; cbn; [rewrite K|]; now apply IH.
Qed.

(* f is a key of l, and among the rows selected by p equal g means equal f: g is a key of the selection *)
Lemma NoDup_map_filter {A B C} (f : A -> B) (g : A -> C) (p : A -> bool) l :
  (forall x y, p x = true -> p y = true -> g x = g y -> f x = f y) ->
  NoDup (map f l) -> NoDup (map g (filter p l)).
Proof.
  intros Inj. induction l as [|x l IH]; cbn; [constructor|]. intros ND. inversion ND as [|? ? Hn ND']. subst.
  destruct (p x) eqn:P; cbn; [constructor|]; auto.
  intros Hin. apply in_map_iff in Hin. destruct Hin as [y [E Hy]]. apply filter_In in Hy. destruct Hy as [Hy Py].
  apply Hn. rewrite <- (Inj y x Py P E). now apply in_map.
Qed.

Lemma filter_keys_nodup (p : mrow -> bool) l : NoDup (map mkey l) -> NoDup (map mkey (filter p l)).
Proof. apply NoDup_map_filter. auto. Qed.

Lemma ids_from_app k l r : ids_from k l -> s_id r = k + Z.of_nat (length l) -> ids_from k (l ++ [r]).
Proof.
  revert k. induction l as [|x l IH]; cbn; intros k H E.
  - split; [lia|exact I].
  - destruct H as [H1 H2]. split; [exact H1|]. apply IH; [exact H2|lia].
Qed.

Lemma ids_bound l : forall k r, ids_from k l -> In r l -> k <= s_id r < k + Z.of_nat (length l).
Proof.
  induction l as [|x l IH]; intros k r H I; [destruct I|].
  destruct H as [Hx Hl]. cbn [length]. destruct I as [->|I]; [lia|].
  specialize (IH (k + 1) r Hl I). lia.
Qed.

Lemma ids_inj l : forall k x y, ids_from k l -> In x l -> In y l -> s_id x = s_id y -> x = y.
Proof.
  induction l as [|z l IH]; intros k x y H Hx Hy E; [destruct Hx|]. destruct H as [Hz Hl].
  destruct Hx as [<-|Hx], Hy as [<-|Hy]; [reflexivity| | |now apply (IH (k + 1))].
  - pose proof (ids_bound l _ y Hl Hy). lia.
  - pose proof (ids_bound l _ x Hl Hx). lia.
Qed.

Lemma wf_empty : wf empty_tables.
Proof. constructor; cbn; auto; constructor. Qed.

Lemma upd_sessions_messages f sid t : t_messages (upd_sessions f sid t) = t_messages t.
Proof. reflexivity. Qed.

Lemma upd_sessions_wf f sid t :
  (forall r, s_id (f r) = s_id r /\ comp_key (f r) = comp_key r) -> wf t -> wf (upd_sessions f sid t).
Proof.
  intros Hf [K I C]. constructor; cbn; auto.
  - clear K C. revert I. generalize 1. induction (t_sessions t) as [|x l IH]; cbn; auto.
    intros k [E R]. split; [destruct (s_id x =? sid); [rewrite (proj1 (Hf x))|]; assumption|]. now apply IH.
  - replace (map comp_key (map _ (t_sessions t))) with (map comp_key (t_sessions t)); auto.
    rewrite map_map. apply map_ext. intros r. destruct (s_id r =? sid); [now rewrite (proj2 (Hf r))|reflexivity].
Qed.

Lemma add_msg_wf t n sid dir msg :
  wf t -> has_msg t n sid dir = false -> wf (mkT (t_sessions t) (t_messages t ++ [mkM n sid dir msg])).
Proof.
  intros [K I C] H. constructor; cbn; auto. rewrite map_app. apply NoDup_snoc; [exact K|].
  intros Hin. apply in_map_iff in Hin. destruct Hin as [r [E Hr]]. apply has_msg_in in Hr.
  inversion E. congruence.
Qed.

Lemma add_session_wf t tg sd :
  wf t -> has_session t tg sd = false ->
  wf (mkT (t_sessions t ++ [mkS (next_sid t) tg sd 0 0]) (t_messages t)).
Proof.
  intros [K I C] H. constructor; cbn; auto.
  - apply ids_from_app; [exact I|]. cbn [s_id]. unfold next_sid. lia.
  - rewrite map_app. apply NoDup_snoc; [exact C|].
    intros Hin. apply in_map_iff in Hin. destruct Hin as [r [E Hr]]. inversion E.
    assert (has_session t tg sd = true); [|congruence].
    apply existsb_exists. exists r. split; [exact Hr|].
    apply andb_true_iff. split; apply str_eqb_eq; assumption.
Qed.

Lemma del_msgs_wf t p : wf t -> wf (mkT (t_sessions t) (filter p (t_messages t))).
Proof. intros [K I C]. constructor; cbn; auto. now apply filter_keys_nodup. Qed.

Lemma apply_stmt_wf p t t' : wf t -> apply_stmt p t = Some t' -> wf t'.
Proof.
  intros W. destruct p as [tg sd|seq sid dir msg|seq sid|seq sid|inb outb sid|sid from dir|]; cbn [apply_stmt];
    try (intros [= <-]; now auto using upd_sessions_wf, del_msgs_wf).
  - destruct (has_session t tg sd) eqn:H; intros [= <-]. now apply add_session_wf.
  - destruct (has_msg t seq sid dir) eqn:H; intros [= <-]. now apply add_msg_wf.
Qed.

Lemma exec_prim_wf p d : db_wf d -> db_wf (fst (exec_prim p d)).
Proof.
  intros [W Wc].
  destruct p; cbn [exec_prim]; try (destruct (apply_stmt _ (cur d)) as [t'|] eqn:E; split; eauto using apply_stmt_wf).
  now split.
Qed.

Lemma exec_prims_wf ps d : db_wf d -> db_wf (fst (exec_prims ps d)).
Proof.
  revert d. induction ps as [|p ps IH]; cbn; intros d W; [exact W|].
  pose proof (exec_prim_wf p d W) as H. destruct (exec_prim p d) as [d' ok].
  destruct ok; [now apply IH|exact H].
Qed.

Lemma crash_wf d : db_wf d -> db_wf (crash d).
Proof. intros [_ Wc]. split; exact Wc. Qed.

Definition ctr_dir (dir : Z) (c : Z * Z) : Z := if dir =? OUTBOUND then fst c else snd c.

(* result of a successful persist on the tables *)
Definition persist_tables (t : tables) (n sid dir : Z) (msg : str) : tables :=
  let t1 := mkT (t_sessions t) (t_messages t ++ [mkM n sid dir msg]) in
  if dir =? OUTBOUND
  then upd_sessions (fun r => mkS (s_id r) (s_target r) (s_sender r) n (s_in r)) sid t1
  else upd_sessions (fun r => mkS (s_id r) (s_target r) (s_sender r) (s_out r) n) sid t1.

Lemma exec_persist_prims d n s dir msg :
  exec_prims (persist_prims n s dir msg) d =
  match lookup (cur d) (key s) dir n with
  | None => let t := persist_tables (cur d) n (key s) dir msg in (mkDb t t false, true)
  | Some _ => (mkDb (committed d) (cur d) true, false)
  end.
Proof.
  unfold persist_prims, persist_tables. cbn [exec_prims exec_prim apply_stmt]. rewrite has_msg_lookup.
  destruct (lookup _ _ _ _); [reflexivity|]. now destruct (dir =? OUTBOUND).
Qed.

Lemma persist_msg_nf msg s dir d :
  persist_msg msg s dir d =
  match find_seq_no msg with
  | None => (d, Some EFIXMessage)
  | Some n => match lookup (cur d) (key s) dir n with
              | None => let t := persist_tables (cur d) n (key s) dir msg in (mkDb t t false, None)
              | Some _ => (mkDb (committed d) (cur d) true, Some EDuplicateSeqNo)
              end
  end.
Proof.
  unfold persist_msg. destruct (find_seq_no msg) as [n|]; [|reflexivity].
  rewrite exec_persist_prims. now destruct (lookup _ _ _ _).
Qed.

Lemma persist_tables_messages t n sid dir msg :
  t_messages (persist_tables t n sid dir msg) = t_messages t ++ [mkM n sid dir msg].
Proof. unfold persist_tables. destruct (dir =? OUTBOUND); reflexivity. Qed.

Lemma lookup_persist_tables t n sid dir msg sid' dir' n' :
  lookup t sid dir n = None ->
  lookup (persist_tables t n sid dir msg) sid' dir' n' =
  if (n' =? n) && (sid' =? sid) && (dir' =? dir) then Some msg else lookup t sid' dir' n'.
Proof.
  intros L. unfold lookup. rewrite persist_tables_messages, find_app.
  unfold key_eqb at 2. cbn [m_seq m_sid m_dir].
  rewrite (Z.eqb_sym n n'), (Z.eqb_sym sid sid'), (Z.eqb_sym dir dir').
  destruct ((n' =? n) && (sid' =? sid) && (dir' =? dir)) eqn:E.
  - rewrite !andb_true_iff, !Z.eqb_eq in E. destruct E as [[-> ->] ->].
    unfold lookup in L. destruct (find _ (t_messages t)); [discriminate|reflexivity].
  - destruct (find _ (t_messages t)); reflexivity.
Qed.

(* an UPDATE that sets the two counters of session sid to g of their old values *)
Lemma counter_upd (g : Z * Z -> Z * Z) sid t sid' :
  counter (upd_sessions (fun r => mkS (s_id r) (s_target r) (s_sender r) (fst (g (s_out r, s_in r))) (snd (g (s_out r, s_in r))))
                        sid t) sid' =
  option_map (fun c => if sid' =? sid then g c else c) (counter t sid').
Proof.
  unfold counter, upd_sessions. cbn [t_sessions].
  induction (t_sessions t) as [|x l IH]; cbn [map find]; [reflexivity|].
  destruct (s_id x =? sid) eqn:E; cbn [s_id]; (destruct (s_id x =? sid') eqn:E'; [|exact IH]);
    apply Z.eqb_eq in E'; subst sid'; cbn; rewrite E; [now destruct (g (s_out x, s_in x))|reflexivity].
Qed.

Lemma counter_persist_tables t n sid dir msg sid' :
  counter (persist_tables t n sid dir msg) sid' =
  option_map (fun c => if sid' =? sid
                       then (if dir =? OUTBOUND then (n, snd c) else (fst c, n)) else c)
             (counter t sid').
Proof.
  unfold persist_tables. destruct (dir =? OUTBOUND).
  - exact (counter_upd (fun c => (n, snd c)) sid _ sid').
  - exact (counter_upd (fun c => (fst c, n)) sid _ sid').
Qed.

Lemma persist_tables_own t n sid dir msg :
  lookup t sid dir n = None ->
  lookup (persist_tables t n sid dir msg) sid dir n = Some msg
  /\ counter (persist_tables t n sid dir msg) sid =
     option_map (fun c => if dir =? OUTBOUND then (n, snd c) else (fst c, n)) (counter t sid).
Proof.
  intros L. rewrite lookup_persist_tables, counter_persist_tables by exact L. rewrite !Z.eqb_refl. auto.
Qed.

Lemma persist_tables_wf t n sid dir msg : wf t -> lookup t sid dir n = None -> wf (persist_tables t n sid dir msg).
Proof.
  intros W L. unfold persist_tables.
  destruct (dir =? OUTBOUND); apply upd_sessions_wf; auto; apply add_msg_wf; auto; now rewrite has_msg_lookup, L.
Qed.

Definition del_from (sid from dir : Z) (l : list mrow) : list mrow :=
  filter (fun r => negb ((m_sid r =? sid) && (from <=? m_seq r) && (m_dir r =? dir))) l.

Definition set_tables (t : tables) (sid o i : Z) : tables :=
  mkT (map (fun r => if s_id r =? sid then mkS (s_id r) (s_target r) (s_sender r) (o - 1) (i - 1) else r) (t_sessions t))
      (del_from sid o OUTBOUND (del_from sid i INBOUND (t_messages t))).

Lemma set_tables_upd t sid o i :
  set_tables t sid o i =
  upd_sessions (fun r => mkS (s_id r) (s_target r) (s_sender r) (o - 1) (i - 1)) sid
    (mkT (t_sessions t) (del_from sid o OUTBOUND (del_from sid i INBOUND (t_messages t)))).
Proof. reflexivity. Qed.

Lemma exec_set_prims d s o i :
  exec_prims (set_seq_num_prims s o i) d =
  (mkDb (set_tables (cur d) (key s) o i) (set_tables (cur d) (key s) o i) false, true).
Proof. reflexivity. Qed.

Lemma set_seq_num_refused_out d s o i : o <= 0 -> set_seq_num s (Some o) i d = (d, s, Some EAssertion).
Proof. intros H. unfold set_seq_num. apply Z.leb_le in H. now rewrite H. Qed.

Lemma lookup_set_tables t sid o i sid' dir' n :
  wf t ->
  lookup (set_tables t sid o i) sid' dir' n =
  if (sid' =? sid) && (((dir' =? INBOUND) && (i <=? n)) || ((dir' =? OUTBOUND) && (o <=? n)))
  then None else lookup t sid' dir' n.
Proof.
  intros [K _ _]. unfold lookup, set_tables. cbn [t_messages]. unfold del_from.
  rewrite find_key_filter by (apply filter_keys_nodup; exact K).
  rewrite find_key_filter by exact K.
  destruct (find (fun r => key_eqb r n sid' dir') (t_messages t)) as [r|] eqn:F.
  - apply find_some in F. destruct F as [_ F]. apply key_eqb_true in F. inversion F.
    destruct (m_sid r =? sid) eqn:S, (m_dir r =? INBOUND), (i <=? m_seq r); cbn; rewrite ?S;
      destruct (m_dir r =? OUTBOUND), (o <=? m_seq r); reflexivity.
  - destruct (_ && _); reflexivity.
Qed.

Lemma counter_set_tables t sid o i sid' :
  counter (set_tables t sid o i) sid' =
  option_map (fun c => if sid' =? sid then (o - 1, i - 1) else c) (counter t sid').
Proof.
  rewrite set_tables_upd. exact (counter_upd (fun _ => (o - 1, i - 1)) sid _ sid').
Qed.

Lemma set_tables_wf t sid o i : wf t -> wf (set_tables t sid o i).
Proof.
  intros W. rewrite set_tables_upd. apply upd_sessions_wf; [auto|].
  unfold del_from. apply (del_msgs_wf (mkT _ _)). now apply del_msgs_wf.
Qed.

Definition seq_lt (a b : mrow) : Prop := m_seq a < m_seq b.

Lemma insert_perm r l : Permutation (insert_by_seq r l) (r :: l).
Proof.
  induction l as [|x l IH]; cbn; [reflexivity|]. destruct (m_seq r <=? m_seq x); [reflexivity|].
  rewrite IH. apply perm_swap.
Qed.

Lemma sort_perm l : Permutation (sort_by_seq l) l.
Proof.
  induction l as [|x l IH]; cbn; [reflexivity|]. rewrite insert_perm. now constructor.
Qed.

Lemma insert_sorted r l :
  StronglySorted seq_lt l -> ~ In (m_seq r) (map m_seq l) -> StronglySorted seq_lt (insert_by_seq r l).
Proof.
  induction l as [|x l IH]; cbn; intros S N; [repeat constructor|].
  inversion S as [|? ? S' F]. subst. rewrite Forall_forall in F. unfold seq_lt in *.
  destruct (m_seq r <=? m_seq x) eqn:E.
  - apply Z.leb_le in E. constructor; [exact S|]. apply Forall_forall. intros y [<-|Hy]; [|specialize (F y Hy)]; lia.
  - apply Z.leb_gt in E. constructor; [apply IH; tauto|]. apply Forall_forall. intros y Hy.
    apply (Permutation_in _ (insert_perm r l)) in Hy. destruct Hy as [<-|Hy]; [lia|auto].
Qed.

Lemma sort_sorted l : NoDup (map m_seq l) -> StronglySorted seq_lt (sort_by_seq l).
Proof.
  induction l as [|x l IH]; cbn; intros ND; [constructor|]. inversion ND as [|? ? Hn ND']. subst.
  apply insert_sorted; [auto|]. intros Hin. apply Hn.
  exact (Permutation_in _ (Permutation_map m_seq (sort_perm l)) Hin).
Qed.

Lemma select_range_strict t sid dir lo hi :
  wf t -> StronglySorted seq_lt (select_range t sid dir lo hi).
Proof.
  intros [K _ _]. apply sort_sorted.
  (* within one session and direction the number alone is the key *)
  apply (NoDup_map_filter mkey); [|exact K]. unfold mkey. intros x y Px Py E.
  rewrite !andb_true_iff, !Z.eqb_eq in Px, Py. f_equal; [f_equal|]; lia.
Qed.

Lemma lookup_in t sid dir n m :
  wf t -> (lookup t sid dir n = Some m <-> In (mkM n sid dir m) (t_messages t)).
Proof.
  intros [K _ _]. unfold lookup. split.
  - destruct (find _ _) eqn:F; [|discriminate]. cbn. intros [= <-].
    apply find_some in F. destruct F as [Hin Hk]. apply key_eqb_true in Hk.
    unfold mkey in Hk. inversion Hk. subst. now destruct m0.
  - intros Hin. induction (t_messages t) as [|x l IH]; [destruct Hin|].
    inversion K as [|? ? Hn K']. subst. cbn. destruct Hin as [->|Hin].
    + unfold key_eqb. cbn. now rewrite !Z.eqb_refl.
    + destruct (key_eqb x n sid dir) eqn:E; [|auto].
      apply key_eqb_true in E. exfalso. apply Hn. rewrite E.
      change (n, sid, dir) with (mkey (mkM n sid dir m)). now apply in_map.
Qed.

Lemma select_range_spec t sid dir lo hi r :
  wf t ->
  (In r (select_range t sid dir lo hi) <->
   m_sid r = sid /\ m_dir r = dir /\ lo <= m_seq r <= hi /\ lookup t sid dir (m_seq r) = Some (m_msg r)).
Proof.
  intros W. unfold select_range.
  assert (P : forall l, In r (sort_by_seq l) <-> In r l)
    by (split; apply Permutation_in; [|symmetry]; apply sort_perm).
  rewrite P, filter_In, !andb_true_iff, !Z.eqb_eq, !Z.leb_le, (lookup_in _ _ _ _ _ W).
  destruct r as [n a b m]. cbn. split.
  - intros [I [[[-> ->] L1] L2]]. auto.
  - intros [-> [-> [[L1 L2] I]]]. auto.
Qed.

Definition session_of_row (r : srow) : session :=
  mkSess (s_id r) (s_target r) (s_sender r) (s_out r + 1) (s_in r + 1).

Lemma has_session_lookup t tg sd : has_session t tg sd = if lookup_session t tg sd then true else false.
Proof. apply existsb_find. Qed.

Lemma lookup_session_some t tg sd r :
  lookup_session t tg sd = Some r -> In r (t_sessions t) /\ s_target r = tg /\ s_sender r = sd.
Proof.
  intros F. apply find_some in F. destruct F as [I K]. apply andb_prop in K. destruct K as [A B].
  apply str_eqb_eq in A, B. auto.
Qed.

Lemma counter_add_session t x sid :
  counter (mkT (t_sessions t ++ [x]) (t_messages t)) sid =
  match counter t sid with
  | Some c => Some c
  | None => if s_id x =? sid then Some (s_out x, s_in x) else None
  end.
Proof. unfold counter. cbn [t_sessions]. rewrite find_app. destruct (find _ (t_sessions t)); [reflexivity|]. now destruct (s_id x =? sid). Qed.

Lemma create_or_load_nf tg sd d :
  create_or_load tg sd d =
  match lookup_session (cur d) tg sd with
  | Some r => (mkDb (committed d) (cur d) true, Some (session_of_row r))
  | None => let t' := mkT (t_sessions (cur d) ++ [mkS (next_sid (cur d)) tg sd 0 0]) (t_messages (cur d)) in
            (mkDb t' t' false, Some (mkSess (next_sid (cur d)) tg sd 1 1))
  end.
Proof.
  unfold create_or_load, create_or_load_prims. cbn [exec_prims exec_prim apply_stmt].
  rewrite has_session_lookup. destruct (lookup_session (cur d) tg sd) eqn:L; cbn; [now rewrite L|].
  unfold next_sid. rewrite app_length. cbn. repeat f_equal. lia.
Qed.

Lemma create_or_load_wf tg sd d : db_wf d -> db_wf (fst (create_or_load tg sd d)).
Proof.
  intros W. unfold create_or_load.
  pose proof (exec_prims_wf (create_or_load_prims tg sd) d W) as H.
  destruct (exec_prims _ d) as [d' ok]. destruct ok; [exact H|].
  destruct (lookup_session _ _ _); exact H.
Qed.

Lemma persist_msg_wf msg s dir d : db_wf d -> db_wf (fst (persist_msg msg s dir d)).
Proof.
  intros W. unfold persist_msg. destruct (find_seq_no msg) as [n|]; [|exact W].
  pose proof (exec_prims_wf (persist_prims n s dir msg) d W) as H.
  destruct (exec_prims _ d) as [d' ok]. exact H.
Qed.

Lemma set_seq_num_wf s o i d : db_wf d -> db_wf (fst (fst (set_seq_num s o i d))).
Proof.
  intros W. unfold set_seq_num.
  destruct o as [v|]; [destruct (v <=? 0); [exact W|]|];
    (destruct i as [w|]; [destruct (w <=? 0); [exact W|]|]); now apply exec_prims_wf.
Qed.
