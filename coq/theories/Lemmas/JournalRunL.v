(* Every state reachable by journal operations (incl. close / crash and reopen) is well formed. *)
From Coq Require Import List.
From AF Require Import Fix.Journal Fix.JournalRun Lemmas.JournalL.
Import ListNotations.
Open Scope Z_scope.

Lemma step_wf st o : db_wf (r_db st) -> db_wf (r_db (fst (step st o))).
Proof.
  intros W. destruct o as [tg sd|h dir msg|h o i|h dir lo hi|h dir n| |hs dir|msg|]; cbn [step]; try exact W.
  - pose proof (create_or_load_wf tg sd (r_db st) W) as H.
    destruct (create_or_load tg sd (r_db st)) as [d' [s|]]; exact H.
  - pose proof (persist_msg_wf msg (handle (r_hs st) h) dir (r_db st) W) as H.
    destruct (persist_msg _ _ _ _) as [d' e]. exact H.
  - pose proof (set_seq_num_wf (handle (r_hs st) h) o i (r_db st) W) as H.
    destruct (set_seq_num _ _ _ _) as [[d' s'] e]. exact H.
  - cbn. now apply crash_wf.
Qed.

Definition run_state (ops : list op) : rstate := fold_left (fun st o => fst (step st o)) ops init.

Lemma fold_left_inv {A B} (P : A -> Prop) (f : A -> B -> A) :
  (forall a b, P a -> P (f a b)) -> forall l a, P a -> P (fold_left f l a).
Proof. intros H. induction l as [|b l IH]; cbn; auto. Qed.

Lemma reachable_wf ops : db_wf (r_db (run_state ops)).
Proof. apply (fold_left_inv (fun st => db_wf (r_db st))); [exact step_wf|]. split; apply wf_empty. Qed.

Lemma run_ops_length st ops : length (run_ops st ops) = length ops.
Proof. revert st. induction ops as [|o ops IH]; cbn; intros st; [reflexivity|]. destruct (step st o). cbn. now rewrite IH. Qed.
