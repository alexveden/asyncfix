(* Lemmas for C17 about the order object alone (the product with the reference exchange is in
   OrderSysL.v); the theorems are in Props/C17.v. *)
From Coq Require Import ZArith NArith List Bool Lia FinFun.
From AF Require Import Base.Sx Py.Str Fix.OrderStatus Fix.Order Lemmas.StrB.
Import ListNotations.
Open Scope N_scope.

Lemma mem_In x l : mem x l = true <-> In x l.
Proof.
  unfold mem. rewrite existsb_exists. split.
  - intros (y & Hy & E). apply N.eqb_eq in E. subst y. exact Hy.
  - intro H. exists x. split; [exact H|apply N.eqb_refl].
Qed.

Lemma digits_split d c r :
  Forall (fun c => is_digit c = true) d -> is_digit c = false ->
  take_digits (d ++ c :: r) = d /\ drop_digits (d ++ c :: r) = c :: r.
Proof.
  intros Hd Hc. induction Hd as [|x d Hx _ [IH1 IH2]]; cbn [app take_digits drop_digits].
  - rewrite Hc. split; reflexivity.
  - rewrite Hx, IH1, IH2. split; reflexivity.
Qed.

Lemma rev_nil (s : str) : rev s = [] -> s = [].
Proof. intro H. rewrite <- (rev_involutive s), H. reflexivity. Qed.

(* the root of root--k is root: the chain of ids stays under one root *)
Lemma clord_root_next root k : root <> [] -> clord_root (clord_id_of root k) = root.
Proof.
  intro Hr. destruct (n_to_dec_spec k) as (Hne & Hd & _).
  unfold clord_root, clord_id_of. rewrite !rev_app_distr. cbn [rev app]. rewrite <- !app_assoc. cbn [app].
  destruct (digits_split (rev (n_to_dec k)) DASH (DASH :: rev root)) as [-> ->];
    [apply Forall_rev, Hd|reflexivity|].
  destruct (rev (n_to_dec k)) eqn:Hk; [apply rev_nil in Hk; contradiction|].
  destruct (rev root) as [|c p] eqn:Hrr; [apply rev_nil in Hrr; contradiction|].
  cbv match. change (DASH =? DASH) with true. cbn [andb].
  change (rev p ++ [c]) with (rev (c :: p)). rewrite <- Hrr. apply rev_involutive.
Qed.

Lemma clord_root_nonempty s : s <> [] -> clord_root s <> [].
Proof.
  intro Hs. unfold clord_root.
  destruct (take_digits (rev s)); [exact Hs|].
  destruct (drop_digits (rev s)) as [|a [|b [|c p]]]; try exact Hs.
  destruct ((a =? DASH) && (b =? DASH)); [|exact Hs].
  intro E. apply rev_nil in E. discriminate.
Qed.

Lemma clord_id_inj root a b : clord_id_of root a = clord_id_of root b -> a = b.
Proof.
  unfold clord_id_of. intro H. do 2 apply app_inv_head in H. apply dec_inj, H.
Qed.

Lemma clord_id_nonempty root k : clord_id_of root k <> [].
Proof. unfold clord_id_of. destruct root; discriminate. Qed.

Lemma str_eqb_true a b : str_eqb a b = true -> a = b.
Proof. apply str_eqb_eq. Qed.

(* the ClOrdID check of process_execution_report: the report names the current or the replaced id *)
Definition accepts (o : order) (clid : str) : bool :=
  str_eqb clid (o_clord o) || opt_str_eqb clid (o_orig o).

(* an optional number (an omitted Price / OrderQty tag, a nan argument) with its default *)
Definition dflt (a : option Z) (d : Z) : Z := match a with Some v => v | None => d end.

(* the report changes the status: the table says so and the reported status is an enum member
   (FOrdStatus(..) raises ValueError otherwise, after the other fields were copied) *)
Definition exec_changes (o : order) (e : erep) : bool :=
  (change_status (o_status o) K_EXECUTIONREPORT (e_ex e) (e_st e) false =? T) && mem (e_st e) all_statuses.

Lemma per_refused o e : accepts o (e_clid e) = false -> process_execution_report o (RExec e) = (o, Exc EFIXError).
Proof.
  unfold accepts, process_execution_report. intro H. apply orb_false_elim in H. destruct H as [H1 H2].
  rewrite H1, H2. reflexivity.
Qed.

(* the object after an execution report that passed the ClOrdID check, field by field *)
Definition exec_result (o : order) (e : erep) : order :=
  mkO (o_clord o) (if e_ex e =? X_REPLACED then None else o_orig o) (Some (e_oid e)) (o_ticker o) (o_side o)
      (if e_ex e =? X_REPLACED then dflt (e_px e) (o_price o) else o_price o)
      (if e_ex e =? X_REPLACED then dflt (e_qty e) (o_qty o) else o_qty o)
      (e_leaves e) (e_cum e) (Some (e_avg e)) (o_ordtype o) (o_account o) (o_cnt o)
      (if exec_changes o e then e_st e else o_status o) (if exec_changes o e then true else o_senum o)
      (o_target o).

Lemma per_accepted o e :
  accepts o (e_clid e) = true -> fst (process_execution_report o (RExec e)) = exec_result o e.
Proof.
  unfold accepts, process_execution_report, exec_result, exec_changes. intro H.
  rewrite <- negb_orb, H. cbn [negb].
  destruct (e_ex e =? X_REPLACED), (_ =? T), (mem (e_st e) all_statuses); reflexivity.
Qed.

Definition rej_changes (legacy : bool) (o : order) (st : N) : bool :=
  (change_status (o_status o) K_ORDERCANCELREJECT 0 st false =? T) && (legacy || mem st all_statuses).

(* ... and after a cancel reject: the repaired code also takes the ids back *)
Definition rej_result (legacy : bool) (o : order) (st : N) : order :=
  let back := rej_changes legacy o st && negb legacy && truthy (o_orig o) in
  mkO (if back then match o_orig o with Some x => x | None => [] end else o_clord o)
      (if back then None else o_orig o) (o_order_id o) (o_ticker o) (o_side o) (o_price o) (o_qty o)
      (if st =? REJECTED then 0%Z else o_leaves o) (o_cum o) (o_avg o) (o_ordtype o) (o_account o) (o_cnt o)
      (if rej_changes legacy o st then st else o_status o)
      (if rej_changes legacy o st then negb legacy else o_senum o) (o_target o).

Lemma pcr_result legacy o clid orig st :
  fst (process_cancel_rej_report legacy o (RRej clid orig st)) = rej_result legacy o st.
Proof.
  unfold process_cancel_rej_report, rej_result, rej_changes. destruct o. cbn -[change_status mem N.eqb].
  destruct (st =? REJECTED), (_ =? T), legacy, (mem st all_statuses); try reflexivity.
  all: destruct (truthy _); reflexivity.
Qed.

Lemma can_cancel_iff st : OrderStatus.can_cancel st = true <-> In st [NEW; PARTIALLY_FILLED; SUSPENDED].
Proof.
  rewrite <- mem_In. unfold OrderStatus.can_cancel, change_status, request, mem. cbn [existsb].
  change (K_ORDERCANCELREQUEST =? K_EXECUTIONREPORT) with false.
  change (K_ORDERCANCELREQUEST =? K_ORDERCANCELREJECT) with false.
  change (K_ORDERCANCELREQUEST =? K_ORDERCANCELREQUEST) with true. cbn [orb negb andb].
  destruct (st =? PENDING_CANCEL) eqn:E1; [apply N.eqb_eq in E1; subst; reflexivity|].
  destruct (st =? PENDING_REPLACE) eqn:E2; [apply N.eqb_eq in E2; subst; reflexivity|].
  destruct (st =? NEW), (st =? SUSPENDED), (st =? PARTIALLY_FILLED); reflexivity.
Qed.

Lemma can_replace_eq st : OrderStatus.can_replace st = OrderStatus.can_cancel st.
Proof. reflexivity. Qed.

Lemma is_finished_iff st : OrderStatus.is_finished st = true <-> In st [FILLED; CANCELED; REJECTED; EXPIRED].
Proof. apply mem_In. Qed.

(* a finished status is left by no message of any kind *)
Lemma finished_no_change st kind ex ms b :
  OrderStatus.is_finished st = true -> (change_status st kind ex ms b =? T) = false.
Proof.
  intro H. apply is_finished_iff in H. unfold change_status.
  destruct (kind =? K_EXECUTIONREPORT); [|destruct (kind =? K_ORDERCANCELREJECT); [|destruct (_ || _)]].
  all: destruct H as [<-|[<-|[<-|[<-|[]]]]]; destruct b; reflexivity.
Qed.

(* one operation on the object: a builder call or a report handed to it; any sequence of them *)

Inductive cop := CNew | CCancel | CReplace (p q : option Z) | CRep (r : rep).

Definition obuild (o : order) (c : cop) : option (order * res req) :=
  match c with
  | CNew => Some (new_req o)
  | CCancel => Some (cancel_req o)
  | CReplace p q => Some (replace_req o p q)
  | CRep _ => None
  end.

Definition ostep (legacy : bool) (o : order) (c : cop) : order :=
  match c with
  | CRep r => fst (process_report legacy o r)
  | _ => match obuild o c with Some ob => fst ob | None => o end
  end.
Definition orun (legacy : bool) (o : order) (cs : list cop) : order := fold_left (ostep legacy) cs o.

(* the request built by one operation, if any *)
Definition built (o : order) (c : cop) : option req :=
  match obuild o c with Some (_, Ok r) => Some r | _ => None end.
Definition req_id (r : req) : str :=
  match r with RNew id _ _ => id | RCancel id _ _ => id | RReplace id _ _ _ => id end.

Definition rpl_px (o : order) (p : option Z) : Z := dflt p (o_price o).
Definition rpl_qty (o : order) (q : option Z) : Z :=
  match q with Some v => if (v =? 0)%Z then o_qty o else v | None => o_qty o end.

(* builders: the gate, the request and the object when the gate is open *)
Definition bgate (o : order) (c : cop) : bool :=
  match c with
  | CNew => o_status o =? CREATED
  | CCancel => can_cancel o && negb (truthy (o_orig o))
  | CReplace p q => can_replace o && negb ((rpl_px o p =? o_price o)%Z && (rpl_qty o q =? o_qty o)%Z)
                    && negb (truthy (o_orig o))
  | CRep _ => false
  end.

Definition breq (o : order) (c : cop) : option req :=
  match c with
  | CNew => Some (RNew (snd (clord_next o)) (o_price o) (o_qty o))
  | CCancel => Some (RCancel (snd (clord_next o)) (o_clord o) (o_qty o))
  | CReplace p q => Some (RReplace (snd (clord_next o)) (o_clord o) (rpl_px o p) (rpl_qty o q))
  | CRep _ => None
  end.

Definition pend_of (c : cop) : N :=
  match c with CNew => PENDING_NEW | CCancel => PENDING_CANCEL | _ => PENDING_REPLACE end.

Definition sent (o : order) (c : cop) : order :=
  set_status (set_ids o (snd (clord_next o)) (match c with CNew => o_orig o | _ => Some (o_clord o) end)
                      (fst (clord_next o))) (pend_of c) true.

(* a builder that raises leaves the object untouched *)
Lemma obuild_cases o c ob :
  obuild o c = Some ob ->
  exists r, breq o c = Some r /\
            if bgate o c then ob = (sent o c, Ok r) else exists e, ob = (o, Exc e).
Proof.
  destruct c as [| |p q|r]; cbn [obuild breq bgate]; intro H; inversion H; subst ob; clear H;
    eexists; (split; [reflexivity|]).
  - unfold new_req. destruct (o_status o =? CREATED); cbn [negb]; [reflexivity|eexists; reflexivity].
  - unfold cancel_req. destruct (can_cancel o); cbn [negb andb]; [|eexists; reflexivity].
    destruct (truthy (o_orig o)); cbn [negb]; [eexists; reflexivity|reflexivity].
  - unfold replace_req. fold (dflt p (o_price o)). fold (rpl_px o p). fold (rpl_qty o q).
    destruct (can_replace o); cbn [negb andb]; [|eexists; reflexivity].
    destruct ((rpl_px o p =? o_price o)%Z && (rpl_qty o q =? o_qty o)%Z); cbn [negb andb]; [eexists; reflexivity|].
    destruct (truthy (o_orig o)); cbn [negb]; [eexists; reflexivity|reflexivity].
Qed.

Lemma built_eq o c : built o c = if bgate o c then breq o c else None.
Proof.
  unfold built. destruct (obuild o c) as [ob|] eqn:Hb.
  - destruct (obuild_cases o c ob Hb) as (r & -> & H).
    destruct (bgate o c); [|destruct H as [e H]]; subst ob; reflexivity.
  - destruct c; try discriminate. reflexivity.
Qed.

Lemma ostep_eq legacy o c :
  ostep legacy o c =
  match c with
  | CRep (RExec e) => if accepts o (e_clid e) then exec_result o e else o
  | CRep (RRej _ _ st) => rej_result legacy o st
  | _ => if bgate o c then sent o c else o
  end.
Proof.
  assert (Hb : forall ob, obuild o c = Some ob -> fst ob = if bgate o c then sent o c else o).
  { intros ob Hb. destruct (obuild_cases o c ob Hb) as (r & _ & H).
    destruct (bgate o c); [|destruct H as [e H]]; subst ob; reflexivity. }
  destruct c as [| |p q|[e|a b st]]; cbn [ostep process_report]; try (apply Hb; reflexivity).
  - destruct (accepts o (e_clid e)) eqn:Ha; [apply per_accepted, Ha|rewrite per_refused by exact Ha; reflexivity].
  - apply pcr_result.
Qed.

Lemma orun_ind legacy (P : order -> Prop) :
  (forall o c, P o -> P (ostep legacy o c)) -> forall cs o, P o -> P (orun legacy o cs).
Proof. intros Hs cs. induction cs as [|c cs IH]; intros o H; [exact H|]. apply IH, Hs, H. Qed.

(* the status is an enum member (repaired code) *)
Definition senum_ok (o : order) : Prop := o_senum o = true /\ mem (o_status o) all_statuses = true.

Lemma senum_step o c : senum_ok o -> senum_ok (ostep false o c).
Proof.
  intro H. rewrite ostep_eq. destruct c as [| |p q|[e|a b st]].
  1-3: destruct (bgate o _); [split; reflexivity|exact H].
  - destruct (accepts o (e_clid e)); [|exact H]. unfold senum_ok, exec_result, exec_changes. cbn [o_senum o_status].
    destruct (_ =? T); [|exact H]. destruct (mem (e_st e) all_statuses) eqn:Hm; [split; [reflexivity|exact Hm]|exact H].
  - unfold senum_ok, rej_result, rej_changes. cbn [o_senum o_status orb].
    destruct (_ =? T); [|exact H]. destruct (mem st all_statuses) eqn:Hm; [split; [reflexivity|exact Hm]|exact H].
Qed.

(* what can move the status (a request built, an accepted execution report, a cancel reject), and the
   status after it *)
Inductive ev := EvNew | EvCancel | EvReplace | EvExec (ex st : N) | EvRej (st : N).

Definition ev_status (st : N) (e : ev) : N :=
  match e with
  | EvNew => PENDING_NEW
  | EvCancel => PENDING_CANCEL
  | EvReplace => PENDING_REPLACE
  | EvExec ex ms => if change_status st K_EXECUTIONREPORT ex ms false =? T then ms else st
  | EvRej ms => if change_status st K_ORDERCANCELREJECT 0 ms false =? T then ms else st
  end.

(* the event of one operation: a request that was built, an execution report that passed the
   ClOrdID check, a cancel reject (reports whose status is no enum member raise ValueError in
   FOrdStatus(..) and change nothing; the legacy reject handler stores any text) *)
Definition ev_of (legacy : bool) (o : order) (c : cop) : option ev :=
  match c with
  | CRep (RExec e) => if accepts o (e_clid e) && mem (e_st e) all_statuses then Some (EvExec (e_ex e) (e_st e)) else None
  | CRep (RRej _ _ st) => if legacy || mem st all_statuses then Some (EvRej st) else None
  | _ => match built o c with
         | Some (RNew _ _ _) => Some EvNew
         | Some (RCancel _ _ _) => Some EvCancel
         | Some (RReplace _ _ _ _) => Some EvReplace
         | None => None
         end
  end.

Fixpoint events (legacy : bool) (o : order) (cs : list cop) : list ev :=
  match cs with
  | [] => []
  | c :: cs' =>
      match ev_of legacy o c with
      | Some e => e :: events legacy (ostep legacy o c) cs'
      | None => events legacy (ostep legacy o c) cs'
      end
  end.

Lemma status_step legacy o c :
  o_status (ostep legacy o c) = match ev_of legacy o c with Some e => ev_status (o_status o) e | None => o_status o end.
Proof.
  rewrite ostep_eq. unfold ev_of. rewrite built_eq. destruct c as [| |p q|[e|a b st]]; cbn [breq].
  1-3: destruct (bgate o _); reflexivity.
  - destruct (accepts o (e_clid e)); [|reflexivity]. unfold exec_result, exec_changes. cbn [o_status andb].
    destruct (mem (e_st e) all_statuses); [rewrite andb_true_r|rewrite andb_false_r]; reflexivity.
  - unfold rej_result, rej_changes. cbn [o_status].
    destruct (legacy || mem st all_statuses); [rewrite andb_true_r|rewrite andb_false_r]; reflexivity.
Qed.

(* what the quantities should be: the last accepted execution report, the price / qty of the last
   REPLACED one, leaves zeroed by a cancel reject carrying REJECTED *)
Record ghost := mkG { g_last : option erep; g_px : Z; g_qty : Z; g_zeroed : bool }.

Definition gstep (o : order) (g : ghost) (c : cop) : ghost :=
  match c with
  | CRep (RExec e) =>
      if accepts o (e_clid e) then
        mkG (Some e)
            (if e_ex e =? X_REPLACED then dflt (e_px e) (g_px g) else g_px g)
            (if e_ex e =? X_REPLACED then dflt (e_qty e) (g_qty g) else g_qty g) false
      else g
  | CRep (RRej _ _ st) => if st =? REJECTED then mkG (g_last g) (g_px g) (g_qty g) true else g
  | _ => g
  end.

Fixpoint grun (legacy : bool) (o : order) (g : ghost) (cs : list cop) : ghost :=
  match cs with
  | [] => g
  | c :: cs' => grun legacy (ostep legacy o c) (gstep o g c) cs'
  end.

Definition follows (o : order) (g : ghost) : Prop :=
  o_price o = g_px g /\ o_qty o = g_qty g /\
  match g_last g with
  | Some e => o_cum o = e_cum e /\ o_avg o = Some (e_avg e) /\ o_order_id o = Some (e_oid e)
              /\ o_leaves o = (if g_zeroed g then 0%Z else e_leaves e)
  | None => (g_zeroed g = true -> o_leaves o = 0%Z)
  end.

Lemma follows_step legacy o g c : follows o g -> follows (ostep legacy o c) (gstep o g c).
Proof.
  intros H. rewrite ostep_eq. destruct c as [| |p q|[e|a b st]]; cbn [gstep].
  1-3: destruct (bgate o _); exact H.
  - destruct (accepts o (e_clid e)); [|exact H]. destruct H as (Hp & Hq & _).
    unfold follows, exec_result. cbn. rewrite Hp, Hq. repeat split; reflexivity.
  - destruct H as (Hp & Hq & Hl). unfold follows, rej_result.
    destruct (st =? REJECTED); cbn; (split; [exact Hp|split; [exact Hq|]]); [|exact Hl].
    destruct (g_last g); [tauto|reflexivity].
Qed.

(* a finished order refuses every request and keeps its status under every report *)
Lemma finished_gate o c : is_finished o = true -> bgate o c = false.
Proof.
  unfold is_finished. intro H. apply is_finished_iff in H.
  destruct c; cbn [bgate]; unfold can_cancel, can_replace; [| | |reflexivity].
  all: destruct H as [<-|[<-|[<-|[<-|[]]]]]; reflexivity.
Qed.

Lemma finished_refuses o :
  is_finished o = true ->
  (exists e, new_req o = (o, Exc e)) /\ (exists e, cancel_req o = (o, Exc e))
  /\ (forall p q, exists e, replace_req o p q = (o, Exc e)).
Proof.
  intro H.
  assert (Hc : forall c ob, obuild o c = Some ob -> exists e, ob = (o, Exc e)).
  { intros c ob Hb. destruct (obuild_cases o c ob Hb) as (r & _ & Hr). rewrite finished_gate in Hr by exact H. exact Hr. }
  split; [|split; [|intros p q]].
  - apply (Hc CNew). reflexivity.
  - apply (Hc CCancel). reflexivity.
  - apply (Hc (CReplace p q)). reflexivity.
Qed.

(* no operation at all moves a finished order *)
Lemma finished_stays legacy o c : is_finished o = true -> o_status (ostep legacy o c) = o_status o.
Proof.
  intro H. rewrite ostep_eq. destruct c as [| |p q|[e|a b st]].
  1-3: rewrite finished_gate by exact H; reflexivity.
  - destruct (accepts o (e_clid e)); [|reflexivity]. unfold exec_result, exec_changes. cbn [o_status].
    rewrite finished_no_change by exact H. reflexivity.
  - unfold rej_result, rej_changes. cbn [o_status]. rewrite finished_no_change by exact H. reflexivity.
Qed.

(* the object's ids are well formed: ClOrdID, and OrigClOrdID when set, are non-empty and under root R *)
Definition owf (R : str) (o : order) : Prop :=
  R <> [] /\ clord_root (o_clord o) = R /\ o_clord o <> [] /\
  (forall x, o_orig o = Some x -> truthy (Some x) = true -> clord_root x = R /\ x <> []).

Lemma owf_sent R o c : owf R o -> owf R (sent o c).
Proof.
  intros (HR & Hroot & Hne & Horig). unfold owf, sent, clord_next. cbn [fst snd set_status set_ids o_clord o_orig].
  rewrite Hroot. split; [exact HR|]. split; [apply clord_root_next, HR|]. split; [apply clord_id_nonempty|].
  destruct c; [exact Horig| | |]; intros x Hx _; injection Hx as <-; auto.
Qed.

Lemma owf_step legacy R o c : owf R o -> owf R (ostep legacy o c).
Proof.
  intros H. rewrite ostep_eq. destruct (H) as (HR & Hroot & Hne & Horig).
  destruct c as [| |p q|[e|a b st]].
  1-3: destruct (bgate o _); [apply owf_sent, H|exact H].
  - destruct (accepts o (e_clid e)); [|exact H]. unfold owf, exec_result. cbn [o_clord o_orig].
    split; [exact HR|]. split; [exact Hroot|]. split; [exact Hne|].
    destruct (e_ex e =? X_REPLACED); [discriminate|exact Horig].
  - unfold owf, rej_result. cbn [o_clord o_orig].
    destruct (rej_changes legacy o st && negb legacy && truthy (o_orig o)) eqn:Hc; [|exact H].
    apply andb_prop in Hc. destruct Hc as [_ Ht]. destruct (o_orig o) as [x|]; [|discriminate].
    destruct (Horig x eq_refl Ht) as [Hr Hn]. split; [exact HR|]. split; [exact Hr|]. split; [exact Hn|discriminate].
Qed.

Lemma owf_run legacy R cs : forall o, owf R o -> owf R (orun legacy o cs).
Proof. apply orun_ind, owf_step. Qed.

(* a, a+1, .., a+n-1 *)
Fixpoint nseq (a : N) (n : nat) : list N :=
  match n with O => [] | S n' => a :: nseq (a + 1) n' end.

(* the ClOrdIDs of the requests built along a run, in order *)
Fixpoint ids_run (legacy : bool) (o : order) (cs : list cop) : list str :=
  match cs with
  | [] => []
  | c :: cs' =>
      match built o c with
      | Some r => req_id r :: ids_run legacy (ostep legacy o c) cs'
      | None => ids_run legacy (ostep legacy o c) cs'
      end
  end.

Lemma cnt_step legacy o c :
  o_cnt (ostep legacy o c) = match built o c with Some _ => o_cnt o + 1 | None => o_cnt o end.
Proof.
  rewrite ostep_eq, built_eq. destruct c as [| |p q|[e|a b st]].
  1-3: destruct (bgate o _); reflexivity.
  - destruct (accepts o (e_clid e)); reflexivity.
  - reflexivity.
Qed.

(* every request carries the next id of the chain *)
Lemma built_id o c r : built o c = Some r -> req_id r = snd (clord_next o).
Proof.
  rewrite built_eq. destruct (bgate o c); [|discriminate].
  destruct c; cbn [breq]; intro H; inversion H; reflexivity.
Qed.

Lemma ids_chain legacy R cs : forall o,
  owf R o ->
  ids_run legacy o cs = map (clord_id_of R) (nseq (o_cnt o + 1) (length (ids_run legacy o cs))).
Proof.
  induction cs as [|c cs IH]; intros o Hw; [reflexivity|].
  cbn [ids_run]. pose proof (IH _ (owf_step legacy R o c Hw)) as IH'. rewrite cnt_step in IH'.
  destruct (built o c) as [r|] eqn:Hb; [|exact IH'].
  cbn [length nseq map]. rewrite <- IH', (built_id o c r Hb). unfold clord_next. cbn [snd].
  destruct Hw as (_ & -> & _). reflexivity.
Qed.

Lemma nseq_ge a n k : In k (nseq a n) -> a <= k.
Proof. revert a. induction n as [|n IH]; intros a; cbn; [tauto|]. intros [H|H]; [lia|]. apply IH in H. lia. Qed.

Lemma nseq_nodup a n : NoDup (nseq a n).
Proof.
  revert a. induction n as [|n IH]; intro a; cbn; constructor; [|apply IH].
  intro H. apply nseq_ge in H. lia.
Qed.

(* root--a, root--(a+1), .. are pairwise distinct *)
Lemma chain_nodup R a n : NoDup (map (clord_id_of R) (nseq a n)).
Proof.
  apply FinFun.Injective_map_NoDup; [|apply nseq_nodup].
  intros x y H. eapply clord_id_inj, H.
Qed.

Lemma init_owf clord ticker side price qty ordtype account target o :
  init_order clord ticker side price qty ordtype account target = Ok o ->
  owf (clord_root clord) o /\ senum_ok o /\ o_status o = CREATED /\ o_cnt o = 0 /\ o_orig o = None
  /\ o_cum o = 0%Z /\ o_leaves o = 0%Z /\ o_price o = price /\ o_qty o = qty /\ o_clord o = clord.
Proof.
  unfold init_order. destruct clord as [|c s]; [discriminate|]. intro H. inversion H; subst; clear H.
  cbn. repeat split; try discriminate; try reflexivity.
  - apply clord_root_nonempty. discriminate.
Qed.
