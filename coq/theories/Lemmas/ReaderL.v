(* C03: the reader loop on a stream of good frames with marker-free junk between them, under every partition of the
   byte stream into reads: a buffer that ends before the end of a frame waits (wait_prefix), a buffer that holds it
   delivers it (RoundTripL.frame_ok_decode), and what is kept between two reads is again a prefix of such a stream. *)
From Coq Require Import ZArith NArith List Bool Lia ZifyBool.
From AF Require Import Lemmas.DecodeTotalL Base.Sx Py.Str Fix.Codec Fix.WfMsg Lemmas.StrB Lemmas.RoundTripL.
Import ListNotations.
Open Scope N_scope.

Lemma strip_last_two : forall a b X, X <> [] -> exists Y, strip_last_empty (a :: b :: X) = a :: b :: Y.
Proof.
  intros a b X HX. unfold strip_last_empty.
  destruct (exists_last HX) as [X' [x EX]]. subst X.
  change (a :: b :: X' ++ [x]) with ((a :: b :: X') ++ [x]). rewrite rev_app_distr. cbn [rev app].
  destruct x as [|c x].
  - exists X'. rewrite rev_app_distr. cbn [rev app]. rewrite rev_app_distr, rev_involutive. reflexivity.
  - exists (X' ++ [c :: x]). reflexivity.
Qed.

Lemma strip_last_short : forall l, (length l <= 2)%nat -> (length (strip_last_empty l) <= 2)%nat.
Proof.
  intros l H. unfold strip_last_empty. destruct (rev l) as [|[|c x] r] eqn:E; try assumption.
  rewrite rev_length, <- (rev_length l), E in *. cbn [length] in H. lia.
Qed.

(* at most two pieces: not yet a frame *)
Lemma decode_fields_few : forall G bs rawlen idx flen P, (length (split_on 1 P) <= 2)%nat ->
  decode_fields G bs true rawlen idx false flen P (fields_of P) = Ok (None, Z.of_nat idx, None).
Proof.
  intros G bs rawlen idx flen P H. apply strip_last_short in H. fold (fields_of P) in H.
  destruct (fields_of P) as [|a [|b [|c r]]]; try reflexivity. cbn [length] in H. lia.
Qed.

(* a prefix of f ++ c :: R with c-free f ends inside f or goes on behind the separator *)
Lemma prefix_sep_cases : forall (c : N) f P Q R, cfree c f -> P ++ Q = f ++ c :: R ->
  cfree c P \/ exists P', P = f ++ c :: P' /\ P' ++ Q = R.
Proof.
  intros c f P Q R Hf E. apply app_eq_app in E as [l [[E1 E2]|[E1 E2]]].
  - destruct l as [|x l]; [left; rewrite E1, app_nil_r; exact Hf|].
    injection E2 as <- E2. right. exists l. split; [exact E1 | symmetry; exact E2].
  - left. rewrite E1 in Hf. apply cfree_app in Hf. tauto.
Qed.

(* the field list of any proper prefix of a good frame is rejected as incomplete *)
Lemma wait_fields : forall G bs F dm P Q rawlen idx flen,
  frame_ok G bs F dm -> F = P ++ Q -> Q <> [] -> (rawlen - Z.of_nat idx < zlen F)%Z ->
  decode_fields G bs true rawlen idx false flen P (fields_of P) = Ok (None, Z.of_nat idx, None).
Proof.
  intros G bs F dm P Q rawlen idx flen [f1v [f2 [rest [bl [stack [HF [Hsoh [_ [Hbl [Hlen _]]]]]]]]]] EF HQ Hraw.
  pose proof (Forall_inv Hsoh) as S0. pose proof (Forall_inv (Forall_inv_tail Hsoh)) as S1.
  rewrite EF, !flat_cons in HF.
  destruct (prefix_sep_cases 1 _ P Q _ S0 HF) as [HP|[P1 [-> H1]]].
  { apply decode_fields_few. rewrite (split_on_free 1 P HP). cbn [length]. lia. }
  destruct (prefix_sep_cases 1 _ P1 Q _ S1 H1) as [HP1|[P2 [-> H2]]].
  { apply decode_fields_few. rewrite (split_on_app_sep 1 _ _ S0), (split_on_free 1 P1 HP1). cbn [length]. lia. }
  unfold fields_of. rewrite (split_on_app_sep 1 _ _ S0), (split_on_app_sep 1 _ _ S1).
  destruct (strip_last_two (field T8 bs) (field T9 f1v) _ (split_on_nonempty 1 P2)) as [[|y Y] ->]; [reflexivity|].
  rewrite (decode_fields_header G bs true _ _ false _ _ T8 f1v _ y Y (proj1 (cfreeb_spec 61 T8) eq_refl) Hbl (N2Z.is_nonneg bl)).
  rewrite Hlen. destruct (_ <? _)%Z eqn:E; [reflexivity | lia].
Qed.

Lemma frame_ok_shape : forall G bs F dm, frame_ok G bs F dm -> frame_shape F.
Proof. intros G bs F dm [f1v [f2 [rest [bl [stack H]]]]]. apply H. Qed.

(* junk followed by at most 5 bytes of a marker contains no marker *)
Lemma junk_partial_no_mark : forall J p, no_mark J -> (p <= 5)%nat ->
  no_mark (J ++ firstn p MARK).
Proof.
  intros J p HJ Hp. unfold no_mark. destruct p as [|p]; [cbn [firstn]; rewrite app_nil_r; exact HJ|].
  change (firstn (S p) MARK) with (56 :: firstn p [61; 70; 73; 88; 46]).
  rewrite (find_sub_junk_gen 56 [61; 70; 73; 88; 46] J _ MARK_no_border HJ).
  assert (H : find_sub (56 :: [61; 70; 73; 88; 46]) (56 :: firstn p [61; 70; 73; 88; 46]) = None).
  { do 5 (destruct p as [|p]; [reflexivity|]). lia. }
  rewrite H. reflexivity.
Qed.

(* junk followed by the first p (1..5) bytes of a marker: exactly these p bytes stay *)
Lemma marker_tail_partial : forall J p, (1 <= p <= 5)%nat -> marker_tail (J ++ firstn p MARK) = p.
Proof.
  intros J p Hp. unfold marker_tail, marker_tail_from, ends_with.
  rewrite rev_app_distr.
  destruct p as [|[|[|[|[|[|p]]]]]]; try lia; cbn; reflexivity.
Qed.

(* the first 1..5 bytes of a frame are a proper prefix of the marker *)
Lemma frame_short_prefix : forall F P Q, prefixb MARK F = true -> F = P ++ Q -> (length P <= 5)%nat ->
  P = firstn (length P) MARK.
Proof.
  intros F P Q Hm EF Hp. apply prefixb_spec in Hm as [r Er]. rewrite EF in Er.
  apply (f_equal (firstn (length P))) in Er. rewrite firstn_exact, firstn_app in Er.
  replace (length P - length MARK)%nat with 0%nat in Er by (cbn [length MARK]; lia).
  rewrite app_nil_r in Er. exact Er.
Qed.

(* wait lemma: marker-free junk followed by a non-empty proper prefix of a good frame: the junk is consumed, no byte
   of the frame is.  From 6 bytes on the prefix is a frame candidate and its field list is incomplete; up to 5 bytes
   there is no marker in the buffer and the prefix is the marker tail that stays *)
Lemma frame_ok_wait : forall G bs J F dm P Q,
  no_mark J -> frame_ok G bs F dm -> F = P ++ Q -> Q <> [] -> P <> [] ->
  decode G bs (J ++ P) true = Ok (None, zlen J, None).
Proof.
  intros G bs J F dm P Q HJ Hok EF HQ HP. pose proof (frame_ok_shape _ _ _ _ Hok) as HS.
  destruct (Nat.le_gt_cases 6 (length P)) as [H6|H5].
  - rewrite (decode_prefix_gen G bs J F P Q true HJ HS EF HQ H6).
    apply (wait_fields G bs F dm P Q _ (length J) _ Hok EF HQ).
    rewrite EF, !zlen_app. unfold zlen. destruct Q; [contradiction | cbn [length]; lia].
  - assert (Hp : (1 <= length P <= 5)%nat) by (destruct P; [contradiction | cbn [length] in *; lia]).
    pose proof (frame_short_prefix F P Q (proj1 HS) EF (proj2 Hp)) as El.
    rewrite El, (decode_no_marker G bs _ (junk_partial_no_mark J _ HJ (proj2 Hp))), (marker_tail_partial J _ Hp).
    rewrite <- El. repeat f_equal. rewrite zlen_app. unfold zlen. lia.
Qed.

(* a decode that returns no message: if it consumed bytes the loop looks once more at what is left,
   which waits without consuming anything *)
Lemma reader_loop_wait : forall G bs f buf acc n,
  decode G bs buf true = Ok (None, Z.of_nat n, None) ->
  decode G bs (skipn n buf) true = Ok (None, 0%Z, None) ->
  (0 < n -> 1 <= f)%nat ->
  reader_loop G bs (S f) buf acc = (skipn n buf, rev acc, 0).
Proof.
  intros G bs f buf acc n H H2 Hf. cbn [reader_loop]. rewrite H.
  destruct (0 <? Z.of_nat n)%Z eqn:E.
  - rewrite Nat2Z.id. destruct f as [|f']; [lia|]. cbn [reader_loop]. rewrite H2. reflexivity.
  - assert (n = 0%nat) by lia. subst n. reflexivity.
Qed.

(* a proper prefix of the marker alone in the buffer: nothing is consumed *)
Lemma decode_marker_prefix : forall G bs k, (k <= 5)%nat ->
  decode G bs (firstn k MARK) true = Ok (None, 0%Z, None).
Proof.
  intros G bs k Hk.
  rewrite (decode_no_marker G bs (firstn k MARK) (junk_partial_no_mark [] k eq_refl Hk)).
  do 6 (destruct k as [|k]; [reflexivity|]). lia.
Qed.

(* a buffer B inside marker-free junk B ++ l: one decode, the trailing marker prefix T of B stays, and T ++ l is junk again *)
Lemma junk_wait : forall G bs f B l acc, no_mark (B ++ l) -> (length B <= f)%nat ->
  exists pre T, B = pre ++ T /\ marker_prefix T /\ no_mark (T ++ l)
    /\ reader_loop G bs (S f) B acc = (T, rev acc, 0).
Proof.
  intros G bs f B l acc H Hfuel. destruct (marker_tail_spec B) as [Hk [Hle Hsk]].
  set (n := (length B - marker_tail B)%nat) in *. pose proof (firstn_skipn n B) as EB.
  exists (firstn n B), (skipn n B). split; [symmetry; exact EB|]. split; [exists (marker_tail B); split; assumption|].
  split; [rewrite <- EB, <- app_assoc in H; exact (find_sub_none_suffix _ _ _ H)|].
  apply reader_loop_wait.
  - rewrite (decode_no_marker G bs B (find_sub_none_prefix _ _ _ H)). unfold zlen, n. repeat f_equal. lia.
  - rewrite Hsk. apply decode_marker_prefix. exact Hk.
  - lia.
Qed.

(* a buffer that ends before the end of junk J ++ frame F: the loop delivers nothing and stops with status 0;
   what it keeps (a marker prefix inside the junk, or the bytes of the frame) is again junk and frame prefix *)
Lemma wait_prefix : forall G bs J F dm B Q f acc,
  no_mark J -> frame_ok G bs F dm -> J ++ F = B ++ Q -> Q <> [] -> (length B <= f)%nat ->
  exists B' J', reader_loop G bs (S f) B acc = (B', rev acc, 0)
    /\ B' ++ Q = J' ++ F /\ find_sub MARK J' = None /\ (length B' < length J' + length F)%nat.
Proof.
  intros G bs J F dm B Q f acc HJ HF E HQ Hf.
  pose proof (frame_ok_shape _ _ _ _ HF) as HS. pose proof (frame_shape_len F HS) as H6.
  destruct (Nat.le_gt_cases (length B) (length J)) as [Hle|Hgt].
  - (* the buffer ends inside the junk *)
    destruct (app_split_le _ _ _ _ E Hle) as [l [EJ EQ]]. rewrite EJ in HJ.
    destruct (junk_wait G bs f B l acc HJ Hf) as [pre [T [_ [_ [HT HL]]]]].
    exists T, (T ++ l). split; [exact HL|]. split; [rewrite EQ, app_assoc; reflexivity|]. split; [exact HT|].
    rewrite app_length. lia.
  - (* the buffer holds the junk and l, a proper prefix of the frame *)
    destruct (app_split_le _ _ _ _ (eq_sym E) ltac:(lia)) as [l [EB EF]]. subst B. rewrite app_length in Hgt, Hf.
    exists l, []. split; [|split; [symmetry; exact EF|]; split; [reflexivity|]].
    + assert (Hl : l <> []) by (intros ->; cbn [length] in Hgt; lia).
      rewrite <- (skipn_exact J l) at 2. apply reader_loop_wait.
      * exact (frame_ok_wait G bs J F dm l Q HJ HF EF HQ Hl).
      * rewrite skipn_exact. exact (frame_ok_wait G bs [] F dm l Q eq_refl HF EF HQ Hl).
      * lia.
    + rewrite EF, app_length. destruct Q; [contradiction | cbn [length]; lia].
Qed.

Definition seg_ok (G : group_table) (bs : str) (s : seg) : Prop :=
  no_mark (fst s) /\ frame_ok G bs (fst (snd s)) (snd (snd s)).

(* buffer B followed by the unread bytes S is a stream of good segments and final junk Jn *)
Definition stream_inv (G : group_table) (bs B S : str) (segs : list seg) (Jn : str) : Prop :=
  Forall (seg_ok G bs) segs /\ no_mark Jn /\ B ++ S = stream_of segs Jn.

(* what the buffer holds between two reads: not yet the whole next frame; after the last frame a proper
   prefix of the marker *)
Definition wait_state (B : str) (segs : list seg) : Prop :=
  match segs with
  | [] => marker_prefix B
  | s :: _ => (length B < length (seg_bytes s))%nat
  end.

Lemma stream_of_cons : forall J F dm segs Jn, stream_of ((J, (F, dm)) :: segs) Jn = (J ++ F) ++ stream_of segs Jn.
Proof. intros. unfold stream_of. cbn [map concat]. rewrite <- app_assoc. reflexivity. Qed.

Lemma loop_prefix : forall G bs segs Jn B S fuel acc, stream_inv G bs B S segs Jn -> (length B < fuel)%nat ->
  exists B' segs' Jn' done,
    reader_loop G bs fuel B acc = (B', rev acc ++ map delivered done, 0)
    /\ stream_inv G bs B' S segs' Jn' /\ wait_state B' segs'
    /\ map snd segs = done ++ map snd segs' /\ exists pre, Jn = pre ++ Jn'.
Proof.
  intros G bs segs. induction segs as [|[J [F dm]] segs IH]; intros Jn B S fuel acc [Hok [HJn E]] Hfuel;
    (destruct fuel as [|f]; [lia|]).
  - (* only the final junk is left *)
    unfold stream_of in E. cbn [map concat app] in E. rewrite <- E in HJn.
    destruct (junk_wait G bs f B S acc HJn ltac:(lia)) as [pre [T [EB [HT [HTS ->]]]]].
    exists T, [], (T ++ S), []. rewrite app_nil_r. split; [reflexivity|]. split.
    { split; [constructor|]. split; [exact HTS | reflexivity]. }
    split; [exact HT|]. split; [reflexivity|]. exists pre. rewrite <- E, EB, <- app_assoc. reflexivity.
  - rewrite stream_of_cons in E. inversion Hok as [|? ? [HJ HF] Hok']; subst. cbn [fst snd] in HJ, HF.
    pose proof (frame_shape_len F (frame_ok_shape _ _ _ _ HF)) as H6.
    destruct (Nat.le_gt_cases (length (J ++ F)) (length B)) as [Hle|Hgt].
    + (* the buffer holds junk and frame: deliver and go on with what follows *)
      destruct (app_split_le _ _ _ _ E Hle) as [l [EB ER]]. subst B. rewrite !app_length in Hfuel.
      cbn [reader_loop]. rewrite <- app_assoc, (frame_ok_decode G bs J F dm l true HJ HF).
      replace (0 <? zlen J + zlen F)%Z with true by (unfold zlen; lia).
      replace (Z.to_nat (zlen J + zlen F)) with (length (J ++ F)) by (unfold zlen; rewrite app_length; lia).
      rewrite app_assoc, skipn_exact.
      destruct (IH Jn l S f ((dm, F) :: acc) (conj Hok' (conj HJn (eq_sym ER))) ltac:(lia))
        as [B' [segs' [Jn' [done [HL [Hinv [Hw [Emap Hpre]]]]]]]].
      exists B', segs', Jn', ((F, dm) :: done). rewrite HL. cbn [rev map delivered fst snd].
      rewrite <- app_assoc. split; [reflexivity|]. split; [exact Hinv|]. split; [exact Hw|].
      split; [cbn [map snd fst app]; rewrite Emap; reflexivity | exact Hpre].
    + (* the frame is not complete: wait *)
      symmetry in E. destruct (app_split_le _ _ _ _ E ltac:(lia)) as [Q [EQ ES]].
      assert (HQ : Q <> []) by (intros ->; rewrite app_nil_r in EQ; rewrite EQ in Hgt; lia).
      destruct (wait_prefix G bs J F dm B Q f acc HJ HF EQ HQ ltac:(lia)) as [B' [J' [HL [EB' [HJ' Hlt]]]]].
      exists B', ((J', (F, dm)) :: segs), Jn, []. rewrite HL, app_nil_r.
      split; [reflexivity|]. split.
      { split; [constructor; [split; assumption | assumption]|]. split; [exact HJn|].
        rewrite stream_of_cons, ES, app_assoc, EB'. reflexivity. }
      split; [unfold wait_state, seg_bytes; cbn [fst snd]; rewrite app_length; exact Hlt|].
      split; [reflexivity | exists []; reflexivity].
Qed.

Lemma run_any : forall G bs chunks segs Jn B,
  stream_inv G bs B (concat chunks) segs Jn -> wait_state B segs ->
  exists resid,
    reader_run G bs B chunks = (resid, map delivered (map snd segs), map (fun _ => 0) chunks)
    /\ marker_prefix resid /\ exists pre, Jn = pre ++ resid.
Proof.
  intros G bs chunks. induction chunks as [|c cs IH]; intros segs Jn B [Hok [HJn E]] Hw.
  - (* nothing more to read: a buffer that waits for its first frame would be shorter than the stream it is *)
    cbn [concat] in E. rewrite app_nil_r in E. destruct segs as [|[J [F dm]] segs].
    + exists B. split; [reflexivity|]. split; [exact Hw | exists []; exact (eq_sym E)].
    + unfold wait_state, seg_bytes in Hw. cbn [fst snd] in Hw. rewrite E, stream_of_cons, app_length in Hw. lia.
  - cbn [concat] in E. rewrite app_assoc in E. cbn [reader_run]. unfold reader_step.
    destruct (loop_prefix G bs segs Jn (B ++ c) (concat cs) (S (length (B ++ c))) [] (conj Hok (conj HJn E)) (Nat.lt_succ_diag_r _))
      as [B' [segs' [Jn' [done [-> [Hinv [Hw' [Emap [pre ->]]]]]]]]].
    destruct (IH segs' Jn' B' Hinv Hw') as [resid [-> [Hm [pre' ->]]]].
    exists resid. cbn [rev app map]. rewrite Emap, map_app, app_assoc. split; [reflexivity|]. split; [exact Hm | eexists; reflexivity].
Qed.

Lemma encoder_frame_ok : forall G bs fm, wf_table G = true -> encoder_frame G bs fm ->
  frame_ok G bs (fst fm) (snd fm).
Proof.
  intros G bs fm HG [m [sess [time [raw [sess' [seq [H1 [H2 [H3 [H4 [H5 [H6 [H7 [H8 H9]]]]]]]]]]]]]].
  rewrite H9. apply (encode_frame_ok G HG bs m sess time raw (fst fm) sess' seq); assumption.
Qed.

(* the statement of C03_wait: a non-empty proper prefix of the frame in two length ranges (one fact, frame_ok_wait), and
   junk alone (which does not depend on the frame) *)
Theorem wait_for_more : forall G bs J fm P Q, wf_table G = true -> no_mark J -> encoder_frame G bs fm ->
  fst fm = P ++ Q -> Q <> [] ->
  ((6 <= length P)%nat -> decode G bs (J ++ P) true = Ok (None, zlen J, None))
  /\ ((1 <= length P <= 5)%nat -> decode G bs (J ++ P) true = Ok (None, zlen J, None))
  /\ (P = [] -> exists k, (k <= 5)%nat /\ decode G bs J true = Ok (None, (zlen J - Z.of_nat k)%Z, None)
                 /\ exists pre, J = pre ++ firstn k MARK).
Proof.
  intros G bs J fm P Q HG HJ Hfm EF HQ.
  pose proof (encoder_frame_ok G bs fm HG Hfm) as Hok. split; [|split].
  - intro H6. apply (frame_ok_wait G bs J (fst fm) (snd fm) P Q HJ Hok EF HQ). intros ->. cbn [length] in H6. lia.
  - intro Hp. apply (frame_ok_wait G bs J (fst fm) (snd fm) P Q HJ Hok EF HQ). intros ->. cbn [length] in Hp. lia.
  - intros _. destruct (marker_tail_spec J) as [Hk [_ Hsk]].
    exists (marker_tail J). split; [exact Hk|]. split; [exact (decode_no_marker G bs J HJ)|].
    exists (firstn (length J - marker_tail J) J). rewrite <- Hsk. symmetry. apply firstn_skipn.
Qed.

(* every stream of encoder frames, each preceded by marker-free junk, with marker-free junk
   after the last one, under EVERY partition into reads: exactly the frames, in order; no exception; what
   stays in the buffer is a proper prefix of the marker that ends the trailing junk *)
Theorem chunk_independent : forall G bs segs tail chunks,
  wf_table G = true -> Forall (enc_seg G bs) segs -> no_mark tail ->
  concat chunks = stream_of segs tail ->
  exists resid,
    reader_run G bs [] chunks = (resid, map delivered (map snd segs), map (fun _ => 0) chunks)
    /\ marker_prefix resid /\ exists pre, tail = pre ++ resid.
Proof.
  intros G bs segs tail chunks HG Hs Ht E. apply run_any.
  - split; [|split; [exact Ht | exact E]].
    eapply Forall_impl; [|exact Hs]. intros s [A B]. split; [exact A | apply encoder_frame_ok; assumption].
  - destruct segs as [|s segs]; [exists 0%nat; split; [lia | reflexivity]|].
    destruct (Forall_inv Hs) as [_ Hf]. apply (encoder_frame_ok G bs _ HG), frame_ok_shape, frame_shape_len in Hf.
    unfold wait_state, seg_bytes. rewrite app_length. cbn [length]. lia.
Qed.

(* no junk after the last frame: nothing is left in the buffer *)
Corollary chunk_independent_no_tail : forall G bs segs chunks,
  wf_table G = true -> Forall (enc_seg G bs) segs -> concat chunks = stream_of segs [] ->
  reader_run G bs [] chunks = ([], map delivered (map snd segs), map (fun _ => 0) chunks).
Proof.
  intros G bs segs chunks HG Hs E.
  destruct (chunk_independent G bs segs [] chunks HG Hs eq_refl E) as [resid [HR [_ [pre Hpre]]]].
  symmetry in Hpre. apply app_eq_nil in Hpre as [_ ->]. exact HR.
Qed.

(* no junk at all *)
Theorem chunk_independent_frames : forall G bs fms chunks,
  wf_table G = true -> Forall (encoder_frame G bs) fms -> concat chunks = concat (map fst fms) ->
  reader_run G bs [] chunks = ([], map delivered fms, map (fun _ => 0) chunks).
Proof.
  intros G bs fms chunks HG Hf E.
  rewrite <- (map_id fms), <- (map_map (fun fm : str * message => (@nil N, fm)) snd).
  apply chunk_independent_no_tail; [exact HG | |].
  - apply Forall_map. eapply Forall_impl; [|exact Hf]. intros fm H. split; [reflexivity | exact H].
  - unfold stream_of. rewrite app_nil_r, map_map. exact E.
Qed.

(* two example frames, junk around them: the streams of the C03 witnesses *)
From Coq Require Import String Ascii.
From AFGen Require Import GenGroups.

Definition ex_mA : message := mkMsg (txt "D") [plain "11" "id1"; plain "55" "MSFT"].
Definition ex_mB : message := mkMsg (txt "D") [plain "11" "id2"; plain "55" "IBM"].
Definition ex_sess_at (n : Z) : session := mkSession (txt "SND") (txt "TGT") n.
Definition ex_frame_at (n : Z) (m : message) : str :=
  match encode beginstring m (ex_sess_at n) ex_time false with Ok (f, _) => f | Exc _ => [] end.
Definition ex_FA : str := ex_frame_at 17 ex_mA.
Definition ex_FB : str := ex_frame_at 18 ex_mB.
Definition ex_dA : message := decoded_of beginstring ex_mA (ex_sess_at 17) (z_to_dec 17) ex_time.
Definition ex_dB : message := decoded_of beginstring ex_mB (ex_sess_at 18) (z_to_dec 18) ex_time.
Definition ex_garbage : str := txt "xyz".
Definition ex_junk2 : str := txt "x8=FI".          (* ends in a proper prefix of the marker *)
Definition ex_tail : str := txt "zz8=".
Definition ex_segs : list seg := [(ex_garbage, (ex_FA, ex_dA)); (ex_junk2, (ex_FB, ex_dB))].
Definition ex_both : list (message * str) := [(ex_dA, ex_FA); (ex_dB, ex_FB)].

(* non-vacuity of chunk_independent: junk before both frames (one ending inside a marker), junk after *)
Lemma ex_segs_encoder : Forall (enc_seg GenGroups.table beginstring) ex_segs /\ no_mark ex_tail.
Proof.
  split; [|vm_compute; reflexivity].
  constructor; [|constructor; [|constructor]]; (split; [vm_compute; reflexivity|]).
  - exists ex_mA, (ex_sess_at 17), ex_time, false, (ex_sess_at 18), (z_to_dec 17).
    repeat split; vm_compute; reflexivity.
  - exists ex_mB, (ex_sess_at 18), ex_time, false, (ex_sess_at 19), (z_to_dec 18).
    repeat split; vm_compute; reflexivity.
Qed.

(* frame A, frame B, garbage before A: however the stream is cut into two or three reads, by the theorem *)
Lemma ex_cut_anywhere : forall i k,
  reader_run GenGroups.table beginstring [] [ex_FA ++ firstn k ex_FB; skipn k ex_FB] = ([], ex_both, [0; 0])
  /\ reader_run GenGroups.table beginstring [] [ex_FA; firstn k ex_FB; skipn k ex_FB] = ([], ex_both, [0; 0; 0])
  /\ reader_run GenGroups.table beginstring [] [ex_garbage ++ firstn i ex_FA; skipn i ex_FA ++ ex_FB] = ([], ex_both, [0; 0]).
Proof.
  intros i k. destruct ex_segs_encoder as [Hs _].
  inversion Hs as [|? ? [HgA HA] Hs']. inversion Hs' as [|? ? [_ HB] _]. cbn [fst snd] in HgA, HA, HB.
  assert (Hgs : Forall (enc_seg GenGroups.table beginstring) [(ex_garbage, (ex_FA, ex_dA)); ([], (ex_FB, ex_dB))]).
  { constructor; [split; assumption|]. constructor; [split; [reflexivity | exact HB] | constructor]. }
  assert (AB : forall chunks, List.concat chunks = ex_FA ++ ex_FB ->
            reader_run GenGroups.table beginstring [] chunks = ([], ex_both, map (fun _ => 0) chunks)).
  { intros chunks E. apply (chunk_independent_frames _ _ [(ex_FA, ex_dA); (ex_FB, ex_dB)] chunks fix44_table_wf).
    - constructor; [exact HA | constructor; [exact HB | constructor]].
    - cbn [map fst List.concat]. rewrite app_nil_r. exact E. }
  split; [|split].
  - apply (AB [ex_FA ++ firstn k ex_FB; skipn k ex_FB]). cbn [List.concat]. rewrite app_nil_r, <- app_assoc, firstn_skipn. reflexivity.
  - apply (AB [ex_FA; firstn k ex_FB; skipn k ex_FB]). cbn [List.concat]. rewrite app_nil_r, firstn_skipn. reflexivity.
  - apply (chunk_independent_no_tail _ _ _ [ex_garbage ++ firstn i ex_FA; skipn i ex_FA ++ ex_FB] fix44_table_wf Hgs).
    unfold stream_of, seg_bytes. cbn [List.concat map fst snd]. rewrite !app_nil_r, <- !app_assoc, (app_assoc (firstn i ex_FA)), firstn_skipn.
    reflexivity.
Qed.

