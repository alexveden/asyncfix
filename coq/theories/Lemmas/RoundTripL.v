(* C01: the encoder's frame decodes to the message it was made from (printer / parser inversion): the frame is the flat
   text of the field list frame_fields (encode_shape), and the decoder's field loop, run over the fields of a well-formed
   value, rebuilds the value (value_loop). *)
From Coq Require Import ZArith NArith List Bool Lia ZifyBool.
From AF Require Import Lemmas.DecodeTotalL Base.Sx Py.Str Fix.Codec Fix.WfMsg Lemmas.StrB.
From AF Require Lemmas.FramingL.
Import ListNotations.
Open Scope N_scope.

(* DecodeTotalL has decode as framing part + decode_fields (decode_eq); here the framing part is computed for buffers
   that hold a good frame or a prefix of one *)
Definition fields_of (encoded : str) : list str := strip_last_empty (split_on 1 encoded).

Lemma MARK_soh_free : cfree 1 MARK.
Proof. apply cfreeb_spec. reflexivity. Qed.

Lemma MARK_nonempty : MARK <> [].
Proof. discriminate. Qed.

Lemma MARK_no_border : ~ In 56 [61; 70; 73; 88; 46].
Proof. apply (cfreeb_spec 56). reflexivity. Qed.

(* marker-free junk cannot complete a marker with the first bytes of what follows *)
Lemma find_mark_junk : forall J X, no_mark J -> prefixb MARK X = true ->
  find_sub MARK (J ++ X) = Some (length J).
Proof.
  intros J X HJ HX. apply prefixb_spec in HX as [r ->].
  change (MARK ++ r) with (56 :: [61; 70; 73; 88; 46] ++ r).
  rewrite (find_sub_junk_gen 56 _ J _ MARK_no_border HJ), find_sub_head by apply (prefixb_app MARK r).
  cbn [option_map]. rewrite Nat.add_0_r. reflexivity.
Qed.

(* where the first CheckSum field of a text ends: behind the first SOH after the first "<SOH>10=" *)
Definition ck_end (H : str) : option nat :=
  match find_sub CKSEP H with
  | None => None
  | Some ci => option_map (fun j => (ci + 1 + j + 1)%nat) (find_sub SOHs (skipn (ci + 1) H))
  end.

Lemma cut_at_checksum_ck_end : forall msg n,
  cut_at_checksum msg n = match ck_end (firstn n msg) with Some e => e | None => n end.
Proof.
  intros. unfold cut_at_checksum, ck_end.
  destruct (find_sub CKSEP _); [destruct (find_sub SOHs _)|]; reflexivity.
Qed.

Lemma ck_end_le : forall H e, ck_end H = Some e -> (e <= length H)%nat.
Proof.
  intros H e E. unfold ck_end in E. destruct (find_sub CKSEP H) as [ci|]; [|discriminate].
  destruct (find_sub SOHs (skipn (ci + 1) H)) as [j|] eqn:Ej; [|discriminate]. injection E as <-.
  apply find_sub_some_bound in Ej. rewrite skipn_length in Ej. cbn [length SOHs] in Ej. lia.
Qed.

(* both searches are for first occurrences: bytes appended later do not move it *)
Lemma ck_end_ext : forall H Q e, ck_end H = Some e -> ck_end (H ++ Q) = Some e.
Proof.
  intros H Q e E. unfold ck_end in *. destruct (find_sub CKSEP H) as [ci|] eqn:Eci; [|discriminate].
  rewrite (find_sub_some_ext _ _ Q _ Eci). apply find_sub_some_bound in Eci. cbn [length CKSEP T10 app] in Eci.
  rewrite skipn_app_le by lia.
  destruct (find_sub SOHs (skipn (ci + 1) H)) as [j|] eqn:Ej; [|discriminate].
  rewrite (find_sub_some_ext _ _ Q _ Ej). exact E.
Qed.

(* what the framing code needs of a frame F: it starts with the marker, has no second marker, ends with SOH,
   and its first CheckSum field ends it *)
Definition frame_shape (F : str) : Prop :=
  prefixb MARK F = true /\ no_mark (skipn 5 F)
  /\ (exists F', F = F' ++ [1]) /\ ck_end F = Some (length F).

Lemma frame_shape_len : forall F, frame_shape F -> (6 <= length F)%nat.
Proof. intros F [H _]. apply (prefixb_len _ _ H). Qed.

(* the provisional end lies at or behind the end of the frame, whatever follows it *)
Lemma next0_ge : forall F R, frame_shape F -> (length F <= dec_next0 (F ++ R))%nat.
Proof.
  intros F R HS. pose proof (frame_shape_len F HS) as HL. destruct HS as [_ [Hn [[F' ->] _]]].
  rewrite app_length in HL. cbn [length] in HL.
  unfold dec_next0. rewrite skipn_app_le in Hn by lia. apply find_sub_none_prefix in Hn.
  rewrite <- app_assoc, skipn_app_le by lia. cbn [app].
  rewrite (find_sub_sep 1 MARK _ R MARK_soh_free MARK_nonempty Hn), !app_length, skipn_length.
  cbn [length]. destruct (find_sub MARK R); cbn [option_map]; lia.
Qed.

(* ... and the CheckSum cut brings it back to exactly the end of the frame *)
Lemma cut_full : forall F R n, frame_shape F -> (length F <= n)%nat -> cut_at_checksum (F ++ R) n = length F.
Proof.
  intros F R n [_ [_ [_ Hck]]] Hn.
  rewrite cut_at_checksum_ck_end, firstn_app, (firstn_all2 F), (ck_end_ext _ _ _ Hck) by lia. reflexivity.
Qed.

(* a proper prefix of a frame is not cut *)
Lemma cut_prefix : forall F P Q, frame_shape F -> F = P ++ Q -> Q <> [] -> cut_at_checksum P (length P) = length P.
Proof.
  intros F P Q [_ [_ [_ Hck]]] -> HQ. rewrite cut_at_checksum_ck_end, firstn_all.
  destruct (ck_end P) as [e|] eqn:E; [exfalso | reflexivity].
  rewrite (ck_end_ext _ Q _ E), app_length in Hck. apply ck_end_le in E.
  destruct Q; [contradiction | cbn [length] in Hck; injection Hck; lia].
Qed.

(* junk ++ frame ++ anything: the candidate is exactly the frame *)
Lemma decode_frame_gen : forall G bs J F R silent,
  no_mark J -> frame_shape F ->
  exists hn, decode G bs (J ++ F ++ R) silent
    = decode_fields G bs silent (zlen (J ++ F ++ R)) (length J) hn (zlen J + zlen F)%Z F (fields_of F).
Proof.
  intros G bs J F R silent HJ HS.
  rewrite decode_eq, (find_mark_junk J (F ++ R) HJ (prefixb_app_r _ _ R (proj1 HS))).
  unfold frame_len, dec_fields, dec_encoded, dec_next. rewrite skipn_exact, (cut_full F R _ HS (next0_ge F R HS)), firstn_exact.
  eexists. reflexivity.
Qed.

(* junk ++ proper prefix (>= 6 bytes) of a frame: the candidate is the whole prefix *)
Lemma decode_prefix_gen : forall G bs J F P Q silent,
  no_mark J -> frame_shape F -> F = P ++ Q -> Q <> [] -> (6 <= length P)%nat ->
  decode G bs (J ++ P) silent
  = decode_fields G bs silent (zlen (J ++ P)) (length J) false (zlen J + zlen P)%Z P (fields_of P).
Proof.
  intros G bs J F P Q silent HJ HS EPQ HQ HP. pose proof (cut_prefix F P Q HS EPQ HQ) as Hcut.
  destruct HS as [Hm [Hn _]]. subst F.
  apply prefixb_app_short in Hm; [|exact HP].
  rewrite skipn_app_le in Hn by lia. apply find_sub_none_prefix in Hn.
  rewrite decode_eq, (find_mark_junk J P HJ Hm). unfold frame_len, dec_fields, dec_encoded, dec_next, has_next.
  rewrite skipn_exact. unfold dec_next0. rewrite Hn, Hcut, firstn_all. reflexivity.
Qed.

(* the field list of a frame made of SOH-free fields, each followed by SOH *)
Lemma fields_of_flat : forall fs, Forall (cfree 1) fs -> fields_of (flat fs) = fs.
Proof.
  intros fs H. unfold fields_of, strip_last_empty. rewrite (split_on_flat fs H), rev_app_distr. cbn [rev app].
  apply rev_involutive.
Qed.

Lemma zlen_app : forall {A} (a b : list A), zlen (a ++ b) = (zlen a + zlen b)%Z.
Proof. intros. unfold zlen. rewrite app_length. lia. Qed.

(* a field list that starts like a frame: BeginString, then a BodyLength the frame must be long enough for *)
Lemma decode_fields_header : forall G bs silent rawlen idx hn flen encoded t0 f1v bl f2 rest,
  cfree 61 t0 -> py_int f1v = Some bl -> (0 <= bl)%Z ->
  let fields := field t0 bs :: field T9 f1v :: f2 :: rest in
  decode_fields G bs silent rawlen idx hn flen encoded fields =
  if (rawlen - Z.of_nat idx <? zlen (field t0 bs) + zlen (field T9 f1v) + 9 + bl)%Z then bad_res silent (Z.of_nat idx)
  else match fields_loop G ((sum_codes (join SOHs (removelast fields)) + 1) mod 256) (mkD [] [] UNKNOWN false) fields with
       | FExc e => Exc e
       | FReturnBad => bad_res silent flen
       | FCont st => if d_ck st then Ok (Some (mkMsg (d_type st) (d_root st)), flen, Some encoded) else bad_res silent flen
       end.
Proof.
  intros G bs silent rawlen idx hn flen encoded t0 f1v bl f2 rest Ht0 Hbl Hpos. cbv zeta. unfold decode_fields.
  unfold field at 1. rewrite (split1_field 61 t0 bs Ht0), str_eqb_refl.
  unfold field at 1. rewrite (split1_field 61 T9 f1v) by (apply cfreeb_spec; reflexivity).
  rewrite str_eqb_refl, Hbl. cbn [negb]. rewrite (proj2 (Z.ltb_ge _ _) Hpos). reflexivity.
Qed.

(* everything the decoder lemmas (here and in ReaderL) need to know about a frame *)
Definition frame_ok (G : group_table) (bs F : str) (dm : message) : Prop :=
  exists f1v f2 rest bl stack,
    let fields := field T8 bs :: field T9 f1v :: f2 :: rest in
    F = flat fields /\ Forall (cfree 1) fields /\ frame_shape F
    /\ py_int f1v = Some (Z.of_N bl) /\ (zlen (field T8 bs) + zlen (field T9 f1v) + 9 + Z.of_N bl = zlen F)%Z
    /\ fields_loop G ((sum_codes (join SOHs (removelast fields)) + 1) mod 256) (mkD [] [] UNKNOWN false) fields
       = FCont (mkD (msg_tags dm) stack (msg_type dm) true).

(* complete-prefix lemma: marker-free junk, a good frame, then ANY bytes (nothing, garbage, the first bytes
   of the next frame): the frame is decoded to its message; exactly junk + frame are consumed *)
Lemma frame_ok_decode : forall G bs J F dm R silent,
  no_mark J -> frame_ok G bs F dm ->
  decode G bs (J ++ F ++ R) silent = Ok (Some dm, (zlen J + zlen F)%Z, Some F).
Proof.
  intros G bs J F dm R silent HJ [f1v [f2 [rest [bl [stack [HF [Hsoh [Hshape [Hbl [Hlen Hloop]]]]]]]]]].
  destruct (decode_frame_gen G bs J F R silent HJ Hshape) as [hn ->].
  rewrite HF at 4. rewrite (fields_of_flat _ Hsoh).
  rewrite (decode_fields_header G bs silent _ _ hn _ F T8 f1v _ f2 rest (proj1 (cfreeb_spec 61 T8) eq_refl) Hbl (N2Z.is_nonneg bl)).
  rewrite Hloop, Hlen, !zlen_app. destruct dm as [ty tags]. cbn [d_ck d_type d_root msg_type msg_tags].
  destruct (_ <? _)%Z eqn:E; [unfold zlen in E; lia | reflexivity].
Qed.

(* FramingL.encode_shape, read through the field list frame_fields of WfMsg *)
Lemma encode_shape : forall bs m sess time raw F sess',
  encode bs m sess time raw = Ok (F, sess') ->
  exists seq rest, select_seq m sess raw = Ok (seq, sess') /\ render_body (msg_tags m) = Ok rest
    /\ F = flat (frame_fields bs m sess seq time).
Proof.
  intros bs m sess time raw F sess' H.
  destruct (FramingL.encode_shape _ _ _ _ _ _ _ H) as (seq & rest & Es & Er & ->). exists seq, rest.
  split; [exact Es|]. split; [exact Er|].
  unfold frame_fields, enc_ck, enc_blen, enc_fields, fields_len, render_total. rewrite Er. reflexivity.
Qed.

Lemma mem_str_In : forall x l, mem_str x l = true <-> In x l.
Proof.
  intros x l. unfold mem_str. rewrite existsb_exists. split.
  - intros [y [I E]]. apply str_eqb_eq in E. subst. assumption.
  - intro I. exists x. split; [assumption | apply str_eqb_refl].
Qed.

Lemma mem_str_false : forall x l, mem_str x l = false <-> ~ In x l.
Proof. intros x l. rewrite <- mem_str_In. destruct (mem_str x l); split; congruence. Qed.

Lemma ct_mem_keys : forall t c, ct_mem t c = mem_str t (map fst c).
Proof.
  intros t c. unfold ct_mem. induction c as [|[k v] c IH]; [reflexivity|].
  cbn [ct_get map fst mem_str existsb]. rewrite (str_eqb_sym t k). destruct (str_eqb k t); [reflexivity | exact IH].
Qed.

Lemma ct_mem_false : forall t c, ct_get t c = None -> ct_mem t c = false.
Proof. intros t c H. unfold ct_mem. rewrite H. reflexivity. Qed.

Lemma ct_get_none : forall t c, ct_get t c = None <-> mem_str t (map fst c) = false.
Proof. intros t c. rewrite <- ct_mem_keys. unfold ct_mem. destruct (ct_get t c); split; congruence. Qed.

Lemma ct_get_app : forall t a b,
  ct_get t (a ++ b) = match ct_get t a with Some v => Some v | None => ct_get t b end.
Proof.
  intros t a b. induction a as [|[k v] a IH]; cbn [app ct_get]; [reflexivity|].
  destruct (str_eqb k t); [reflexivity | exact IH].
Qed.

Lemma ct_put_new : forall t v c, ct_get t c = None -> ct_put t v c = c ++ [(t, v)].
Proof.
  intros t v c. induction c as [|[k w] c IH]; cbn [ct_get ct_put app]; intro H; [reflexivity|].
  destruct (str_eqb k t); [discriminate | rewrite (IH H); reflexivity].
Qed.

Lemma ct_put_last : forall t v w c, ct_get t c = None -> ct_put t v (c ++ [(t, w)]) = c ++ [(t, v)].
Proof.
  intros t v w c. induction c as [|[k u] c IH]; cbn [ct_get ct_put app]; intro H.
  - rewrite str_eqb_refl. reflexivity.
  - destruct (str_eqb k t); [discriminate | rewrite (IH H); reflexivity].
Qed.

Lemma ct_set_new : forall t s c, has_int t = true -> ct_get t c = None -> ct_set t s c = Ok (c ++ [(t, VStr s)]).
Proof.
  intros t s c Hi Hg. unfold ct_set. unfold has_int in Hi. destruct (py_int t); [|discriminate].
  rewrite (ct_mem_false _ _ Hg), (ct_put_new _ _ _ Hg). reflexivity.
Qed.

(* the group entry a parent holds for a child whose [done] items are closed *)
Definition pend (t : str) (done : list container) : container :=
  match done with [] => [] | _ => [(t, VGrp done)] end.

Lemma ct_add_group_pend : forall t it b done, ct_get t b = None ->
  ct_add_group t it (b ++ pend t done) = Ok (b ++ pend t (done ++ [it])).
Proof.
  intros t it b done H. unfold ct_add_group. rewrite ct_get_app, H.
  destruct done as [|d done]; cbn [pend app ct_get].
  - rewrite !app_nil_r. rewrite (ct_put_new _ _ _ H). reflexivity.
  - rewrite str_eqb_refl. rewrite (ct_put_last _ _ _ _ H).
    destruct (d :: done ++ [it]) eqn:E; [discriminate|]. rewrite <- E. reflexivity.
Qed.

(* How a decoder state is written in the lemmas below.  While the fields of one value are read, the context stack of the
   state splits into the contexts D that these fields opened (innermost first; after the value they are still on the stack
   although their groups are finished: "dangling", the next field closes them) and the rest below them.  The rest,
   together with the root container, is called a frame here (the word has nothing to do with the wire text):
   fr = (contexts below, root).  [top fr] is the container the value goes into: that of the first context below, or the
   root.  [mkst D fr ty ckf] is the state with stack D ++ fst fr.  [collapse None D cur = Ok b] says that closing D, each
   context added as a group item to the one below it, the last one to container cur, yields b. *)
Definition frame := (list ctx * container)%type.

Definition top (fr : frame) : container :=
  match fst fr with [] => snd fr | k :: _ => c_tags k end.

Definition set_top (fr : frame) (b : container) : frame :=
  match fst fr with
  | [] => ([], b)
  | k :: rest => (mkCtx (c_tag k) (c_members k) b :: rest, snd fr)
  end.

Definition accepts (fr : frame) (t : str) : Prop :=
  match fst fr with [] => True | k :: _ => mem_str t (c_members k) = true end.

Definition mkst (D : list ctx) (fr : frame) (ty : str) (ckf : bool) : dst :=
  mkD (snd fr) (D ++ fst fr) ty ckf.

Lemma top_set_top : forall fr b, top (set_top fr b) = b.
Proof. intros [[|k K] root] b; reflexivity. Qed.

Lemma set_top_set_top : forall fr b b', set_top (set_top fr b) b' = set_top fr b'.
Proof. intros [[|k K] root] b b'; reflexivity. Qed.

Lemma set_top_top : forall fr, set_top fr (top fr) = fr.
Proof. intros [[|[t ms tg] K] root]; reflexivity. Qed.

Lemma accepts_set_top : forall fr b t, accepts (set_top fr b) t <-> accepts fr t.
Proof. intros [[|k K] root] b t; cbn; tauto. Qed.

Definition push (c : ctx) (fr : frame) : frame := (c :: fst fr, snd fr).

Lemma mkst_push : forall D c fr ty ckf, mkst (D ++ [c]) fr ty ckf = mkst D (push c fr) ty ckf.
Proof. intros. unfold mkst, push. cbn [fst snd]. rewrite <- app_assoc. reflexivity. Qed.

Lemma top_push : forall c fr, top (push c fr) = c_tags c.
Proof. reflexivity. Qed.

Lemma set_top_push : forall t ms tg fr b, set_top (push (mkCtx t ms tg) fr) b = push (mkCtx t ms b) fr.
Proof. reflexivity. Qed.

Fixpoint collapse_p (p : option (str * container)) (D : list ctx) : result (option (str * container)) :=
  match D with
  | [] => Ok p
  | c :: D' => do tg <- add_pending p (c_tags c); collapse_p (Some (c_tag c, tg)) D'
  end.

Definition collapse (p : option (str * container)) (D : list ctx) (k : container) : result container :=
  do p' <- collapse_p p D; add_pending p' k.

Definition nonmem (t : str) (D : list ctx) : Prop := Forall (fun c => mem_str t (c_members c) = false) D.

Lemma pop_while_collapse : forall tag D fr p b,
  nonmem tag D -> accepts fr tag -> collapse p D (top fr) = Ok b ->
  pop_while tag (D ++ fst fr) p (snd fr) = Ok (set_top fr b).
Proof.
  intros tag D. induction D as [|c D IH]; intros [K root] p b Hn Ha Hc; cbn [app fst snd].
  - unfold collapse in Hc. cbn [collapse_p bind] in Hc. unfold top, set_top, accepts in *. cbn [fst snd] in *.
    destruct K as [|k rest]; cbn [pop_while].
    + rewrite Hc. reflexivity.
    + rewrite Hc. cbn [bind c_members c_tag c_tags]. rewrite Ha. reflexivity.
  - inversion Hn as [|? ? Hc1 Hn']; subst.
    unfold collapse in Hc. cbn [collapse_p] in Hc. cbn [pop_while].
    destruct (add_pending p (c_tags c)) as [tg|e]; [|discriminate]. cbn [bind] in *.
    cbn [c_members c_tag c_tags]. rewrite Hc1.
    apply (IH (K, root)); assumption.
Qed.

Lemma collapse_app : forall D1 D2 p k,
  collapse p (D1 ++ D2) k = do p' <- collapse_p p D1; collapse p' D2 k.
Proof.
  induction D1 as [|c D1 IH]; intros D2 p k; [reflexivity|].
  unfold collapse in *. cbn [app collapse_p].
  destruct (add_pending p (c_tags c)); [|reflexivity]. cbn [bind]. apply IH.
Qed.

Lemma collapse_nil : forall k, collapse None [] k = Ok k.
Proof. reflexivity. Qed.

Definition pre (ck_expect : N) (st : dst) (tag val : str) : result dst :=
  if str_eqb tag T10 then
    Ok (mkD (d_root st) (d_stack st) (d_type st) (three_digits val && Z.eqb (Z.of_N ck_expect) (digits_value val)))
  else if str_eqb tag T35 then Ok (mkD (d_root st) (d_stack st) val (d_ck st))
  else Ok st.

(* field_step tests for an empty stack before it pops; pop_while on an empty stack returns the root unchanged,
   so the structural part is written with the pop alone *)
Definition post (G : group_table) (tag val : str) (st : dst) : fstep :=
  match pop_while tag (d_stack st) None (d_root st) with
  | Exc e => FExc e
  | Ok (stack, root) =>
      match lookup_group G tag, stack with
      | Some members, _ => FCont (mkD root (mkCtx tag members [] :: stack) (d_type st) (d_ck st))
      | None, [] =>
          if ct_mem tag root then FCont (mkD (ct_put tag VErr root) [] (d_type st) (d_ck st))
          else match ct_set tag val root with
               | Exc e => FExc e
               | Ok r => FCont (mkD r [] (d_type st) (d_ck st))
               end
      | None, c :: rest =>
          if ct_mem tag (c_tags c) then
            match (match rest with
                   | [] => do r <- ct_add_group (c_tag c) (c_tags c) root; Ok ([], r)
                   | p :: rest' =>
                       do tg <- ct_add_group (c_tag c) (c_tags c) (c_tags p);
                       Ok (mkCtx (c_tag p) (c_members p) tg :: rest', root)
                   end) with
            | Exc e => FExc e
            | Ok (rest2, root2) =>
                match ct_set tag val [] with
                | Exc e => FExc e
                | Ok tg => FCont (mkD root2 (mkCtx (c_tag c) (c_members c) tg :: rest2) (d_type st) (d_ck st))
                end
            end
          else
            match ct_set tag val (c_tags c) with
            | Exc e => FExc e
            | Ok tg => FCont (mkD root (mkCtx (c_tag c) (c_members c) tg :: rest) (d_type st) (d_ck st))
            end
      end
  end.

Lemma field_step_field : forall G ck st tag val, cfree 61 tag -> has_int tag = true ->
  field_step G ck st (field tag val) =
  match pre ck st tag val with Exc e => FExc e | Ok st => post G tag val st end.
Proof.
  intros G ck [root stack ty ckf] tag val H Hi. unfold field_step, field, pre, post, has_int in *.
  rewrite (split1_field 61 tag val H). destruct (py_int tag); [|discriminate].
  destruct (str_eqb tag T10); [|destruct (str_eqb tag T35)]; cbn [d_root d_stack d_type d_ck];
    destruct (lookup_group G tag); destruct stack; try reflexivity;
    destruct (pop_while tag _ None root) as [[[|c0 s0] r0]|]; reflexivity.
Qed.

Lemma pre_other : forall ck st tag val, str_eqb tag T10 = false -> str_eqb tag T35 = false ->
  pre ck st tag val = Ok st.
Proof. intros ck st tag val H1 H2. unfold pre. rewrite H1, H2. reflexivity. Qed.

(* a plain tag: dangling contexts are closed, the field is appended to the current container *)
Lemma post_plain : forall G tag val D fr ty ckf b,
  lookup_group G tag = None -> has_int tag = true ->
  nonmem tag D -> accepts fr tag -> collapse None D (top fr) = Ok b -> ct_get tag b = None ->
  post G tag val (mkst D fr ty ckf) = FCont (mkst [] (set_top fr (b ++ [(tag, VStr val)])) ty ckf).
Proof.
  intros G tag val D fr ty ckf b Hl Hi Hn Ha Hc Hg.
  unfold post, mkst. cbn [d_stack d_root d_type d_ck]. rewrite (pop_while_collapse tag D fr None b Hn Ha Hc), Hl.
  destruct fr as [[|k rest] root]; unfold set_top; cbn [fst snd c_tags c_tag c_members];
    rewrite (ct_mem_false _ _ Hg), (ct_set_new _ val _ Hi Hg); reflexivity.
Qed.

(* a group tag: dangling contexts are closed, a fresh context is pushed *)
Lemma post_group : forall G tag val ms D fr ty ckf b,
  lookup_group G tag = Some ms ->
  nonmem tag D -> accepts fr tag -> collapse None D (top fr) = Ok b ->
  post G tag val (mkst D fr ty ckf) = FCont (mkst [] (push (mkCtx tag ms []) (set_top fr b)) ty ckf).
Proof.
  intros G tag val ms D fr ty ckf b Hl Hn Ha Hc.
  unfold post, mkst. cbn [d_stack d_root d_type d_ck]. rewrite (pop_while_collapse tag D fr None b Hn Ha Hc), Hl.
  destruct (set_top fr b). reflexivity.
Qed.

(* a plain tag the current item already has: the item is closed and the next one started *)
Lemma post_next_item : forall G tag val D g ms cur fr ty ckf it done pb,
  lookup_group G tag = None -> has_int tag = true ->
  nonmem tag D -> mem_str tag ms = true -> collapse None D cur = Ok it ->
  mem_str tag (map fst it) = true ->
  top fr = pb ++ pend g done -> ct_get g pb = None ->
  post G tag val (mkst D (push (mkCtx g ms cur) fr) ty ckf) =
  FCont (mkst [] (push (mkCtx g ms [(tag, VStr val)]) (set_top fr (pb ++ pend g (done ++ [it])))) ty ckf).
Proof.
  intros G tag val D g ms cur fr ty ckf it done pb Hl Hi Hn Hm Hc Hin Htop Hg.
  unfold post, mkst. cbn [d_stack d_root d_type d_ck].
  rewrite (pop_while_collapse tag D (push (mkCtx g ms cur) fr) None it Hn Hm Hc), Hl, set_top_push.
  unfold push. cbn [fst snd c_tags c_tag c_members].
  rewrite ct_mem_keys, Hin, (ct_set_new tag val [] Hi eq_refl).
  destruct fr as [[|p rest'] root]; unfold top, set_top in *; cbn [fst snd] in *;
    rewrite Htop, (ct_add_group_pend g it pb done Hg); reflexivity.
Qed.

Fixpoint vfields (t : str) (v : value) {struct v} : list str :=
  match v with
  | VStr s => [field t s]
  | VErr => []
  | VGrp items =>
      field t (n_to_dec (N.of_nat (length items)))
      :: concat (map (fun it => concat (map (fun tv => vfields (fst tv) (snd tv)) it)) items)
  end.

Definition cfields (c : container) : list str := concat (map (fun tv => vfields (fst tv) (snd tv)) c).

Lemma vfields_grp : forall t items,
  vfields t (VGrp items) = field t (n_to_dec (N.of_nat (length items))) :: concat (map cfields items).
Proof. reflexivity. Qed.

Lemma cfields_cons : forall t v c, cfields ((t, v) :: c) = vfields t v ++ cfields c.
Proof. reflexivity. Qed.

Lemma cfields_app : forall a b, cfields (a ++ b) = cfields a ++ cfields b.
Proof. intros. unfold cfields. rewrite map_app, concat_app. reflexivity. Qed.

(* a loop that renders every element and concatenates, against the total rendering g of one element *)
Lemma render_concat : forall {A} (f : A -> result (list str)) (g : A -> list str) (go : list A -> result (list str)),
  (forall l, go l = match l with [] => Ok [] | x :: l' => do a <- f x; do b <- go l'; Ok (a ++ b) end) ->
  forall l, Forall (fun x => forall r, f x = Ok r -> r = g x) l ->
  forall r, go l = Ok r -> r = concat (map g l).
Proof.
  intros A f g go Hgo l H. induction H as [|x l Hx _ IH]; intros r Hr; rewrite Hgo in Hr.
  - injection Hr as <-. reflexivity.
  - destruct (f x) as [a|]; [|discriminate]. destruct (go l) as [b|]; [|discriminate].
    injection Hr as <-. cbn [map concat]. rewrite (Hx a eq_refl), (IH b eq_refl). reflexivity.
Qed.

(* the monadic printer agrees with the total one whenever it succeeds *)
Lemma render_value_fields : forall v t fs, render_value t v = Ok fs -> fs = vfields t v.
Proof.
  induction v as [s| |items IH] using FramingL.value_ind2; intros t fs H; cbn [render_value] in H.
  - injection H as <-. reflexivity.
  - discriminate.
  - destruct (_ items) as [r|] eqn:Er in H; [|discriminate]. injection H as <-. rewrite vfields_grp. f_equal.
    revert r Er. eapply render_concat; [intros [|it l]; reflexivity|].
    eapply Forall_impl; [|exact IH]. intros it Hit.
    apply (render_concat (fun tv => render_value (fst tv) (snd tv))); [intros [|[t' v'] l]; reflexivity|].
    eapply Forall_impl; [|exact Hit]. intros [t' v'] Hv. exact (Hv t').
Qed.

Lemma render_body_fields : forall c fs, render_body c = Ok fs ->
  fs = cfields (filter (fun tv => negb (mem_str (fst tv) skip_tags)) c).
Proof.
  induction c as [|[t v] c IH]; intros fs H.
  - cbn [render_body] in H. injection H as H. subst fs. reflexivity.
  - cbn [render_body] in H. cbn [filter fst].
    destruct (mem_str t skip_tags); cbn [negb].
    + apply IH. assumption.
    + destruct (render_value t v) as [a|] eqn:Ea; [|discriminate]. cbn [bind] in H.
      destruct (render_body c) as [b|] eqn:Eb; [|discriminate]. cbn [bind] in H.
      injection H as H. subst fs. rewrite cfields_cons, (render_value_fields _ _ _ Ea), (IH b eq_refl). reflexivity.
Qed.

Lemma soh_free_spec : forall s, soh_free s = true <-> cfree 1 s.
Proof. intro s. exact (cfreeb_spec 1 s). Qed.

Lemma tag_ok_spec : forall t, tag_ok t = true -> cfree 1 t /\ cfree 61 t /\ has_int t = true.
Proof.
  intros t H. unfold tag_ok in H. apply andb_true_iff in H as [H H3]. apply andb_true_iff in H as [H1 H2].
  split; [apply soh_free_spec; assumption | split; [apply (cfreeb_spec 61); assumption | assumption]].
Qed.

Lemma is_key_false : forall G t, is_key G t = false <-> lookup_group G t = None.
Proof. intros G t. unfold is_key. destruct (lookup_group G t); split; congruence. Qed.

Lemma wf_value_str : forall G t s, wf_value G t (VStr s) = true -> lookup_group G t = None /\ cfree 1 s.
Proof.
  intros G t s H. cbn [wf_value] in H. apply andb_true_iff in H as [H1 H2].
  split; [apply is_key_false, negb_true_iff; assumption | apply soh_free_spec; assumption].
Qed.

Definition wf_entry (G : group_table) (ms : list str) (tv : str * value) : Prop :=
  tag_ok (fst tv) = true /\ mem_str (fst tv) ms = true /\ wf_value G (fst tv) (snd tv) = true.

Lemma wf_value_grp : forall G t items, wf_value G t (VGrp items) = true ->
  exists ms, lookup_group G t = Some ms /\ items <> []
    /\ Forall (fun it => Forall (wf_entry G ms) it /\ item_shape G it = true) items
    /\ items_chain_ok G items = true.
Proof.
  intros G t items H. cbn [wf_value] in H.
  destruct (lookup_group G t) as [ms|]; [|discriminate]. exists ms. split; [reflexivity|].
  apply andb_true_iff in H as [H Hchain]. apply andb_true_iff in H as [H Hne].
  split; [destruct items; discriminate|]. split; [|assumption].
  clear Hne Hchain. induction items as [|it items IH]; [constructor|].
  apply andb_true_iff in H as [H Hrest]. apply andb_true_iff in H as [Hent Hshape].
  constructor; [|apply IH; assumption]. split; [|assumption].
  clear Hshape Hrest IH. induction it as [|[t' v'] it IHit]; [constructor|].
  apply andb_true_iff in Hent as [Hent Hrest]. apply andb_true_iff in Hent as [Hent Hwf].
  apply andb_true_iff in Hent as [Htag Hmem].
  constructor; [split; [|split]; assumption | apply IHit; assumption].
Qed.

Lemma last_entry_cons : forall {A} (x : A) l,
  last_entry (x :: l) = match l with [] => Some x | _ :: _ => last_entry l end.
Proof. intros. destruct l; reflexivity. Qed.

Lemma last_entry_snoc : forall {A} (l : list A) x, last_entry (l ++ [x]) = Some x.
Proof.
  induction l as [|y l IH]; intro x; [reflexivity|].
  cbn [app]. rewrite last_entry_cons, IH. destruct l; reflexivity.
Qed.

Lemma last_entry_in : forall {A} (l : list A) x, last_entry l = Some x -> In x l.
Proof.
  induction l as [|y l IH]; intros x H; [discriminate|].
  rewrite last_entry_cons in H. destruct l; [injection H as H; left; assumption | right; apply IH; assumption].
Qed.

Lemma open_members_grp : forall G t items,
  open_members G t (VGrp items) =
  match last_entry items with Some it => last_open G it | None => [] end
  ++ [match lookup_group G t with Some ms => ms | None => [] end].
Proof.
  intros G t items. cbn [open_members]. f_equal.
  induction items as [|it items IH]; [reflexivity|].
  rewrite last_entry_cons. destruct items as [|it2 items]; [|exact IH].
  clear IH. unfold last_open. induction it as [|[t' v'] it IHit]; [reflexivity|].
  rewrite last_entry_cons. destruct it as [|e it]; [reflexivity | exact IHit].
Qed.

Lemma open_members_str : forall G t s, open_members G t (VStr s) = [].
Proof. reflexivity. Qed.

Lemma last_open_snoc : forall G c t v, last_open G (c ++ [(t, v)]) = open_members G t v.
Proof. intros. unfold last_open. rewrite last_entry_snoc. reflexivity. Qed.

Definition no_ck (f : str) : Prop := forall X, prefixb CKTAG (f ++ X) = false.
Definition good_field (f : str) : Prop := cfree 1 f /\ no_ck f.

Lemma field_soh_free : forall t v, cfree 1 t -> cfree 1 v -> cfree 1 (field t v).
Proof.
  intros t v Ht Hv. apply cfree_app. split; [assumption|]. apply cfree_cons. split; [discriminate | assumption].
Qed.

Lemma field_good : forall t v, tag_ok t = true -> str_eqb t T10 = false -> cfree 1 v -> good_field (field t v).
Proof.
  intros t v Ht Hne Hv. destruct (tag_ok_spec t Ht) as [H1 [Heq _]]. split.
  - apply field_soh_free; assumption.
  - (* up to the first "=" both texts are a tag *)
    intro X. destruct (prefixb CKTAG (field t v ++ X)) eqn:E; [|reflexivity].
    apply prefixb_spec in E as [r E]. apply (f_equal (split1 61)) in E.
    unfold field, CKTAG in E. rewrite <- !app_assoc in E. cbn [app] in E.
    rewrite (split1_field 61 t _ Heq), (split1_field 61 T10) in E by (apply cfreeb_spec; reflexivity).
    injection E as E _. rewrite E, str_eqb_refl in Hne. discriminate.
Qed.

Lemma fields_loop_app : forall G ck a b st,
  fields_loop G ck st (a ++ b) =
  match fields_loop G ck st a with FCont st' => fields_loop G ck st' b | other => other end.
Proof.
  intros G ck a. induction a as [|f a IH]; intros b st; [reflexivity|].
  cbn [app fields_loop]. destruct (field_step G ck st f); try reflexivity. apply IH.
Qed.

Lemma fields_loop_cons : forall G ck st f fs,
  fields_loop G ck st (f :: fs) =
  match field_step G ck st f with FCont st' => fields_loop G ck st' fs | other => other end.
Proof. reflexivity. Qed.

Lemma fields_loop_one : forall G ck st f, fields_loop G ck st [f] = field_step G ck st f.
Proof. intros. cbn [fields_loop]. destruct (field_step G ck st f); reflexivity. Qed.

Lemma free_of_nonmem : forall t D, free_of t (map c_members D) = true -> nonmem t D.
Proof.
  intros t D H. unfold free_of in H. rewrite forallb_forall in H. apply Forall_forall. intros c I.
  apply negb_true_iff, H, in_map, I.
Qed.

Lemma str_eqb_of_mem : forall t u ms, mem_str t ms = true -> mem_str u ms = false -> str_eqb t u = false.
Proof. intros t u ms H1 H2. apply str_eqb_neq. intro E. subst. congruence. Qed.

(* the entries behind a new entry (t, v) whose tag does not recur among them do not find it *)
Lemma fresh_snoc : forall b t v (c : container), Forall (fun tv => ct_get (fst tv) b = None) c ->
  mem_str t (map fst c) = false -> Forall (fun tv => ct_get (fst tv) (b ++ [(t, v)]) = None) c.
Proof.
  intros b t v c H Hn. rewrite Forall_forall in *. intros [t2 v2] I. specialize (H _ I). cbn [fst] in *.
  rewrite ct_get_app, H. cbn [ct_get]. destruct (str_eqb t t2) eqn:E; [|reflexivity].
  apply str_eqb_eq in E. subst t2. apply mem_str_false in Hn. destruct Hn. apply (in_map fst _ _ I).
Qed.

Section Loop.
Variable G : group_table.
Hypothesis HG : wf_table G = true.

Lemma members_not_special : forall g ms, lookup_group G g = Some ms ->
  mem_str T10 ms = false /\ mem_str T35 ms = false.
Proof.
  intros g ms H. unfold lookup_group in H.
  destruct (find (fun e => str_eqb (fst e) g) G) as [e|] eqn:E; [|discriminate].
  apply find_some in E as [I _]. injection H as <-.
  unfold wf_table in HG. apply andb_true_iff in HG as [_ H2].
  rewrite forallb_forall in H2. specialize (H2 e I).
  apply andb_true_iff in H2 as [A B]. split; apply negb_true_iff; assumption.
Qed.

Lemma framing_not_key : forall t, In t (hdr_tags ++ skip_tags) -> lookup_group G t = None.
Proof.
  intros t I. unfold wf_table in HG. apply andb_true_iff in HG as [H1 _].
  rewrite forallb_forall in H1. apply is_key_false, negb_true_iff, H1, I.
Qed.

(* a tag the decoder stores without a meaning of its own (neither CheckSum nor MsgType) *)
Definition plain_tag (t : str) : Prop := tag_ok t = true /\ str_eqb t T10 = false /\ str_eqb t T35 = false.

(* ... that the context on top of fr takes as a member *)
Definition tag_good (fr : frame) (t : str) : Prop := plain_tag t /\ accepts fr t.

Lemma tag_good_set_top : forall fr b t, tag_good fr t -> tag_good (set_top fr b) t.
Proof. intros fr b t [A D]. split; [exact A | apply accepts_set_top; exact D]. Qed.

(* on such a field only the structural part of field_step acts *)
Lemma step_post : forall ck t s st, plain_tag t -> field_step G ck st (field t s) = post G t s st.
Proof.
  intros ck t s st [Htag [H10 H35]]. destruct (tag_ok_spec _ Htag) as [_ [Heq Hint]].
  rewrite (field_step_field G ck _ t s Heq Hint), (pre_other ck _ t s H10 H35). reflexivity.
Qed.

(* every field rendered for a well-formed value is SOH-free and does not start like CheckSum *)
Lemma vfields_good : forall v t, tag_ok t = true -> str_eqb t T10 = false -> wf_value G t v = true ->
  Forall good_field (vfields t v).
Proof.
  induction v as [s| |items IH] using FramingL.value_ind2; intros t Ht Hne Hwf.
  - apply wf_value_str in Hwf as [_ Hs]. constructor; [apply field_good; assumption | constructor].
  - discriminate.
  - rewrite vfields_grp. destruct (wf_value_grp _ _ _ Hwf) as [ms [Hl [_ [Hitems _]]]].
    destruct (members_not_special t ms Hl) as [N10 _].
    constructor; [apply field_good; [assumption | assumption | apply n_to_dec_cfree; reflexivity]|].
    apply Forall_concat, Forall_map. rewrite Forall_forall in *. intros it I.
    apply Forall_concat, Forall_map. specialize (IH it I). destruct (Hitems it I) as [Hent _].
    rewrite Forall_forall in *. intros [t' v'] I'. destruct (Hent _ I') as [Htag [Hmem Hw]].
    apply (IH _ I'); [exact Htag | exact (str_eqb_of_mem _ _ ms Hmem N10) | exact Hw].
Qed.

(* what the loop does with the fields of one tag: from a state whose dangling contexts D close to b (the current
   container so far), and where t is not a member of any of them, it reaches a state with the same frame below, whose
   dangling contexts D' over the new top container b2 close to b ++ [(t, v)]; D' are the groups (t, v) leaves open *)
Definition value_spec (t : str) (v : value) : Prop :=
  forall ck D fr ty ckf b,
    wf_value G t v = true -> tag_good fr t -> nonmem t D ->
    collapse None D (top fr) = Ok b -> ct_get t b = None ->
    exists D' b2,
      fields_loop G ck (mkst D fr ty ckf) (vfields t v) = FCont (mkst D' (set_top fr b2) ty ckf)
      /\ collapse None D' b2 = Ok (b ++ [(t, v)])
      /\ map c_members D' = open_members G t v.

(* the entries of one container, appended to what the current container holds (b); the dangling contexts are
   those of the last entry so far *)
Lemma entries_loop : forall c, Forall (fun tv => forall t, value_spec t (snd tv)) c ->
  forall ck D fr ty ckf b,
    Forall (fun tv => wf_value G (fst tv) (snd tv) = true /\ tag_good fr (fst tv)) c ->
    nodupb (map fst c) = true -> Forall (fun tv => ct_get (fst tv) b = None) c -> followers_ok G c = true ->
    (forall tv, hd_error c = Some tv -> free_of (fst tv) (last_open G b) = true) ->
    collapse None D (top fr) = Ok b -> map c_members D = last_open G b ->
    exists D' b2,
      fields_loop G ck (mkst D fr ty ckf) (cfields c) = FCont (mkst D' (set_top fr b2) ty ckf)
      /\ collapse None D' b2 = Ok (b ++ c)
      /\ map c_members D' = last_open G (b ++ c).
Proof.
  induction c as [|[t v] c IH]; intros HS ck D fr ty ckf b Hwf Hnd Hfresh Hfol Hhead Hcol Hopen.
  - exists D, (top fr). rewrite set_top_top, app_nil_r. repeat split; assumption.
  - inversion HS as [|? ? HSv HSc]; subst. inversion Hwf as [|? ? [Hwfv Htg] Hwfc]; subst.
    inversion Hfresh as [|? ? Hfv Hfc]; subst. cbn [fst snd map] in *.
    cbn [nodupb] in Hnd. apply andb_true_iff in Hnd as [Hnot Hnd']. apply negb_true_iff in Hnot.
    assert (Hn : nonmem t D) by (apply free_of_nonmem; rewrite Hopen; exact (Hhead _ eq_refl)).
    destruct (HSv t ck D fr ty ckf b Hwfv Htg Hn Hcol Hfv) as [D1 [b1 [L1 [C1 M1]]]].
    rewrite <- (last_open_snoc G b) in M1. rewrite <- (top_set_top fr b1) in C1.
    assert (Hfol' : followers_ok G c = true /\ forall tv, hd_error c = Some tv -> free_of (fst tv) (last_open G (b ++ [(t, v)])) = true).
    { destruct c as [|[t2 v2] c2]; [split; [reflexivity | discriminate]|].
      cbn [followers_ok] in Hfol. apply andb_true_iff in Hfol as [F1 F2].
      split; [assumption|]. intros tv E. injection E as <-. rewrite last_open_snoc. exact F1. }
    assert (Hwf' : Forall (fun tv => wf_value G (fst tv) (snd tv) = true /\ tag_good (set_top fr b1) (fst tv)) c).
    { eapply Forall_impl; [|exact Hwfc]. intros tv [A B]. split; [assumption | apply tag_good_set_top; assumption]. }
    destruct (IH HSc ck D1 (set_top fr b1) ty ckf (b ++ [(t, v)]) Hwf' Hnd' (fresh_snoc b t v c Hfc Hnot)
                (proj1 Hfol') (proj2 Hfol') C1 M1) as [D2 [b2 [L2 [C2 M2]]]].
    exists D2, b2. rewrite set_top_set_top in L2. rewrite <- app_assoc in C2, M2.
    split; [|split; assumption]. rewrite cfields_cons, fields_loop_app, L1. exact L2.
Qed.

(* entries of an item of group t (members ms): side conditions from the table *)
Lemma item_entries_good : forall t ms it fr cur,
  lookup_group G t = Some ms -> Forall (wf_entry G ms) it ->
  Forall (fun tv => wf_value G (fst tv) (snd tv) = true /\ tag_good (push (mkCtx t ms cur) fr) (fst tv)) it.
Proof.
  intros t ms it fr cur Hl H. destruct (members_not_special t ms Hl) as [N10 N35].
  eapply Forall_impl; [|exact H]. intros tv [A [B C]]. split; [assumption|].
  repeat split; [assumption | | | exact B].
  - apply (str_eqb_of_mem _ _ ms B N10).
  - apply (str_eqb_of_mem _ _ ms B N35).
Qed.

Lemma item_shape_spec : forall it, item_shape G it = true ->
  it <> [] /\ nodupb (map fst it) = true /\ followers_ok G it = true.
Proof.
  intros it H. unfold item_shape in H. apply andb_true_iff in H as [H H3]. apply andb_true_iff in H as [H1 H2].
  split; [destruct it; discriminate | split; assumption].
Qed.

(* the items of group t after the first.  The state has the context of t (members ms) on top of frame fr; its container
   cur, with the dangling D closed, is the item [prev] being filled; the parent's container is b plus the group entry
   [pend t done] for the items [done] already closed.  Afterwards the last of the items is being filled, all others closed *)
Lemma items_loop : forall t ms its, lookup_group G t = Some ms ->
  Forall (Forall (fun tv => forall t, value_spec t (snd tv))) its ->
  forall ck D cur (prev : container) done fr b ty ckf,
    Forall (fun it => Forall (wf_entry G ms) it /\ item_shape G it = true) its ->
    items_chain_ok G (prev :: its) = true ->
    collapse None D cur = Ok prev -> map c_members D = last_open G prev ->
    ct_get t b = None ->
    exists D' cur' done' prev',
      fields_loop G ck (mkst D (push (mkCtx t ms cur) (set_top fr (b ++ pend t done))) ty ckf) (concat (map cfields its))
      = FCont (mkst D' (push (mkCtx t ms cur') (set_top fr (b ++ pend t done'))) ty ckf)
      /\ collapse None D' cur' = Ok prev' /\ done' ++ [prev'] = done ++ prev :: its
      /\ map c_members D' = last_open G prev'.
Proof.
  intros t ms its Hl. induction its as [|it1 its IH]; intros HS ck D cur prev done fr b ty ckf Hwf Hchain Hcol Hmem Hg.
  - exists D, cur, done, prev. repeat split; assumption.
  - inversion HS as [|? ? HS1 HSrest]; subst. inversion Hwf as [|? ? [Hent1 Hshape1] Hwfrest]; subst.
    cbn [items_chain_ok] in Hchain. apply andb_true_iff in Hchain as [Hhead Hchain'].
    unfold item_head_ok in Hhead. destruct it1 as [|[t2 [s2| |]] it1']; try discriminate.
    apply andb_true_iff in Hhead as [Hin Hfree].
    inversion HS1 as [|? ? _ HS1']; subst. inversion Hent1 as [|? ? [_ [Hmem2 Hwf2]] Hent1']; subst. cbn [fst snd] in *.
    apply wf_value_str in Hwf2 as [Hl2 _].
    destruct (item_shape_spec _ Hshape1) as [_ [Hnd1 Hfol1]].
    cbn [map fst nodupb] in Hnd1. apply andb_true_iff in Hnd1 as [Hnot2 Hnd1']. apply negb_true_iff in Hnot2.
    pose proof (item_entries_good t ms _ (set_top fr (b ++ pend t (done ++ [prev]))) [(t2, VStr s2)] Hl Hent1) as Hgood.
    inversion Hgood as [|? ? [_ Htg2] Hgood']; subst. cbn [fst] in Htg2.
    assert (Hfresh : Forall (fun tv => ct_get (fst tv) [(t2, VStr s2)] = None) it1').
    { apply (fresh_snoc [] t2 (VStr s2)); [apply Forall_forall; reflexivity | exact Hnot2]. }
    assert (Hfol1' : followers_ok G it1' = true).
    { destruct it1' as [|[t3 v3] it1'']; [reflexivity|]. cbn [followers_ok] in Hfol1. apply andb_true_iff in Hfol1 as [_ F]. exact F. }
    (* the head field closes the previous item, the rest of the item follows *)
    destruct (entries_loop it1' HS1' ck [] _ ty ckf [(t2, VStr s2)]
                Hgood' Hnd1' Hfresh Hfol1' (fun _ _ => eq_refl) (collapse_nil _) eq_refl) as [D1 [cur1 [L1 [C1 M1]]]].
    rewrite set_top_push in L1.
    destruct (IH HSrest ck D1 cur1 ((t2, VStr s2) :: it1') (done ++ [prev]) fr b ty ckf Hwfrest Hchain' C1 M1 Hg)
      as [D' [cur' [done' [prev' [L2 [C2 [E2 M2]]]]]]].
    exists D', cur', done', prev'. rewrite <- app_assoc in E2. split; [|repeat split; assumption].
    cbn [map concat]. rewrite cfields_cons. cbn [vfields]. rewrite <- app_assoc. cbn [app].
    rewrite fields_loop_cons, (step_post ck t2 s2 _ (proj1 Htg2)).
    rewrite (post_next_item G t2 s2 D t ms cur (set_top fr (b ++ pend t done)) ty ckf prev done b Hl2); try assumption.
    + rewrite set_top_set_top, fields_loop_app, L1. exact L2.
    + apply (tag_ok_spec t2), Htg2.
    + apply free_of_nonmem. rewrite Hmem. exact Hfree.
    + apply top_set_top.
Qed.

(* the main induction: any well-formed value *)
Lemma value_loop : forall v t, value_spec t v.
Proof.
  induction v as [s| |items IHv] using FramingL.value_ind2; intros t ck D fr ty ckf b Hwf Htg Hn Hcol Hg.
  - apply wf_value_str in Hwf as [Hl _].
    exists [], (b ++ [(t, VStr s)]). cbn [vfields]. rewrite fields_loop_one, (step_post ck t s _ (proj1 Htg)).
    split; [|split; reflexivity]. apply post_plain; try assumption; apply Htg || apply (tag_ok_spec t), Htg.
  - discriminate.
  - destruct (wf_value_grp _ _ _ Hwf) as [ms [Hl [Hne [Hitems Hchain]]]].
    destruct items as [|it1 its]; [contradiction|]. clear Hne.
    inversion IHv as [|? ? IH1 IHrest]; subst. inversion Hitems as [|? ? [Hent1 Hshape1] Hwfrest]; subst.
    destruct (item_shape_spec _ Hshape1) as [_ [Hnd1 Hfol1]].
    (* the count field opens the group; first item; remaining items *)
    destruct (entries_loop it1 IH1 ck [] (push (mkCtx t ms []) (set_top fr (b ++ pend t []))) ty ckf []
                (item_entries_good t ms it1 _ [] Hl Hent1) Hnd1 (proj2 (Forall_forall _ _) (fun _ _ => eq_refl)) Hfol1
                (fun _ _ => eq_refl) (collapse_nil _) eq_refl) as [D1 [cur1 [L1 [C1 M1]]]].
    rewrite set_top_push in L1.
    destruct (items_loop t ms its Hl IHrest ck D1 cur1 it1 [] fr b ty ckf Hwfrest Hchain C1 M1 Hg)
      as [D' [cur' [done' [prev' [L2 [C2 [E2 M2]]]]]]].
    exists (D' ++ [mkCtx t ms cur']), (b ++ pend t done').
    split; [|split].
    + rewrite vfields_grp. cbn [map concat].
      rewrite fields_loop_cons, (step_post ck t _ _ (proj1 Htg)), (post_group G t _ ms D fr ty ckf b Hl Hn (proj2 Htg) Hcol).
      replace (set_top fr b) with (set_top fr (b ++ pend t [])) by (cbn [pend]; rewrite app_nil_r; reflexivity).
      rewrite fields_loop_app, L1, L2, mkst_push. reflexivity.
    + rewrite collapse_app. unfold collapse in C2.
      destruct (collapse_p None D') as [p'|]; [|discriminate]. cbn [bind] in *.
      unfold collapse. cbn [collapse_p c_tags c_tag bind]. rewrite C2. cbn [bind add_pending].
      rewrite (ct_add_group_pend t prev' b done' Hg), E2. reflexivity.
    + rewrite map_app, M2, open_members_grp, Hl. cbn [map c_members app] in *.
      replace (it1 :: its) with (done' ++ [prev']) by exact E2. rewrite last_entry_snoc. reflexivity.
Qed.

Lemma open_members_no10 : forall v t ms, In ms (open_members G t v) -> mem_str T10 ms = false.
Proof.
  induction v as [s| |items IH] using FramingL.value_ind2; intros t ms I; try contradiction.
  rewrite open_members_grp in I. apply in_app_iff in I as [I|I].
  - destruct (last_entry items) as [it|] eqn:E; [|contradiction].
    apply last_entry_in in E. rewrite Forall_forall in IH. specialize (IH it E).
    unfold last_open in I. destruct (last_entry it) as [[t' v']|] eqn:E'; [|contradiction].
    apply last_entry_in in E'. rewrite Forall_forall in IH. apply (IH (t', v') E' t' ms I).
  - destruct I as [<-|[]]. destruct (lookup_group G t) as [ms|] eqn:El; [|reflexivity].
    apply (members_not_special t ms El).
Qed.

Lemma last_open_no10 : forall D c, map c_members D = last_open G c -> nonmem T10 D.
Proof.
  intros D c H. apply Forall_forall. intros x I. apply (in_map c_members) in I. rewrite H in I.
  unfold last_open in I. destruct (last_entry c) as [[t v]|]; [apply (open_members_no10 v t _ I) | contradiction].
Qed.

(* the keys of hdr_root, the root container after the seven header fields *)
Definition hdr_keys : list str := [T8; T9; T35; T49; T56; T34; T52].

Lemma wf_msg_spec : forall m, wf_msg G m = true ->
  cfree 1 (msg_type m)
  /\ Forall (fun tv => wf_value G (fst tv) (snd tv) = true /\ tag_ok (fst tv) = true /\ str_eqb (fst tv) T10 = false
                    /\ str_eqb (fst tv) T35 = false /\ mem_str (fst tv) hdr_keys = false) (body_of m)
  /\ nodupb (map fst (body_of m)) = true /\ followers_ok G (body_of m) = true.
Proof.
  intros m H. unfold wf_msg in H. apply andb_true_iff in H as [H H4]. apply andb_true_iff in H as [H H3].
  apply andb_true_iff in H as [H1 H2].
  split; [apply soh_free_spec; assumption|]. split; [|split; assumption].
  rewrite forallb_forall in H2. apply Forall_forall. intros tv I. specialize (H2 tv I).
  unfold wf_root_entry in H2. apply andb_true_iff in H2 as [H2 C]. apply andb_true_iff in H2 as [A B].
  (* a body tag is none of 8 9 35 10 (wf_msg) and none of 34 52 49 56 (body_of) *)
  apply negb_true_iff, mem_str_false in B. apply filter_In in I as [_ S]. apply negb_true_iff, mem_str_false in S.
  split; [exact C|]. split; [exact A|].
  split; [apply str_eqb_neq; intro E; apply B; rewrite E; cbn; tauto|].
  split; [apply str_eqb_neq; intro E; apply B; rewrite E; cbn; tauto|].
  apply mem_str_false. intro K. cbn in K, B, S. tauto.
Qed.

Lemma body_loop : forall m root ck ty ckf, wf_msg G m = true -> map fst root = hdr_keys -> last_open G root = [] ->
  exists D' b2,
    fields_loop G ck (mkD root [] ty ckf) (cfields (body_of m)) = FCont (mkst D' ([], b2) ty ckf)
    /\ collapse None D' b2 = Ok (root ++ body_of m) /\ nonmem T10 D'.
Proof.
  intros m root ck ty ckf Hwf Hroot Hopen.
  destruct (wf_msg_spec m Hwf) as [_ [Hent [Hnd Hfol]]].
  destruct (entries_loop (body_of m) (proj2 (Forall_forall _ _) (fun tv _ t => value_loop (snd tv) t)) ck [] ([], root) ty ckf root)
    as [D' [b2 [L [C M]]]]; try assumption.
  - eapply Forall_impl; [|exact Hent]. intros tv [A [B [E10 [E35 _]]]]. exact (conj A (conj (conj B (conj E10 E35)) I)).
  - eapply Forall_impl; [|exact Hent]. intros tv [_ [_ [_ [_ K]]]]. apply ct_get_none. rewrite Hroot. exact K.
  - intros tv _. rewrite Hopen. reflexivity.
  - reflexivity.
  - symmetry. exact Hopen.
  - exists D', b2. split; [exact L|]. split; [exact C | exact (last_open_no10 D' _ M)].
Qed.

Lemma step_root : forall ck t s root ty ckf,
  In t (hdr_tags ++ skip_tags) -> str_eqb t T10 = false -> tag_ok t = true -> ct_get t root = None ->
  field_step G ck (mkD root [] ty ckf) (field t s)
  = FCont (mkD (root ++ [(t, VStr s)]) [] (if str_eqb t T35 then s else ty) ckf).
Proof.
  intros ck t s root ty ckf Hin H10 Htag Hg.
  destruct (tag_ok_spec _ Htag) as [_ [Heq Hint]].
  rewrite (field_step_field G ck _ t s Heq Hint). unfold pre. rewrite H10.
  destruct (str_eqb t T35); cbn [d_root d_stack d_type d_ck];
    apply (post_plain G t s [] ([], root) _ ckf root (framing_not_key t Hin) Hint (Forall_nil _) I (collapse_nil _) Hg).
Qed.

Definition hdr_root (bs blen mt sd tg seq time : str) : container :=
  [(T8, VStr bs); (T9, VStr blen); (T35, VStr mt); (T49, VStr sd); (T56, VStr tg); (T34, VStr seq); (T52, VStr time)].

Lemma header_loop : forall ck bs blen mt sd tg seq time rest,
  fields_loop G ck (mkD [] [] UNKNOWN false)
    (field T8 bs :: field T9 blen :: field T35 mt :: field T49 sd :: field T56 tg :: field T34 seq :: field T52 time :: rest)
  = fields_loop G ck (mkD (hdr_root bs blen mt sd tg seq time) [] mt false) rest.
Proof.
  intros. do 7 (rewrite fields_loop_cons, (step_root ck) by (cbn; tauto || reflexivity)). reflexivity.
Qed.

Lemma trailer_step : forall ck D b2 ty ckf full val,
  collapse None D b2 = Ok full -> nonmem T10 D -> ct_get T10 full = None ->
  field_step G ck (mkst D ([], b2) ty ckf) (field T10 val)
  = FCont (mkD (full ++ [(T10, VStr val)]) [] ty (three_digits val && Z.eqb (Z.of_N ck) (digits_value val))).
Proof.
  intros ck D b2 ty ckf full val Hc Hn Hg.
  rewrite (field_step_field G ck _ T10 val) by ((apply cfreeb_spec; reflexivity) || reflexivity).
  unfold pre. rewrite str_eqb_refl.
  apply (post_plain G T10 val D ([], b2) ty _ full); try assumption.
  - apply framing_not_key. cbn. tauto.
  - reflexivity.
  - exact I.
Qed.

(* all fields of a frame for a well-formed message, whatever the header values and the CheckSum text *)
Lemma frame_loop : forall ck bs blen m sd tg seq time val, wf_msg G m = true ->
  fields_loop G ck (mkD [] [] UNKNOWN false)
    (field T8 bs :: field T9 blen :: field T35 (msg_type m) :: field T49 sd :: field T56 tg :: field T34 seq
     :: field T52 time :: cfields (body_of m) ++ [field T10 val])
  = FCont (mkD (hdr_root bs blen (msg_type m) sd tg seq time ++ body_of m ++ [(T10, VStr val)]) [] (msg_type m)
               (three_digits val && Z.eqb (Z.of_N ck) (digits_value val))).
Proof.
  intros ck bs blen m sd tg seq time val Hwf. rewrite header_loop, fields_loop_app.
  destruct (body_loop m (hdr_root bs blen (msg_type m) sd tg seq time) ck (msg_type m) false Hwf eq_refl eq_refl)
    as [D' [b2 [-> [Cb Nb]]]].
  rewrite fields_loop_one, (trailer_step ck D' b2 _ _ _ val Cb Nb), <- app_assoc; [reflexivity|].
  destruct (wf_msg_spec m Hwf) as [_ [Hent _]].
  apply ct_get_none. rewrite map_app. apply mem_str_false. intro K. apply in_app_iff in K as [K|K].
  - cbn in K. repeat (destruct K as [K|K]; [discriminate|]). destruct K.
  - apply in_map_iff in K as [tv [E K]]. rewrite Forall_forall in Hent. destruct (Hent tv K) as [_ [_ [B _]]].
    rewrite E, str_eqb_refl in B. discriminate.
Qed.

End Loop.

(* the first "<SOH>10=" behind a list of good fields is where the text behind them starts with "10=" *)
Lemma find_cksep_flat : forall fs T, fs <> [] -> Forall good_field fs ->
  prefixb CKTAG T = true -> find_sub CKSEP (flat fs ++ T) = Some (length (flat fs) - 1)%nat.
Proof.
  induction fs as [|f fs IH]; intros T Hne Hgood HT; [contradiction|].
  inversion Hgood as [|? ? [Hf _] Hgood']; subst. rewrite flat_cons, <- app_assoc. cbn [app].
  change CKSEP with (1 :: CKTAG). rewrite (find_sub_first_char 1 CKTAG f _ Hf).
  destruct fs as [|g fs'].
  - cbn [flat map concat app]. rewrite HT. f_equal. rewrite app_length. cbn [length]. lia.
  - rewrite flat_cons at 1. rewrite <- app_assoc, (proj2 (Forall_inv Hgood') _).
    change (1 :: CKTAG) with CKSEP. rewrite (IH T ltac:(discriminate) Hgood' HT). cbn [option_map]. f_equal.
    rewrite app_length. cbn [length]. pose proof (flat_length_pos g fs'). lia.
Qed.

(* good fields followed by a CheckSum field: the CheckSum field ends the text *)
Lemma ck_end_flat : forall fs v, fs <> [] -> Forall good_field fs -> cfree 1 v ->
  ck_end (flat (fs ++ [field T10 v])) = Some (length (flat (fs ++ [field T10 v]))).
Proof.
  intros fs v Hne Hgood Hv. rewrite flat_app, (flat_cons _ []). change (field T10 v ++ 1 :: flat []) with ((CKTAG ++ v) ++ [1]).
  unfold ck_end. rewrite (find_cksep_flat fs _ Hne Hgood) by (rewrite <- app_assoc; apply prefixb_app).
  destruct fs as [|f fs]; [contradiction|]. pose proof (flat_length_pos f fs) as Hp.
  replace (length (flat (f :: fs)) - 1 + 1)%nat with (length (flat (f :: fs))) by lia.
  rewrite skipn_exact. unfold SOHs. rewrite find_sub_single.
  - cbn [option_map]. f_equal. rewrite !app_length. cbn [length]. lia.
  - apply cfree_app. split; [apply cfreeb_spec; reflexivity | exact Hv].
Qed.

Lemma digits_value_dval : forall v a, fold_left (fun a c => (a * 10 + Z.of_N (c - 48))%Z) v (Z.of_N a) = Z.of_N (dval v a).
Proof.
  induction v as [|c v IH]; intro a; [reflexivity|]. cbn [fold_left dval].
  rewrite <- IH. f_equal. unfold dstep. lia.
Qed.

(* the decoder's test of a CheckSum field written by the encoder *)
Lemma fmt03_ck : forall c, c < 256 -> three_digits (fmt03 c) && Z.eqb (Z.of_N c) (digits_value (fmt03 c)) = true.
Proof.
  intros c Hc. destruct (fmt03_spec c Hc) as [Hl [Hd Hv]]. unfold three_digits, digits_value.
  rewrite Hl, (digits_value_dval _ 0), Hv, Z.eqb_refl, andb_true_r. apply forallb_forall, Forall_forall. exact Hd.
Qed.

Lemma zlen_flat_cons : forall f fs, zlen (flat (f :: fs)) = (zlen f + 1 + zlen (flat fs))%Z.
Proof. intros. rewrite flat_cons. unfold zlen. rewrite app_length. cbn [length]. lia. Qed.

Lemma zlen_field : forall t v, zlen (field t v) = (zlen t + 1 + zlen v)%Z.
Proof. intros. unfold field, zlen. rewrite app_length. cbn [length]. lia. Qed.

(* the sequence number written is the allocated one or the message's own *)
Definition seq_clause (m : message) (sess : session) (raw : bool) (seq : str) (sess' : session) : Prop :=
  (allocates m raw = true /\ seq = z_to_dec (next_out sess)
   /\ sess' = mkSession (sender sess) (target sess) (next_out sess + 1))
  \/ (allocates m raw = false /\ sess' = sess
      /\ exists z, seq_of_msg (msg_tags m) = Ok z /\ seq = z_to_dec z).

Lemma seq_of_msg_ok : forall c z, seq_of_msg c = Ok z -> True.
Proof. trivial. Qed.

Lemma select_seq_own : forall c (sess : session) seq sess',
  (do z <- seq_of_msg c; Ok (z_to_dec z, sess)) = Ok (seq, sess') ->
  sess' = sess /\ exists z, seq_of_msg c = Ok z /\ seq = z_to_dec z.
Proof.
  intros c sess seq sess' H. destruct (seq_of_msg c) as [z|]; [|discriminate].
  injection H as <- <-. split; [reflexivity | exists z; split; reflexivity].
Qed.

Lemma select_seq_spec : forall m sess raw seq sess',
  select_seq m sess raw = Ok (seq, sess') -> seq_clause m sess raw seq sess'.
Proof.
  intros m sess raw seq sess' H. unfold select_seq in H. unfold seq_clause, allocates.
  destruct raw; [right; split; [reflexivity | exact (select_seq_own _ _ _ _ H)]|].
  destruct (str_eqb (msg_type m) MT_SEQRESET).
  { destruct (ct_mem T34 (msg_tags m)); [|discriminate]. right. split; [reflexivity | exact (select_seq_own _ _ _ _ H)]. }
  unfold ct_getitem in H. destruct (ct_get T43 (msg_tags m)) as [[s| |]|]; cbn [bind] in H; try discriminate.
  - destruct (str_eqb s Y).
    + destruct (ct_mem T34 (msg_tags m)); [|discriminate]. right. split; [reflexivity | exact (select_seq_own _ _ _ _ H)].
    + left. injection H as <- <-. repeat split.
  - left. injection H as <- <-. repeat split.
Qed.

Lemma select_seq_soh_free : forall m sess raw seq sess', select_seq m sess raw = Ok (seq, sess') -> cfree 1 seq.
Proof.
  intros m sess raw seq sess' H. destruct (select_seq_spec _ _ _ _ _ H) as [[_ [E _]]|[_ [_ [z [_ E]]]]];
    subst; apply z_to_dec_soh_free.
Qed.

Section Enc.
Variable G : group_table.
Hypothesis HG : wf_table G = true.

Lemma body_fields_good : forall m, wf_msg G m = true -> Forall good_field (cfields (body_of m)).
Proof.
  intros m Hwf. destruct (wf_msg_spec G m Hwf) as [_ [Hent _]].
  apply Forall_concat, Forall_map. eapply Forall_impl; [|exact Hent]. intros tv [A [B [C _]]].
  apply (vfields_good G HG); assumption.
Qed.

Lemma encode_frame_ok : forall bs m sess time raw F sess' seq,
  wf_bs bs = true -> wf_session sess = true -> soh_free time = true -> wf_msg G m = true ->
  encode bs m sess time raw = Ok (F, sess') -> select_seq m sess raw = Ok (seq, sess') ->
  no_marker F = true -> small_frame F ->
  frame_ok G bs F (decoded_of bs m sess seq time).
Proof.
  intros bs m sess time raw F sess' seq Hbs Hsess Htime Hwf Henc Hseq Hnom.
  destruct (encode_shape _ _ _ _ _ _ _ Henc) as [seq0 [rest [Hseq0 [Hrest HF]]]].
  assert (seq0 = seq) by congruence. subst seq0. clear Hseq0.
  apply andb_true_iff in Hbs as [Hbs1 Hbs2]. apply andb_true_iff in Hsess as [Hsd Htg].
  apply soh_free_spec in Hbs2, Hsd, Htg, Htime. pose proof (proj1 (wf_msg_spec G m Hwf)) as Hmt.
  pose proof (select_seq_soh_free _ _ _ _ _ Hseq) as Hsq.
  set (blen := enc_blen m sess seq time). set (ck := enc_ck bs m sess seq time).
  set (ef := field T35 (msg_type m) :: field T49 (sender sess) :: field T56 (target sess) :: field T34 seq
             :: field T52 time :: cfields (body_of m)).
  set (f9 := field T9 (n_to_dec blen)).
  (* the rendered body is the total rendering of the tags the encoder does not write itself *)
  assert (Eef : enc_fields m sess seq time = ef).
  { unfold enc_fields, render_total. rewrite Hrest, (render_body_fields _ _ Hrest). reflexivity. }
  assert (Eblen : blen = N.of_nat (length (flat ef))) by (rewrite <- Eef; reflexivity).
  assert (Eck : ck = checksum (flat (field T8 bs :: f9 :: ef))) by (rewrite <- Eef; reflexivity).
  assert (EF : F = flat ((field T8 bs :: f9 :: ef) ++ [field T10 (fmt03 ck)])) by (rewrite <- Eef; exact HF).
  clear HF Hrest rest.
  assert (Hgood : Forall good_field (field T8 bs :: f9 :: ef)).
  { repeat (apply Forall_cons; [apply field_good; [reflexivity | reflexivity | try assumption]|]).
    - apply n_to_dec_cfree. reflexivity.
    - apply body_fields_good. exact Hwf. }
  assert (Hck : ck < 256) by (rewrite Eck; apply checksum_lt).
  destruct (fmt03_spec ck Hck) as [Hlen10 [Hdig10 _]].
  assert (Hsoh10 : cfree 1 (fmt03 ck)) by (apply (digits_cfree 1 _ Hdig10); reflexivity).
  assert (Hlen : (zlen (field T8 bs) + zlen f9 + 9 + Z.of_N blen = zlen F)%Z).
  { rewrite EF, Eblen, flat_app, zlen_app, !zlen_flat_cons, (zlen_field T10).
    unfold zlen. rewrite Hlen10. cbn [flat map concat length T10]. lia. }
  intro Hsmall.
  exists (n_to_dec blen), (field T35 (msg_type m)),
         (field T49 (sender sess) :: field T56 (target sess) :: field T34 seq :: field T52 time
          :: cfields (body_of m) ++ [field T10 (fmt03 ck)]), blen, []. cbv zeta.
  set (L := field T8 bs :: f9 :: ef) in *.
  unfold decoded_of. fold blen ck. split; [exact EF|]. split; [|split; [|split; [|split; [exact Hlen|]]]].
  - change (Forall (cfree 1) (L ++ [field T10 (fmt03 ck)])).
    apply Forall_app. split; [eapply Forall_impl; [|exact Hgood]; intros f Hf; apply Hf|].
    constructor; [|constructor]. apply field_soh_free; [apply cfreeb_spec; reflexivity | exact Hsoh10].
  - rewrite EF. split; [|split; [|split]].
    + apply prefixb_spec in Hbs1 as [r ->]. reflexivity.
    + rewrite <- EF. unfold no_marker in Hnom. unfold no_mark. destruct (find_sub MARK (skipn 5 F)); [discriminate | reflexivity].
    + rewrite flat_app, (flat_cons _ []), app_assoc. eexists. reflexivity.
    + apply ck_end_flat; [discriminate | exact Hgood | exact Hsoh10].
  - apply py_int_n_to_dec. apply (N.le_lt_trans _ (N.of_nat (length F))); [clear Hsmall; unfold zlen in Hlen; lia | exact Hsmall].
  - change (fields_loop G ((sum_codes (join SOHs (removelast (L ++ [field T10 (fmt03 ck)]))) + 1) mod 256)
              (mkD [] [] UNKNOWN false) (L ++ [field T10 (fmt03 ck)]) = FCont (mkD (msg_tags (decoded_of bs m sess seq time)) [] (msg_type m) true)).
    rewrite removelast_last.
    replace ((sum_codes (join SOHs L) + 1) mod 256) with ck.
    2:{ rewrite Eck. unfold checksum. rewrite <- (join_flat L), sum_codes_app by (unfold L; discriminate). reflexivity. }
    unfold L, f9, ef. cbn [app]. rewrite (frame_loop G HG _ _ _ _ _ _ _ _ _ Hwf), (fmt03_ck ck Hck). reflexivity.
Qed.
End Enc.

Theorem roundtrip : forall G bs m sess time raw F sess',
  wf_table G = true -> wf_bs bs = true -> wf_session sess = true -> soh_free time = true ->
  wf_msg G m = true -> no_marker F = true -> small_frame F ->
  encode bs m sess time raw = Ok (F, sess') ->
  exists seq,
    select_seq m sess raw = Ok (seq, sess')
    /\ (forall silent, decode G bs F silent = Ok (Some (decoded_of bs m sess seq time), zlen F, Some F))
    /\ seq_clause m sess raw seq sess'.
Proof.
  intros G bs m sess time raw F sess' HG Hbs Hsess Htime Hwf Hnom Hsmall Henc.
  destruct (encode_shape _ _ _ _ _ _ _ Henc) as [seq [rest [Hseq _]]].
  exists seq. split; [exact Hseq|]. split; [|exact (select_seq_spec _ _ _ _ _ Hseq)].
  intro silent.
  pose proof (encode_frame_ok G HG bs m sess time raw F sess' seq Hbs Hsess Htime Hwf Henc Hseq Hnom Hsmall) as Hok.
  pose proof (frame_ok_decode G bs [] F _ [] silent eq_refl Hok) as Hd.
  cbn [app] in Hd. rewrite app_nil_r in Hd. exact Hd.
Qed.

(* D5 (the marker occurs in the frame past offset 0) as a predicate on the fields *)

Definition marker_free (s : str) : bool := negb (contains_sub MARK s).

Lemma flat_marker_free : forall fs, marker_free (flat fs) = forallb marker_free fs.
Proof.
  induction fs as [|f fs IH]; [reflexivity|].
  rewrite flat_cons. cbn [forallb]. rewrite <- IH. unfold marker_free at 1 2, contains_sub.
  destruct (find_sub MARK f) as [k|] eqn:F.
  - rewrite (find_sub_some_ext MARK f (1 :: flat fs) k F). reflexivity.
  - rewrite (find_sub_sep 1 MARK f (flat fs) MARK_soh_free MARK_nonempty F).
    unfold marker_free, contains_sub. destruct (find_sub MARK (flat fs)); reflexivity.
Qed.

(* exact: the marker occurs past offset 0 of the frame iff it occurs in a field after the first, or in
   the first field from offset 5 on *)
Lemma no_marker_flat : forall f0 fs, (5 <= length f0)%nat ->
  no_marker (flat (f0 :: fs)) = marker_free (skipn 5 f0) && no_marker_in_fields fs.
Proof.
  intros f0 fs H5. unfold no_marker, no_marker_in_fields.
  change (forallb (fun f => negb (contains_sub MARK f)) fs) with (forallb marker_free fs).
  rewrite flat_cons, (skipn_app_le 5 f0 _ H5), <- flat_cons.
  change (marker_free (skipn 5 f0) && forallb marker_free fs) with (forallb marker_free (skipn 5 f0 :: fs)).
  rewrite <- flat_marker_free. unfold marker_free, contains_sub. destruct (find_sub MARK _); reflexivity.
Qed.

Lemma no_marker_fields_b_spec : forall bs m sess time raw F sess' seq,
  wf_bs bs = true -> encode bs m sess time raw = Ok (F, sess') -> select_seq m sess raw = Ok (seq, sess') ->
  no_marker F = no_marker_fields_b bs m sess seq time.
Proof.
  intros bs m sess time raw F sess' seq Hbs Henc Hseq.
  unfold no_marker_fields_b. fold (marker_free (skipn 5 (field T8 bs))).
  destruct (encode_shape _ _ _ _ _ _ _ Henc) as [seq0 [rest [Hseq0 [_ HF]]]].
  assert (seq0 = seq) by congruence. subst seq0. rewrite HF. unfold frame_fields. cbn [tl].
  apply no_marker_flat. unfold wf_bs in Hbs. apply andb_true_iff in Hbs as [Hb _].
  apply prefixb_len in Hb. unfold FIXDOT in Hb. unfold field, T8. rewrite app_length. cbn [length] in *. lia.
Qed.

From Coq Require Import String Ascii.
From AFGen Require Import GenGroups.

Definition txt (x : string) : str := List.map N_of_ascii (list_ascii_of_string x).
Definition plain (t v : string) : str * value := (txt t, VStr (txt v)).
Definition grp (t : string) (items : list (list (str * value))) : str * value := (txt t, VGrp items).

Lemma fix44_table_wf : wf_table GenGroups.table = true.
Proof. vm_compute. reflexivity. Qed.

Definition ex_sess : session := mkSession (txt "SND") (txt "TGT") 17.
Definition ex_time : str := txt "20230101-10:00:00.000".

(* AllocationInstruction-like message: NoAllocs / NoNestedPartyIDs / NoNestedPartySubIDs, three levels,
   several items per level, optional members present and absent, values containing "=", "10=", "9=" *)
Definition ex_nested : message := mkMsg (txt "J") [
  plain "70" "alloc1";
  grp "78" [
    [plain "79" "acc1"; plain "80" "100";
     grp "539" [ [plain "524" "p1"; plain "525" "D"; plain "538" "1";
                  grp "804" [[plain "545" "s1"; plain "805" "1"]; [plain "545" "s2"; plain "805" "2"]]];
                 [plain "524" "p2"; grp "804" [[plain "545" "s3"]]] ]];
    [plain "79" "acc2"; grp "539" [[plain "524" "p3"]]; plain "81" "x=y"] ];
  plain "58" "hello 10=000 9=5" ].

Definition ex_frame (m : message) : str :=
  match encode beginstring m ex_sess ex_time false with Ok (f, _) => f | Exc _ => [] end.

(* D5: a well-formed message whose frame does not decode to itself: the whole frame is dropped *)
Definition ex_marker_tag : message :=
  mkMsg (txt "D") [plain "11" "id1"; plain "58" "FIX.x"; plain "55" "MSFT"].
Definition ex_marker_value : message :=
  mkMsg (txt "D") [plain "11" "id1"; plain "58" "see 8=FIX.4.4 spec"; plain "55" "MSFT"].

(* the structural hypotheses of wf_msg are forced too: three messages whose groups use member tags
   only, outside wf_msg, that decode to a different structure *)
Definition ex_follower : message :=    (* root-level Commission after NoAllocs: absorbed into the last item *)
  mkMsg (txt "D") [plain "11" "id1"; grp "78" [[plain "79" "acc"; plain "80" "100"]]; plain "12" "5.0"].
Definition ex_item_head : message :=   (* second item does not repeat a tag of the first: items merge *)
  mkMsg (txt "D") [plain "11" "id1"; grp "78" [[plain "79" "a"]; [plain "80" "b"]]].
Definition ex_item_group_head : message :=   (* items that start with a nested group: nested groups merge *)
  mkMsg (txt "D") [plain "11" "id1"; grp "78" [[grp "539" [[plain "524" "p"]]]; [grp "539" [[plain "524" "q"]]]]].

Definition decoded_tag (m : message) (t : string) : option value :=
  match decode GenGroups.table beginstring (ex_frame m) true with
  | Ok (Some d, _, _) => ct_get (txt t) (msg_tags d)
  | _ => None
  end.

