(* Proofs that the messages of the tester model validate against the regenerated FIX 4.4 dictionary
   (C15's SchemaModel.validate with C19's validate_value as the value check) - C20.
   Only imports from C15 / C19; the bridge definitions are in Fix/TesterSchema.v. *)
From Coq Require Import ZArith List Bool Lia.
From AF Require Import Base.Sx Py.Str Fix.OrderStatus Fix.Tester Fix.TesterSchema Lemmas.TesterL.
From AF Require Fix.Lex Lemmas.LexL Lemmas.StrB.
From AFGen Require GenSchema GenLex.
Import ListNotations.
Open Scope N_scope.

Module F44 := GenSchema.FIX44.

(* every field of C15's table has an entry in C19's table with the same type name and the same has-enum flag *)
Definition field_agrees (f : SM.field) : bool :=
  match find (fun e => str_eqb (fst (fst e)) (SM.f_tag f)) GenLex.fields_fix44 with
  | Some (t, ty, vals) =>
      str_eqb ty (nth (N.to_nat (SM.f_type f)) F44.type_names []) &&
      Bool.eqb (SM.f_enum f) (match vals with [] => false | _ => true end)
  | None => false
  end.

Lemma tables_agree : forallb field_agrees F44.fields = true.
Proof. vm_compute. reflexivity. Qed.

Lemma existsb_map {A B} (f : B -> bool) (g : A -> B) l : existsb f (map g l) = existsb (fun x => f (g x)) l.
Proof. induction l as [|x l IH]; cbn; [reflexivity|]. now rewrite IH. Qed.

Lemma has_tag_lift t es : SM.has_tag t (lift es) = existsb (fun k => str_eqb k t) (map fst es).
Proof. unfold SM.has_tag, lift. rewrite !existsb_map. reflexivity. Qed.

Lemma check_required_keys M es :
  SM.check_required M (lift es) = if req_keys M (map fst es) then SM.Ok else SM.Exc SM.EFIXMessage.
Proof.
  induction M as [|m M IH]; cbn [SM.check_required req_keys]; [reflexivity|].
  rewrite has_tag_lift. destruct (negb _ && SM.mreq m); [reflexivity|exact IH].
Qed.

Lemma body_plan vc Sc M es : forall fs,
  plan_tags Sc M (map fst es) = Some fs ->
  Forall2 (fun f s => vc f s = None) fs (map snd es) ->
  SM.body_loop vc Sc M (lift es) = SM.Ok.
Proof.
  induction es as [|[t s] es IH]; intros fs P F; cbn [lift map SM.body_loop]; [reflexivity|].
  cbn [map fst snd plan_tags] in P, F.
  unfold plan_tag in P. cbn [fst snd].
  destruct (str_eqb t SM.TAG10); [discriminate|].
  destruct (SM.member_for Sc M t) as [[f r|f r ms]|]; try discriminate.
  destruct (plan_tags Sc M (map fst es)) as [fs'|] eqn:P'; [|discriminate].
  inversion P; subst fs. inversion F as [|? ? ? ? V F']; subst.
  cbn [SM.validate_member]. unfold SM.check_value. rewrite V. now apply (IH fs').
Qed.

Lemma plan_sound vc Sc mt es fs :
  plan Sc mt (map fst es) = Some fs ->
  Forall2 (fun f s => vc f s = None) fs (map snd es) ->
  SM.validate vc Sc (SM.mkMsg mt (lift es)) = SM.Ok.
Proof.
  unfold plan, SM.validate. cbn [SM.msg_type SM.tags]. intros P F.
  destruct (SM.find_message Sc mt) as [M|]; [|discriminate].
  rewrite check_required_keys, has_tag_lift.
  destruct (req_keys M (map fst es)); cbn [andb] in P; [|discriminate].
  destruct (existsb (fun k => str_eqb k SM.TAG8) (map fst es)); cbn [negb] in P; [discriminate|].
  now apply (body_plan vc Sc M es fs).
Qed.

Lemma vc_accept f s w : VV.validate_value (vv_field f) s = VV.Accept w -> value_check44 f s = None.
Proof. unfold value_check44. now intros ->. Qed.

Lemma vc_string f t s :
  vv_field f = LexL.plain t VV.n_STRING -> t <> VV.TAG_16 -> valid_string s = true -> value_check44 f s = None.
Proof.
  unfold valid_string. intros E T V. apply andb_true_iff in V as (V & V3). apply negb_true_iff in V3.
  apply (vc_accept f s false). rewrite E. exact (proj2 (proj1 (LexL.string_partial t s T V3)) V).
Qed.

Definition enum_covers (f : SM.field) (l : list N) : bool :=
  match VV.f_values (vv_field f) with
  | [] => false
  | vals => forallb (fun c => VV.mem_str [c] vals) l
  end.

Lemma vc_enum f l c : enum_covers f l = true -> In c l -> value_check44 f [c] = None.
Proof.
  unfold enum_covers. intros E I. apply (vc_accept f [c] false).
  destruct (VV.f_values (vv_field f)) as [|v vs] eqn:V; [discriminate|].
  apply LexL.validate_enum; [rewrite V; discriminate|]. split; [discriminate|].
  rewrite forallb_forall in E. specialize (E c I). rewrite V. now apply LexL.mem_str_In.
Qed.

Lemma n_to_dec_dig n : forallb Lex.dig (n_to_dec n) = true.
Proof. apply forallb_forall, Forall_forall, StrB.n_to_dec_digits. Qed.

Lemma num_n_to_dec n : Lex.num (n_to_dec n) = n.
Proof. exact (StrB.dval_n_to_dec n). Qed.

Lemma n_to_dec_not_too_many n : n < INT_LIMIT -> Lex.too_many_digits (n_to_dec n) = false.
Proof.
  intros H. unfold Lex.too_many_digits. rewrite LexL.filter_dig by apply n_to_dec_dig.
  apply N.ltb_ge, StrB.n_to_dec_len. exact H.
Qed.

Lemma unsigned_dig c s : Lex.dig c = true -> Lex.unsigned (c :: s) = c :: s /\ Lex.is_neg (c :: s) = false.
Proof. intros D. destruct (LexL.sign_cases (c :: s)) as [(r & [= -> _])|U]; [discriminate D|exact U]. Qed.

Lemma n_to_dec_lex_positive n : 0 < n -> Lex.lex_positive (n_to_dec n) = true.
Proof.
  intros H. unfold Lex.lex_positive, Lex.lex_int, Lex.int_value, Lex.digs.
  destruct (StrB.n_to_dec_head n) as (c & s & E & D). rewrite E. destruct (unsigned_dig c s D) as (-> & ->).
  rewrite <- E, num_n_to_dec, n_to_dec_dig, E. cbn [Lex.nonempty andb]. lia.
Qed.

Definition seq_ok (z : Z) : Prop := (0 < z < Z.of_N INT_LIMIT)%Z.

Lemma z_to_dec_pos z : (0 < z)%Z -> z_to_dec z = n_to_dec (Z.to_N z).
Proof. destruct z as [|p|p]; try lia. reflexivity. Qed.

Lemma seq_text z : seq_ok z -> Lex.lex_positive (z_to_dec z) = true /\ Lex.too_many_digits (z_to_dec z) = false.
Proof.
  intros (Z0 & ZL). rewrite z_to_dec_pos by exact Z0.
  split; [apply n_to_dec_lex_positive|apply n_to_dec_not_too_many]; lia.
Qed.

Lemma vc_seqnum f t z :
  vv_field f = LexL.plain t VV.n_SEQNUM -> t <> VV.TAG_16 -> seq_ok z -> value_check44 f (z_to_dec z) = None.
Proof.
  intros E T S. destruct (seq_text z S) as (P & M). apply (vc_accept f _ false). rewrite E.
  exact (proj2 (LexL.positive_partial t VV.n_SEQNUM _ (or_introl eq_refl) T M) P).
Qed.

(* EndSeqNo: 0 ("all messages") or a positive number *)
Lemma vc_endseqno f z :
  vv_field f = LexL.plain VV.TAG_16 VV.n_SEQNUM -> (0 <= z < Z.of_N INT_LIMIT)%Z ->
  value_check44 f (z_to_dec z) = None.
Proof.
  intros E (Z0 & ZL). apply (vc_accept f _ false). rewrite E.
  apply (LexL.validate_endseqno VV.n_SEQNUM Lex.DSeqNum); [reflexivity|].
  destruct (Z.eq_dec z 0) as [->|NZ]; [now right|left].
  destruct (seq_text z) as (P & M); [split; lia|]. cbn [Lex.lex Lex.kf]. now rewrite P, M.
Qed.

Lemma n_to_dec_free c n : is_digit c = false -> existsb (N.eqb c) (n_to_dec n) = false.
Proof. intros D. exact (LexL.in_str_outside Lex.dig c _ D (n_to_dec_dig n)). Qed.

(* any str(int) is a valid String value *)
Lemma z_to_dec_valid z : valid_string (z_to_dec z) = true.
Proof.
  unfold valid_string. destruct z as [|p|p]; cbn [z_to_dec]; [reflexivity| |].
  - rewrite !n_to_dec_free by reflexivity. now destruct (StrB.n_to_dec_head (Npos p)) as (c & s & -> & _).
  - cbn [existsb]. now rewrite !n_to_dec_free by reflexivity.
Qed.

Definition float_ok (s : str) : Prop := Lex.lex_float s = true /\ Lex.float_overflows s = false.

Lemma vc_float f t ty s :
  vv_field f = LexL.plain t ty -> In ty [VV.n_FLOAT; VV.n_QTY; VV.n_PRICE; VV.n_PRICEOFFSET; VV.n_AMT; VV.n_PERCENTAGE] ->
  t <> VV.TAG_16 -> float_ok s -> value_check44 f s = None.
Proof.
  intros E I T (L & O). apply (vc_accept f s false). rewrite E. exact (proj2 (LexL.float_partial t ty s I T O) L).
Qed.

Lemma num_app a b : Lex.num (a ++ b) = Lex.num a * 10 ^ N.of_nat (length b) + Lex.num b.
Proof.
  change Lex.num with (fun s => StrB.dval s 0). unfold StrB.dval. rewrite fold_left_app. apply StrB.dval_shift.
Qed.

Lemma num_bound b : forallb Lex.dig b = true -> Lex.num b < 10 ^ N.of_nat (length b).
Proof.
  induction b as [|c b IH]; intros H.
  - cbn. lia.
  - cbn [forallb] in H. apply andb_true_iff in H as (H1 & H2). specialize (IH H2).
    change (c :: b) with ([c] ++ b). rewrite num_app. cbn [app length].
    rewrite Nnat.Nat2N.inj_succ, N.pow_succ_r'. unfold Lex.num at 1. cbn [fold_left].
    unfold Lex.dig in H1. set (P := 10 ^ N.of_nat (length b)) in *.
    assert ((c - 48) * P <= 9 * P) by (apply N.mul_le_mono_r; lia). lia.
Qed.

Lemma drop_zeros_forall (P : N -> Prop) s : Forall P s -> Forall P (drop_zeros s).
Proof.
  induction 1 as [|c s Hc Hs IH]; cbn [drop_zeros]; [constructor|].
  destruct (c =? 48); [exact IH|now constructor].
Qed.

Lemma strip_trailing_forall (P : N -> Prop) s : P 48 -> Forall P s -> Forall P (strip_trailing s).
Proof.
  intros P0 F. unfold strip_trailing. apply Forall_rev, (drop_zeros_forall P), Forall_rev in F.
  destruct (rev (drop_zeros (rev s))); [now constructor|exact F].
Qed.

Lemma frac_digits_dig k r : forallb Lex.dig (frac_digits k r) = true.
Proof.
  apply forallb_forall, Forall_forall, strip_trailing_forall; [reflexivity|]. apply Forall_app. split.
  - apply Forall_forall. intros c I. apply repeat_spec in I. now subst.
  - apply StrB.n_to_dec_digits.
Qed.

(* what lex_float and float_overflows look at in a string: its unsigned part *)
Definition float_body (u : str) : Prop :=
  forallb LexL.dd u && existsb Lex.dig u && (Lex.count_dots u <=? 1)%nat = true /\
  Lex.FLOAT_INF * 10 ^ N.of_nat (length (Lex.after_dot u)) <=? Lex.num (filter Lex.dig u) = false.

Lemma float_ok_body s : float_body (Lex.unsigned s) -> float_ok s.
Proof.
  unfold float_ok, Lex.lex_float, Lex.float_overflows. destruct (LexL.sign_tail s) as (-> & ->). exact (fun H => H).
Qed.

(* digits, a dot, digits, with the integer part below float()'s overflow threshold *)
Lemma float_body_ok ip fp :
  forallb Lex.dig ip = true -> ip <> [] -> forallb Lex.dig fp = true -> Lex.num ip + 1 <= Lex.FLOAT_INF ->
  float_body (ip ++ 46 :: fp).
Proof.
  intros Hi Ni Hf B. unfold float_body.
  destruct (LexL.digits_app ip (46 :: fp) Hi) as (-> & -> & -> & -> & ->).
  destruct (LexL.digits_app fp [] Hf) as (A & _ & C & _). rewrite app_nil_r in A, C.
  change (forallb LexL.dd (46 :: fp)) with (forallb LexL.dd fp). change (Lex.count_dots (46 :: fp)) with (S (Lex.count_dots fp)).
  change (Lex.after_dot (46 :: fp)) with fp. change (filter Lex.dig (46 :: fp)) with (filter Lex.dig fp).
  rewrite A, C, (LexL.filter_dig fp Hf). split; [now destruct ip|].
  rewrite num_app. pose proof (num_bound fp Hf) as BF. set (P := 10 ^ N.of_nat (length fp)) in *.
  apply N.leb_gt. assert ((Lex.num ip + 1) * P <= Lex.FLOAT_INF * P) by (apply N.mul_le_mono_r; exact B). lia.
Qed.

(* printable: the integer part is below the magnitude at which float() overflows *)
Definition printable (k : nat) (z : Z) : Prop := Z.abs_N z / 2 ^ N.of_nat k + 1 <= Lex.FLOAT_INF.

Lemma print_q_float_ok k z : printable k z -> float_ok (print_q k z).
Proof.
  unfold printable, print_q. intros B. set (ipn := Z.abs_N z / 2 ^ N.of_nat k) in *.
  apply float_ok_body.
  replace (Lex.unsigned _) with (n_to_dec ipn ++ 46 :: frac_digits k (Z.abs_N z mod 2 ^ N.of_nat k)).
  - apply float_body_ok; [apply n_to_dec_dig|apply StrB.n_to_dec_spec|apply frac_digits_dig|now rewrite num_n_to_dec].
  - destruct (z <? 0)%Z; [reflexivity|]. destruct (StrB.n_to_dec_head ipn) as (c & s & -> & R). symmetry. apply (unsigned_dig c _ R).
Qed.

(* the fields of the dictionary that check the tester's values, by tag number; no_field is in no plan *)
Definition no_field : SM.field := SM.mkField [] 0 0 false.
Definition fld (tag : N) : SM.field :=
  match tag with
  | 1 => F44.f1 | 6 => F44.f6 | 7 => F44.f7 | 11 => F44.f11 | 14 => F44.f14 | 16 => F44.f16 | 17 => F44.f17
  | 32 => F44.f32 | 34 => F44.f34 | 36 => F44.f36 | 37 => F44.f37 | 38 => F44.f38 | 39 => F44.f39
  | 41 => F44.f41 | 44 => F44.f44 | 54 => F44.f54 | 55 => F44.f55 | 112 => F44.f112 | 123 => F44.f123
  | 150 => F44.f150 | 151 => F44.f151 | 434 => F44.f434 | _ => no_field
  end.

Definition text_tags : list N := [1; 11; 17; 37; 41; 55; 112].
Definition number_tags : list N := [6; 14; 32; 38; 44; 151].
Definition seqnum_tags : list N := [7; 34; 36].

(* one pass over C19's table: the fields without enumeration have the types the tester's values are checked against *)
Lemma vvf_all :
  map (fun tag => vv_field (fld tag)) text_tags = map (fun tag => LexL.plain (n_to_dec tag) VV.n_STRING) text_tags /\
  map (fun tag => vv_field (fld tag)) number_tags =
    map (fun tag => LexL.plain (n_to_dec tag) (if mem tag [6; 44] then VV.n_PRICE else VV.n_QTY)) number_tags /\
  map (fun tag => vv_field (fld tag)) (16 :: seqnum_tags) =
    map (fun tag => LexL.plain (n_to_dec tag) VV.n_SEQNUM) (16 :: seqnum_tags).
Proof. vm_compute. repeat split. Qed.

Lemma table_at {A} (f g : N -> A) tags tag : map f tags = map g tags -> mem tag tags = true -> f tag = g tag.
Proof. intros E I. apply mem_In in I. revert tag I. now apply map_ext_in_iff. Qed.

Lemma tag_text_ne tag : tag <> 16 -> n_to_dec tag <> VV.TAG_16.
Proof. intros H E. apply H. now apply StrB.dec_inj. Qed.

Lemma check_text tag s : mem tag text_tags = true -> valid_string s = true -> value_check44 (fld tag) s = None.
Proof.
  intros I V. apply (vc_string _ (n_to_dec tag)); [exact (table_at _ _ _ _ (proj1 vvf_all) I)| |exact V].
  apply tag_text_ne. intros ->. discriminate I.
Qed.

Lemma check_number tag s : mem tag number_tags = true -> float_ok s -> value_check44 (fld tag) s = None.
Proof.
  intros I V. eapply vc_float; [exact (table_at _ _ _ _ (proj1 (proj2 vvf_all)) I)| | |exact V].
  - destruct (mem tag [6; 44]); cbn; tauto.
  - apply tag_text_ne. intros ->. discriminate I.
Qed.

Lemma check_seqnum tag z : mem tag seqnum_tags = true -> seq_ok z -> value_check44 (fld tag) (z_to_dec z) = None.
Proof.
  intros I V. apply (vc_seqnum _ (n_to_dec tag)); [apply (table_at _ _ _ _ (proj2 (proj2 vvf_all)))| |exact V].
  - unfold mem in *. cbn [existsb]. rewrite I. apply orb_true_r.
  - apply tag_text_ne. intros ->. discriminate I.
Qed.

(* the codes the tester sends under the enumerated tags *)
Definition codes (tag : N) : list N :=
  match tag with
  | 39 => filter (fun st => negb (st =? CREATED)) all_statuses
  | 150 => exec_types
  | 54 => sides
  | 434 => [49; 50]
  | 123 => [89; 78]
  | _ => []
  end.

Lemma enum_all : forallb (fun tag => enum_covers (fld tag) (codes tag)) [39; 54; 123; 150; 434] = true.
Proof. vm_compute. reflexivity. Qed.

Lemma check_code tag c : mem tag [39; 54; 123; 150; 434] = true -> In c (codes tag) -> value_check44 (fld tag) [c] = None.
Proof. intros I. apply mem_In in I. apply vc_enum. exact (proj1 (forallb_forall _ _) enum_all tag I). Qed.

Lemma status_code st : In st all_statuses -> st <> CREATED -> In st (codes 39).
Proof. intros I NE. apply filter_In. split; [exact I|]. now apply negb_true_iff, N.eqb_neq. Qed.

(* a rendered tester message validates when its tags are planned onto the fields [fld] and every value passes its field *)
Lemma render_validates pr mt m :
  plan F44.schema mt (map n_to_dec (tags_of m)) = Some (map fld (tags_of m)) ->
  Forall (fun e => value_check44 (fld (fst e)) (render_val pr (snd e)) = None) m ->
  validate44 (render pr mt m) = SM.Ok.
Proof.
  intros P F. apply plan_sound with (fs := map fld (tags_of m)); unfold flat, tags_of in *.
  - rewrite map_map in *. exact P.
  - clear P. induction F; cbn [map]; constructor; assumption.
Qed.

Definition render0 (r : str * msg) : SM.message := render no_numbers (fst r) (snd r).

(* Heartbeat and TestRequest with a TestReqID *)
Lemma test_req_id_validates mt :
  mt = [48] \/ mt = [49] -> forall s, valid_string s = true -> validate44 (render no_numbers mt [(112, VS s)]) = SM.Ok.
Proof.
  intros M s V. apply render_validates.
  - destruct M as [->| ->]; vm_compute; reflexivity.
  - constructor; [|constructor]. exact (check_text 112 _ eq_refl V).
Qed.

Lemma sequence_reset_validates n new g : seq_ok n -> seq_ok new ->
  validate44 (render0 (msg_sequence_reset n new g)) = SM.Ok.
Proof.
  intros Hn Hw. apply render_validates; [vm_compute; reflexivity|].
  repeat apply Forall_cons; [..|apply Forall_nil].
  - exact (check_seqnum 34 _ eq_refl Hn).
  - apply (check_code 123 _ eq_refl). destruct g; cbn; auto.
  - exact (check_seqnum 36 _ eq_refl Hw).
Qed.

Lemma resend_request_validates b e : seq_ok b -> (0 <= e < Z.of_N INT_LIMIT)%Z ->
  validate44 (render0 (msg_resend_request b e)) = SM.Ok.
Proof.
  intros Hb He. apply render_validates; [vm_compute; reflexivity|].
  repeat apply Forall_cons; [..|apply Forall_nil].
  - exact (check_seqnum 7 _ eq_refl Hb).
  - exact (vc_endseqno _ _ (table_at _ _ _ 16 (proj2 (proj2 vvf_all)) eq_refl) He).
Qed.

Lemma cancel_reject_validates mt c og st m :
  fix_cxlrep_reject_msg mt (Some c) (Some og) st = ROk m ->
  valid_string c = true -> valid_string og = true -> In st all_statuses ->
  validate44 (render no_numbers [57] m) = SM.Ok.
Proof.
  intros H Vc Vo Is. apply reject_spec in H as (c' & og' & r & [= <-] & [= <-] & NC & -> & R).
  apply render_validates; [vm_compute; reflexivity|].
  repeat apply Forall_cons; [..|apply Forall_nil].
  - exact (check_text 37 [48] eq_refl eq_refl).
  - exact (check_text 11 _ eq_refl Vc).
  - exact (check_text 41 _ eq_refl Vo).
  - exact (check_code 39 _ eq_refl (status_code _ Is NC)).
  - apply (check_code 434 _ eq_refl). destruct R as [(_ & ->)|(_ & ->)]; cbn; auto.
Qed.

(* what the dictionary needs from the order object and the arguments *)
Record exec_valid (o : order) (a : eargs) : Prop := mkEV {
  ev_clord : forall c, a_clord a = Some c -> valid_string c = true;
  ev_oid : forall s, o_oid o = Some s -> valid_string s = true;
  ev_orig : forall s, a_orig a = Some s -> truthy (a_orig a) = true -> valid_string s = true;
  ev_exec : In (a_exec a) exec_types;
  ev_status : In (a_status a) all_statuses;
  ev_side : exists sd, o_side o = [sd] /\ In sd sides;
  ev_ticker : valid_string (o_ticker o) = true;
  ev_account : valid_string (o_account o) = true }.

Definition numbers_ok (pr : Z -> str) (m : msg) : Prop :=
  Forall (fun f => match snd f with VQ z => float_ok (pr z) | VS _ => True end) m.

Lemma plan_report a : plan F44.schema [56] (map n_to_dec (expected_tags a)) = Some (map fld (expected_tags a)).
Proof. unfold expected_tags. destruct (truthy (a_orig a)), (a_exec a =? X_TRADE); vm_compute; reflexivity. Qed.

Lemma Forall_mp {A} (P Q : A -> Prop) l : Forall (fun x => P x -> Q x) l -> Forall P l -> Forall Q l.
Proof. induction 1; intros F; inversion F; subst; constructor; auto. Qed.

Lemma exec_report_validates pr u t o a m t' :
  fix_exec_report_msg u t o a = Ok m t' -> exec_valid o a -> numbers_ok pr m ->
  validate44 (render pr [56] m) = SM.Ok.
Proof.
  intros H [Vc Vi Vg Ve Is (sd & Esd & Isd) Vt Va] NO.
  apply render_validates.
  - rewrite (proj1 (exec_tags H)). apply plan_report.
  - revert NO. apply Forall_mp.
    destruct (exec_inv H) as (-> & _ & C & ST & _). unfold sent_report, report.
    repeat (apply Forall_app; split); repeat apply Forall_cons; try apply Forall_nil; cbn [fst snd render_val].
    + intros _. exact (check_text 11 _ eq_refl (Vc _ C)).
    + intros _. apply (check_text 37 _ eq_refl). unfold order_id_text.
      destruct (o_oid o) as [s|] eqn:E; [now apply Vi|apply z_to_dec_valid].
    + intros _. exact (check_text 17 _ eq_refl (z_to_dec_valid _)).
    + unfold opt_field. destruct (a_orig a) as [[|c s]|] eqn:E; constructor; [|constructor].
      intros _. exact (check_text 41 _ eq_refl (Vg _ eq_refl eq_refl)).
    + intros _. exact (check_code 150 _ eq_refl Ve).
    + intros _. exact (check_code 39 _ eq_refl (status_code _ Is ST)).
    + intros _. rewrite Esd. exact (check_code 54 _ eq_refl Isd).
    + exact (check_number 14 _ eq_refl).
    + exact (check_number 151 _ eq_refl).
    + unfold last_field. destruct (a_last a); constructor; [|constructor]. exact (check_number 32 _ eq_refl).
    + intros _. exact (check_text 55 _ eq_refl Vt).
    + exact (check_number 44 _ eq_refl).
    + exact (check_number 38 _ eq_refl).
    + exact (check_number 6 _ eq_refl).
    + intros _. exact (check_text 1 _ eq_refl Va).
Qed.

(* the instance with the exact binary-fraction printer: every number of the message printable *)
Definition numbers_printable (k : nat) (m : msg) : Prop :=
  Forall (fun f => match snd f with VQ z => printable k z | VS _ => True end) m.

Definition get_tag_text (m : SM.message) (t : str) : option str :=
  match SM.get_tag t (SM.tags m) with Some (SM.VStr s) => Some s | _ => None end.

(* a renderer that leaves the FIX float layout (what str(float) printed below 1e-4 before fixes/R12c+R12d: "1e-05") *)
Definition exponent_text (z : Z) : str := [49; 101; 45; 48; 53].
