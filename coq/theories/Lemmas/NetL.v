(* Proofs about the two-endpoint model Fix/Net.v (C07).  The session steps (Fix/Session.v) are evaluated once, for any
   configuration and role; the network families are one family in general position (what each end has not seen
   of the other when the link comes back), of which the theorems of Props/C07 are instances. *)
From Coq Require Import ZArith NArith List Bool Lia.
From AF Require Import Base.Sx Py.Str Fix.Session Fix.Net Lemmas.StrB Lemmas.SessionL.
From AFGen Require Import GenEnums.
Import ListNotations.
Open Scope Z_scope.

(* int(str) and int(bytes) differ only in the whitespace they strip; neither strips a digit *)
Lemma py_int_gen_dec : forall ws z, (forall c, is_digit c = true -> ws c = false) -> 0 <= z <= I64MAX ->
  py_int_gen ws (z_to_dec z) = Some z.
Proof.
  intros ws z Hws [H0 H1]. apply py_int_gen_z_to_dec; [exact Hws|lia|].
  apply N.lt_le_trans with (10 ^ 63)%N; [unfold I64MAX in H1; lia|].
  apply N.pow_le_mono_r; [discriminate | apply N.leb_le; reflexivity].
Qed.

Lemma py_int_dec : forall z, 0 <= z <= I64MAX -> py_int (z_to_dec z) = Some z.
Proof. intros z. apply py_int_gen_dec, ws_str_digit. Qed.

Lemma py_int_bytes_dec : forall z, 0 <= z <= I64MAX -> py_int_bytes (z_to_dec z) = Some z.
Proof. intros z. apply py_int_gen_dec. intros c H. unfold is_digit, ws_bytes in *. lia. Qed.

(* the events of the first computation in front of the result of the second *)
Definition prepend {A} (e1 : list event) (r2 : res A) : res A :=
  match r2 with mkR v w e => mkR v w (e1 ++ e) end.

Lemma prepend_nil : forall A (r : res A), prepend [] r = r.
Proof. intros. destruct r. reflexivity. Qed.

Lemma prepend_prepend : forall A e1 e2 (r : res A), prepend e1 (prepend e2 r) = prepend (e1 ++ e2) r.
Proof. intros. destruct r. cbn. rewrite app_assoc. reflexivity. Qed.

Lemma bind_strict : forall A B (c : M A) (k : A -> M B) w,
  bind c k w = match c w with
               | mkR (inl a) w1 e1 => prepend e1 (k a w1)
               | mkR (inr x) w1 e1 => mkR (inr x) w1 e1
               end.
Proof.
  intros. unfold bind, prepend. destruct (c w) as [[a|x] w1 e]; [|reflexivity].
  cbn. destruct (k a w1); reflexivity.
Qed.

Lemma try_strict : forall A (c : M A) w,
  try_ c w = match c w with
             | mkR (inl a) w1 e => mkR (inl (Some a)) w1 e
             | mkR (inr _) w1 e => mkR (inl None) w1 e
             end.
Proof. intros. unfold try_. destruct (c w) as [[a|x] w1 e]; reflexivity. Qed.

Lemma finally_strict : forall A (c : M A) (f : M unit) w,
  finally_ c f w = match c w with
                   | mkR v w1 e1 =>
                       match f w1 with
                       | mkR (inl _) w2 e2 => mkR v w2 (e1 ++ e2)
                       | mkR (inr x) w2 e2 => mkR (inr x) w2 (e1 ++ e2)
                       end
                   end.
Proof.
  intros. unfold finally_. destruct (c w) as [v w1 e1]. cbn. destruct (f w1) as [[u|x] w2 e2]; reflexivity.
Qed.

Lemma bind_raise : forall A B x (k : A -> M B) w, bind (raise x) k w = mkR (inr x) w [].
Proof. reflexivity. Qed.
Lemma bind_emit : forall B e (k : unit -> M B) w, bind (emit e) k w = prepend [e] (k tt w).
Proof. intros. apply bind_strict. Qed.
Lemma bind_bind : forall A B C (c : M A) (k1 : A -> M B) (k2 : B -> M C) w,
  bind (bind c k1) k2 w = bind c (fun a => bind (k1 a) k2) w.
Proof.
  intros. rewrite (bind_strict _ _ (bind c k1)), !(bind_strict _ _ c). destruct (c w) as [[a|x] w1 e1]; [|reflexivity].
  rewrite bind_strict. destruct (k1 a w1) as [[b|x] w2 e2]; [|reflexivity]. cbn [prepend].
  destruct (k2 b w2). cbn. rewrite app_assoc. reflexivity.
Qed.

Definition wapp (c : cfg) (seq id : Z) : msg := mkMsg MT_D (wire_tags c seq (app_msg id)).
Definition wlogon (c : cfg) (seq : Z) : msg := mkMsg MT_LOGON (wire_tags c seq logon_msg).
Definition rr_msg (b : Z) : msg := mkMsg MT_RESENDREQUEST [(T7, z_to_dec b); (T16, S_0)].
Definition wrr (c : cfg) (seq b : Z) : msg := mkMsg MT_RESENDREQUEST (wire_tags c seq (rr_msg b)).
(* the retransmission of wapp: same number, PossDupFlag, OrigSendingTime *)
Definition wpd (c : cfg) (seq id : Z) : msg :=
  mkMsg MT_D (wire_tags c seq (app_msg id) ++ [(T43, S_Y); (T122, c_time c)]).
Definition wgf (c : cfg) (b e : Z) : msg :=
  mkMsg MT_SEQUENCERESET (wire_tags c b (gap_fill b (z_to_dec e))).

(* The worlds of this file: no TestRequest outstanding, the connection has been active.
   W s r ni no mr lt wrt so si rows ins:  s = _connection_state, r = _connection_role (the ST_* / ROLE_* numbers of
   Session.v), ni / no = next_num_in / next_num_out, mr = _max_seq_num_resend (the watermark while waiting for a
   resend), lt = _message_last_time, wrt = a writer is present; of the journal: so / si = the stored outbound / inbound
   counters, rows = the outbound rows (number, frame), ins = the inbound numbers. *)
Definition W (s r ni no mr lt : Z) (wrt : bool) (so si : Z) (rows : list (Z * msg)) (ins : list Z) : world :=
  mkW s r ni no mr None true lt wrt (mkJ so si rows ins).

(* the journal and the counter after a message was journaled under the next number *)
Definition journaled (f : msg) (w : world) : world :=
  set_jsout (nout w) (set_jout (j_out (jr w) ++ [(nout w, f)]) (set_nout (nout w + 1) w)).

Definition keys_lt (b : Z) (rows : list (Z * msg)) : Prop := Forall (fun r => fst r < b) rows.
Definition all_lt (b : Z) (l : list Z) : Prop := Forall (fun x => x < b) l.

Lemma has_key_lt : forall b rows, keys_lt b rows -> has_key b rows = false.
Proof.
  unfold has_key. induction rows as [|r rows IH]; intros H; [reflexivity|].
  inversion H; subst. cbn. rewrite IH by assumption.
  replace (fst r =? b) with false by lia. reflexivity.
Qed.

Lemma existsb_lt : forall b l, all_lt b l -> existsb (Z.eqb b) l = false.
Proof.
  induction l as [|x l IH]; intros H; [reflexivity|].
  inversion H; subst. cbn. rewrite IH by assumption.
  replace (b =? x) with false by lia. reflexivity.
Qed.

Lemma filter_true : forall A (f : A -> bool) l, Forall (fun x => f x = true) l -> filter f l = l.
Proof. induction l as [|x l IH]; intros H; [reflexivity|]. inversion H; subst. cbn. rewrite H2, IH by assumption. reflexivity. Qed.
Lemma filter_false : forall A (f : A -> bool) l, Forall (fun x => f x = false) l -> filter f l = [].
Proof. induction l as [|x l IH]; intros H; [reflexivity|]. inversion H; subst. cbn. rewrite H2, IH by assumption. reflexivity. Qed.

(* EVALUATION of a handler applied to an explicit world, `mrun tac`.  The goal is an equation whose left side is
   `c w` for a computation c of the session monad; the caller has unfolded the handlers that are to be run (the
   others stay folded and are rewritten with their equations through tac).  Each round does one of three things and
   then simplifies (msimp):
   - tac: the caller's facts (a key is not in the journal, the equation of a folded handler);
   - zb1: one integer comparison whose arguments are closed terms is decided, by computation or by lia;
   - mlaw: one monad law performs the step in front: re-association, ret, getw, modw, emit, raise; a step that is none
     of these (a test not decided yet, a raw function on worlds, a folded handler, try / finally) is put in strict form
     `match c w with ...`, so that its result is computed before the continuation is entered.
   msimp computes only the projections and updates of the world and the small boolean / list operations: nothing
   under a continuation is ever unfolded, so the goal keeps the size of the handler's text. *)
Ltac zb1 :=
  match goal with
  | |- context [?a <? ?b] =>
      first [ change (a <? b) with true | change (a <? b) with false
            | rewrite (proj2 (Z.ltb_lt a b)) by lia | rewrite (proj2 (Z.ltb_ge a b)) by lia ]
  | |- context [?a <=? ?b] =>
      first [ change (a <=? b) with true | change (a <=? b) with false
            | rewrite (proj2 (Z.leb_le a b)) by lia | rewrite (proj2 (Z.leb_gt a b)) by lia ]
  | |- context [?a =? ?b] =>
      first [ change (a =? b) with true | change (a =? b) with false
            | rewrite (proj2 (Z.eqb_eq a b)) by lia | rewrite (proj2 (Z.eqb_neq a b)) by lia ]
  end.
Ltac mlaw :=
  match goal with
  | |- context [bind (bind ?c ?k1) ?k2 ?w] => rewrite (bind_bind _ _ _ c k1 k2 w)
  | |- context [bind (ret ?a) ?k ?w] => rewrite (bind_ret a k w)
  | |- context [bind getw ?k ?w] => rewrite (bind_getw k w)
  | |- context [bind (modw ?f) ?k ?w] => rewrite (bind_modw f k w)
  | |- context [bind (emit ?e) ?k ?w] => rewrite (bind_emit _ e k w)
  | |- context [bind (raise ?x) ?k ?w] => rewrite (bind_raise _ _ x k w)
  | |- context [bind ?c ?k ?w] => rewrite (bind_strict _ _ c k w)
  | |- context [try_ ?c ?w] => rewrite (try_strict _ c w)
  | |- context [finally_ ?c ?f ?w] => rewrite (finally_strict _ c f w)
  end.
Ltac msimp :=
  cbv delta [ST_DISC_WCONN ST_DISC_BROKEN ST_NCE ST_LOGON_SENT ST_LOGON_RECV ST_HANDLING ST_TOO_HIGH
             ST_AWAITING ST_ACTIVE ROLE_INITIATOR ROLE_ACCEPTOR in_i64 I64MIN I64MAX] in *;
  cbn [st role nin nout maxres treq wasact lastt wr jr j_sout j_sin j_out j_in
       set_st set_role set_nin set_nout set_maxres set_treq set_wasact set_lastt set_wr set_jr
       set_jsout set_jsin set_jout set_jin W journaled mtype mtags
       ret raise getw modw emit lift prepend app negb andb orb fst snd].
Ltac mrun tac := msimp; repeat (first [ progress tac | zb1 | mlaw ]; msimp).

(* The computed world is a pile of updates on the initial one and the computed lists are associated as the handler
   built them: put both sides in explicit form, re-associate, compare. *)
Ltac fin :=
  cbv beta iota zeta delta [W journaled st role nin nout maxres treq wasact lastt wr jr j_sout j_sin j_out j_in
                       set_st set_role set_nin set_nout set_maxres set_treq set_wasact set_lastt set_wr set_jr
                       set_jsout set_jsin set_jout set_jin];
  rewrite ?app_nil_r, <- ?app_assoc, <- ?Z.add_assoc; reflexivity.

Definition peer (c : cfg) : cfg := mkCfg (c_begin c) (c_target c) (c_sender c) (c_time c) (c_maxsize c) (c_replay c).

(* the state / role gates let the message pass: any message once the Logon exchange is over, the acceptor's Logon reply *)
Definition gate_open (m : msg) (w : world) : bool :=
  (ST_LOGON_RECV <? st w) || ((st w =? ST_LOGON_RECV) && (role w =? ROLE_ACCEPTOR) && match mkind m with KLogon => true | _ => false end).

Lemma gate_open_conn : forall m w, ST_LOGON_RECV < st w -> gate_open m w = true.
Proof. intros m w S. unfold gate_open. replace (ST_LOGON_RECV <? st w) with true by stlia. reflexivity. Qed.

Lemma send_gate_open : forall m w, gate_open m w = true -> send_gate m w = ret tt.
Proof.
  intros m w G. unfold gate_open in G. unfold send_gate.
  destruct (mkind m); replace (st w <? ST_NCE) with false by stlia; replace (st w =? ST_NCE) with false by stlia;
    replace (st w =? ST_LOGON_SENT) with false by stlia; rewrite ?andb_false_r; try reflexivity;
    replace (negb (role w =? ROLE_INITIATOR) && (st w =? ST_LOGON_RECV)) with false by stlia; reflexivity.
Qed.

Lemma send_msg_gate : forall c m w, mkind m <> KTestReq ->
  send_msg c m w = (send_gate m w ;;; send_write c m) w.
Proof.
  intros c m w H. unfold send_msg, send_tail. rewrite bind_getw. cbv beta.
  rewrite !(bind_strict _ _ (send_gate m w)). destruct (send_gate m w w) as [[u|x] w1 e1]; [|reflexivity].
  destruct (mkind m); try contradiction; rewrite bind_ret; reflexivity.
Qed.

(* a message that gets the next number and is journaled *)
Lemma send_write_new : forall c m w,
  raw_seq m = false -> skip_journal m = false -> has_key (nout w) (j_out (jr w)) = false -> 0 <= nout w <= I64MAX ->
  send_write c m w
  = let f := mkMsg (mtype m) (wire_tags c (nout w) m) in
    if wr w then mkR (inl tt) (journaled f w) [Wire f] else mkR (inr XAttribute) (journaled f w) [].
Proof.
  intros c m [s r ni no mr tq wa lt wrt [so si rows ins]] R J K B. cbn [nout jr j_out] in K, B.
  unfold send_write, encode, persist_out. rewrite R, J.
  mrun ltac:(rewrite ?K). destruct wrt; mrun idtac; reflexivity.
Qed.

Lemma send_msg_new : forall c m w,
  mkind m <> KTestReq -> raw_seq m = false -> skip_journal m = false -> gate_open m w = true ->
  has_key (nout w) (j_out (jr w)) = false -> 0 <= nout w <= I64MAX ->
  send_msg c m w
  = let f := mkMsg (mtype m) (wire_tags c (nout w) m) in
    if wr w then mkR (inl tt) (journaled f w) [Wire f] else mkR (inr XAttribute) (journaled f w) [].
Proof.
  intros * Hk R J G K B. rewrite send_msg_gate, send_gate_open, bind_ret by assumption. apply send_write_new; assumption.
Qed.

(* a reply to a ResendRequest: it carries its own number and is not journaled *)
Lemma send_msg_reply : forall c m n w,
  mkind m <> KTestReq -> raw_seq m = true -> skip_journal m = true -> get T34 (mtags m) = Some (z_to_dec n) ->
  0 <= n <= I64MAX -> gate_open m w = true -> wr w = true ->
  send_msg c m w = mkR (inl tt) w [Wire (mkMsg (mtype m) (wire_tags c n m))].
Proof.
  intros * Hk R J G B Go Hw. rewrite send_msg_gate, send_gate_open, bind_ret by assumption.
  unfold send_write, encode. rewrite R, J, G, py_int_dec by exact B.
  mrun ltac:(rewrite ?Hw). reflexivity.
Qed.

Lemma send_app : forall c r ni no mr lt wrt so si rows ins id,
  keys_lt no rows -> 0 < no <= I64MAX ->
  send_msg c (app_msg id) (W ST_ACTIVE r ni no mr lt wrt so si rows ins)
  = let w' := W ST_ACTIVE r ni (no + 1) mr lt wrt no si (rows ++ [(no, wapp c no id)]) ins in
    if wrt then mkR (inl tt) w' [Wire (wapp c no id)] else mkR (inr XAttribute) w' [].
Proof.
  intros * K B. apply send_msg_new; [discriminate | reflexivity | reflexivity | reflexivity | exact (has_key_lt _ _ K) | cbn; lia].
Qed.

Lemma send_logon : forall c r ni no so si rows ins,
  keys_lt no rows -> 0 < no <= I64MAX ->
  send_msg c logon_msg (W ST_NCE r ni no 0 0 true so si rows ins)
  = mkR (inl tt) (W ST_LOGON_SENT ROLE_INITIATOR ni (no + 1) 0 0 true no si (rows ++ [(no, wlogon c no)]) ins)
        [State ST_LOGON_SENT; Wire (wlogon c no)].
Proof.
  intros * K B. rewrite send_msg_gate by discriminate. unfold send_gate, state_set.
  change (mkind logon_msg) with KLogon. mrun idtac.
  rewrite send_write_new by (reflexivity || exact (has_key_lt _ _ K) || (cbn; unfold I64MAX; stlia)). reflexivity.
Qed.

(* the transport is lost in any connected state *)
Lemma disconnect_conn : forall c s r ni no mr lt wrt so si rows ins,
  ST_DISC_BROKEN < s ->
  disconnect c ST_DISC_BROKEN None (W s r ni no mr lt wrt so si rows ins)
  = mkR (inl tt) (W ST_DISC_BROKEN r ni no 0 0 false so si rows ins) [State ST_DISC_BROKEN; OnDisconnect].
Proof. intros * S. unfold disconnect, state_set. mrun idtac. reflexivity. Qed.

(* a received message: the header fields _process_message reads *)
Record rcvd (c : cfg) (n : Z) (m : msg) : Prop := mkRcvd {
  rc_begin : get T8 (mtags m) = Some (c_begin c);
  rc_sender : get T49 (mtags m) = Some (c_target c);
  rc_target : get T56 (mtags m) = Some (c_sender c);
  rc_seq : get T34 (mtags m) = Some (z_to_dec n) }.

Lemma validate_ok : forall c n m w, rcvd c n m -> nin w <= n <= I64MAX -> 0 <= n ->
  validate_integrity c m w = VOk.
Proof.
  intros c n m w [H8 H49 H56 H34] B1 B2. unfold validate_integrity.
  rewrite H8, H49, H56, H34, !str_eqb_refl, py_int_dec by lia. cbn [negb andb].
  replace (n <? nin w) with false by lia. reflexivity.
Qed.

(* an application message with the expected number, while ACTIVE or below the watermark while waiting for a resend *)
Lemma recv_app : forall c m s r ni no mr lt so si rows ins,
  rcvd c ni m -> mkind m = KApp -> all_lt ni ins -> 0 < ni <= I64MAX ->
  s = ST_ACTIVE \/ s = ST_AWAITING /\ ni < mr ->
  process_message c m NOW0 (W s r ni no mr lt true so si rows ins)
  = mkR (inl tt) (W s r (ni + 1) no mr NOW0 true so ni rows (ins ++ [ni])) [App m].
Proof.
  intros * R Hk K B S. unfold process_message. rewrite (validate_ok c ni) by (assumption || cbn; lia).
  destruct R as [_ _ _ H34]. pose proof (existsb_lt _ _ K) as HK.
  unfold part1, early_drop, pre_handlers, gap_check, check_gaps, after_part1, dispatch, finalize, set_next_num_in,
    finalize_tail, persist_in, get_int.
  rewrite Hk, H34, py_int_dec, py_int_bytes_dec by lia.
  destruct S as [->|[-> S]]; mrun ltac:(rewrite ?HK); reflexivity.
Qed.

(* what _process_message reads in the peer's Logon *)
Lemma logon_frame : forall c s, let m := recv_of c (wlogon (peer c) s) in
  rcvd c s m /\ mkind m = KLogon /\ get T98 (mtags m) = Some S_0 /\ get T108 (mtags m) = Some [51; 48]%N.
Proof. intros. repeat split. Qed.

(* the acceptor on a new transport gets the initiator's Logon, numbered as expected (nothing was lost) *)
Lemma recv_logon_exact : forall c r ni no so si rows ins,
  all_lt ni ins -> keys_lt no rows -> 0 < ni <= I64MAX -> 0 < no <= I64MAX ->
  process_message c (recv_of c (wlogon (peer c) ni)) NOW0 (W ST_NCE r ni no 0 0 true so si rows ins)
  = mkR (inl tt) (W ST_ACTIVE ROLE_ACCEPTOR (ni + 1) (no + 1) 0 NOW0 true no ni (rows ++ [(no, wlogon c no)]) (ins ++ [ni]))
        [State ST_LOGON_RECV; Wire (wlogon c no); State ST_ACTIVE; OnLogon true].
Proof.
  intros * K1 K2 B1 B2. destruct (logon_frame c ni) as [R [Hk [H98 H108]]]. set (m := recv_of c _) in *. clearbody m.
  unfold process_message. rewrite (validate_ok c ni) by (assumption || cbn; lia).
  destruct R as [_ _ _ H34]. pose proof (existsb_lt _ _ K1) as HK1. pose proof (has_key_lt _ _ K2) as HK2.
  unfold part1, early_drop, pre_handlers, process_logon, gap_check, check_gaps, after_part1, dispatch, finalize,
    set_next_num_in, finalize_tail, persist_in, get_int, get_tag, state_set.
  rewrite Hk, H34, H98, H108, py_int_dec, py_int_bytes_dec by lia.
  mrun ltac:(rewrite ?HK1, ?send_msg_new by first [discriminate | reflexivity | exact HK2 | cbn; unfold I64MAX; stlia]). reflexivity.
Qed.

(* ... numbered above the expected number: Logon reply, one ResendRequest, wait *)
Lemma recv_logon_high : forall c r ni no so si rows ins s,
  keys_lt no rows -> 0 < ni < s -> s <= I64MAX -> 0 < no < I64MAX ->
  process_message c (recv_of c (wlogon (peer c) s)) NOW0 (W ST_NCE r ni no 0 0 true so si rows ins)
  = mkR (inl tt) (W ST_AWAITING ROLE_ACCEPTOR ni (no + 2) s 0 true (no + 1) si (rows ++ [(no, wlogon c no); (no + 1, wrr c (no + 1) ni)]) ins)
        [State ST_LOGON_RECV; Wire (wlogon c no); State ST_TOO_HIGH; OnLogon false; Wire (wrr c (no + 1) ni); State ST_AWAITING].
Proof.
  intros * K2 B1 B2 B3. destruct (logon_frame c s) as [R [Hk [H98 H108]]]. set (m := recv_of c _) in *. clearbody m.
  unfold process_message. rewrite (validate_ok c s) by (assumption || cbn; lia).
  destruct R as [_ _ _ H34]. pose proof (has_key_lt _ _ K2) as HK2.
  assert (HK3 : forall x, has_key (no + 1) (rows ++ [(no, x)]) = false).
  { intros x. apply has_key_lt, Forall_app. split; [eapply Forall_impl; [|exact K2]; cbn; lia | repeat constructor; cbn; lia]. }
  unfold part1, early_drop, pre_handlers, process_logon, gap_check, check_gaps, after_part1, dispatch,
    get_int, get_tag, state_set.
  rewrite Hk, H34, H98, H108, py_int_dec by lia.
  mrun ltac:(rewrite ?send_msg_new by first [discriminate | reflexivity | exact HK2 | apply HK3 | cbn; unfold I64MAX; stlia]). fin.
Qed.

(* the initiator gets the acceptor's Logon reply, numbered as expected *)
Lemma recv_logon_reply : forall c ni no so si rows ins,
  all_lt ni ins -> 0 < ni <= I64MAX ->
  process_message c (recv_of c (wlogon (peer c) ni)) NOW0 (W ST_LOGON_SENT ROLE_INITIATOR ni no 0 0 true so si rows ins)
  = mkR (inl tt) (W ST_ACTIVE ROLE_INITIATOR (ni + 1) no 0 NOW0 true so ni rows (ins ++ [ni])) [State ST_ACTIVE; OnLogon true].
Proof.
  intros * K1 B1. destruct (logon_frame c ni) as [R [Hk _]]. set (m := recv_of c _) in *. clearbody m.
  unfold process_message. rewrite (validate_ok c ni) by (assumption || cbn; lia).
  destruct R as [_ _ _ H34]. pose proof (existsb_lt _ _ K1) as HK1.
  unfold part1, early_drop, pre_handlers, process_logon, gap_check, check_gaps, after_part1, dispatch, finalize,
    set_next_num_in, finalize_tail, persist_in, get_int, state_set.
  rewrite Hk, H34, py_int_dec, py_int_bytes_dec by lia.
  mrun ltac:(rewrite ?HK1). reflexivity.
Qed.

(* ... numbered above the expected number: one ResendRequest, wait *)
Lemma recv_logon_reply_high : forall c ni no so si rows ins s,
  keys_lt no rows -> 0 < ni < s -> s <= I64MAX -> 0 < no <= I64MAX ->
  process_message c (recv_of c (wlogon (peer c) s)) NOW0 (W ST_LOGON_SENT ROLE_INITIATOR ni no 0 0 true so si rows ins)
  = mkR (inl tt) (W ST_AWAITING ROLE_INITIATOR ni (no + 1) s 0 true no si (rows ++ [(no, wrr c no ni)]) ins)
        [State ST_TOO_HIGH; OnLogon false; Wire (wrr c no ni); State ST_AWAITING].
Proof.
  intros * K2 B1 B2 B3. destruct (logon_frame c s) as [R [Hk _]]. set (m := recv_of c _) in *. clearbody m.
  unfold process_message. rewrite (validate_ok c s) by (assumption || cbn; lia).
  destruct R as [_ _ _ H34]. pose proof (has_key_lt _ _ K2) as HK2.
  unfold part1, early_drop, pre_handlers, process_logon, gap_check, check_gaps, after_part1, dispatch, get_int, state_set.
  rewrite Hk, H34, py_int_dec by lia.
  mrun ltac:(rewrite ?send_msg_new by first [discriminate | reflexivity | exact HK2 | cbn; unfold I64MAX; stlia]). reflexivity.
Qed.

(* Journaler.set_seq_num(next_num_in = v) on a journal below the counters: the stored counters follow, no row goes *)
Lemma set_seq_num_in : forall v s r ni no mr lt wrt so si rows ins,
  all_lt v ins -> keys_lt no rows -> 0 < v <= I64MAX -> 0 < no <= I64MAX ->
  set_seq_num None (Some v) (W s r ni no mr lt wrt so si rows ins)
  = mkR (inl tt) (W s r v no mr lt wrt (no - 1) (v - 1) rows ins) [].
Proof.
  intros * K1 K2 B1 B2. unfold set_seq_num, modw.
  mrun ltac:(rewrite ?(filter_true _ _ ins), ?(filter_true _ _ rows) by (eapply Forall_impl; [|eassumption]; cbn; lia)).
  reflexivity.
Qed.

(* waiting for the resend: the gap fill  ni -> e  that reaches the watermark returns it to ACTIVE *)
Lemma recv_gf : forall c r ni e mr lt no so si rows ins,
  all_lt ni ins -> keys_lt no rows -> 0 < ni < e -> 0 < mr <= e - 1 -> e <= I64MAX -> 0 < no <= I64MAX ->
  process_message c (recv_of c (wgf (peer c) ni e)) NOW0 (W ST_AWAITING r ni no mr lt true so si rows ins)
  = mkR (inl tt) (W ST_ACTIVE r e no 0 NOW0 true (no - 1) ni rows (ins ++ [ni])) [State ST_ACTIVE].
Proof.
  intros * K1 K2 B1 B2 B3 B4. set (m := recv_of c _).
  assert (R : rcvd c ni m) by (split; reflexivity). assert (Hk : mkind m = KSeqReset) by reflexivity.
  assert (H36 : get T36 (mtags m) = Some (z_to_dec e)) by reflexivity. clearbody m.
  unfold process_message. rewrite (validate_ok c ni) by (assumption || cbn; lia).
  destruct R as [_ _ _ H34]. pose proof (existsb_lt _ _ K1) as HK1.
  assert (K3 : all_lt e ins) by (eapply Forall_impl; [|exact K1]; cbn; lia).
  unfold part1, early_drop, pre_handlers, process_seqreset, gap_check, check_gaps, after_part1, dispatch,
    finalize, set_next_num_in, finalize_tail, persist_in, get_int, state_set.
  rewrite Hk, H34, H36, !py_int_dec, py_int_bytes_dec by lia.
  mrun ltac:(rewrite ?HK1, ?set_seq_num_in by (assumption || unfold I64MAX; stlia)). reflexivity.
Qed.

(* k consecutive items: the message number s and the payload id i run in parallel *)
Fixpoint gen {A} (f : Z -> Z -> A) (s i : Z) (k : nat) : list A :=
  match k with
  | O => []
  | S k' => f s i :: gen f (s + 1) (i + 1) k'
  end.

Lemma gen_app : forall A (f : Z -> Z -> A) a b s i,
  gen f s i (a + b) = gen f s i a ++ gen f (s + Z.of_nat a) (i + Z.of_nat a) b.
Proof.
  induction a as [|a IH]; intros b s i.
  - cbn. rewrite !Z.add_0_r. reflexivity.
  - cbn [Nat.add gen app]. rewrite IH.
    replace (s + 1 + Z.of_nat a) with (s + Z.of_nat (S a)) by lia.
    replace (i + 1 + Z.of_nat a) with (i + Z.of_nat (S a)) by lia. reflexivity.
Qed.

Lemma gen_snoc : forall A (f : Z -> Z -> A) k s i,
  gen f s i (S k) = gen f s i k ++ [f (s + Z.of_nat k) (i + Z.of_nat k)].
Proof. intros. replace (S k) with (k + 1)%nat by lia. apply gen_app. Qed.

Lemma gen_map : forall A B (g : A -> B) (f : Z -> Z -> A) k s i,
  map g (gen f s i k) = gen (fun s i => g (f s i)) s i k.
Proof. induction k as [|k IH]; intros; [reflexivity|]. cbn. rewrite IH. reflexivity. Qed.

Lemma gen_Forall : forall A (P : A -> Prop) (f : Z -> Z -> A) k s i,
  (forall j, (j < k)%nat -> P (f (s + Z.of_nat j) (i + Z.of_nat j))) -> Forall P (gen f s i k).
Proof.
  induction k as [|k IH]; intros s i H; [constructor|]. cbn. constructor.
  - specialize (H 0%nat). cbn in H. replace (s + 0) with s in H by lia. replace (i + 0) with i in H by lia. apply H. lia.
  - apply IH. intros j Hj. specialize (H (S j)).
    replace (s + 1 + Z.of_nat j) with (s + Z.of_nat (S j)) by lia.
    replace (i + 1 + Z.of_nat j) with (i + Z.of_nat (S j)) by lia. apply H. lia.
Qed.

Lemma gen_length : forall A (f : Z -> Z -> A) k s i, length (gen f s i k) = k.
Proof. induction k as [|k IH]; intros; [reflexivity|]. cbn. rewrite IH. reflexivity. Qed.

Definition rows_app (c : cfg) (s i : Z) (k : nat) : list (Z * msg) := gen (fun s i => (s, wapp c s i)) s i k.
Definition frames_app (c : cfg) (s i : Z) (k : nat) : list msg := gen (fun s i => wapp c s i) s i k.
Definition frames_pd (c : cfg) (s i : Z) (k : nat) : list msg := gen (fun s i => wpd c s i) s i k.

(* a journaled application message is retransmitted (written, not journaled: the world does not change) *)
Lemma replay_app : forall c s i gfe rest w,
  (forall m, c_replay c m = true) -> ST_LOGON_RECV < st w -> wr w = true -> gfe <= s -> 0 < s <= I64MAX ->
  replay_loop c ((s, wapp c s i) :: rest) s gfe w
  = prepend [Wire (wpd c s i)] (replay_loop c rest (s + 1) gfe w).
Proof.
  intros * Hrep G Hw B1 B2. cbn [replay_loop].
  mrun ltac:(cbv beta iota zeta delta -[bind send_msg replay_loop py_int z_to_dec Z.add Z.ltb c_replay c_time c_sender c_target
                                        c_begin payload ret prepend app];
             rewrite ?Hrep, ?py_int_dec by (unfold I64MAX; stlia)).
  rewrite (send_msg_reply c _ s w) by (discriminate || reflexivity || assumption || (apply gate_open_conn; assumption) || (unfold I64MAX; stlia)).
  rewrite prepend_nil. reflexivity.
Qed.

Lemma replay_apps : forall c k s i gfe rest w,
  (forall m, c_replay c m = true) -> ST_LOGON_RECV < st w -> wr w = true -> gfe <= s -> 0 < s -> s + Z.of_nat k <= I64MAX + 1 ->
  replay_loop c (rows_app c s i k ++ rest) s gfe w
  = prepend (map Wire (frames_pd c s i k)) (replay_loop c rest (s + Z.of_nat k) gfe w).
Proof.
  induction k as [|k IH]; intros * Hrep G Hw B1 B2 B3.
  - cbn. rewrite prepend_nil, Z.add_0_r. reflexivity.
  - cbn [rows_app frames_pd gen app map]. rewrite replay_app by (assumption || lia).
    fold (rows_app c (s + 1) (i + 1) k). rewrite IH by (assumption || lia).
    rewrite prepend_prepend. replace (s + 1 + Z.of_nat k) with (s + Z.of_nat (S k)) by lia. reflexivity.
Qed.

(* journaled session-level messages (Logon, ResendRequest) numbered s, s + 1, ...: they are not retransmitted *)
Fixpoint admin_run (s : Z) (l : list (Z * msg)) : Prop :=
  match l with
  | [] => True
  | r :: l' => fst r = s /\ is_noreply (mtype (snd r)) = true /\ get T34 (mtags (snd r)) = Some (z_to_dec s)
               /\ admin_run (s + 1) l'
  end.

Lemma get_app : forall t l l' v, get t l = Some v -> get t (l ++ l') = Some v.
Proof.
  induction l as [|[k x] l IH]; intros l' v H; [discriminate|]. cbn in *. destruct (str_eqb k t); [exact H | apply IH, H].
Qed.

(* the loop over such rows writes nothing: the gap to fill grows *)
Lemma replay_admin1 : forall c n m rest gfb gfe w,
  is_noreply (mtype m) = true -> get T34 (mtags m) = Some (z_to_dec n) -> 0 <= n <= I64MAX ->
  replay_loop c ((n, m) :: rest) gfb gfe w = replay_loop c rest gfb (n + 1) w.
Proof.
  intros * A1 A2 B. cbn [replay_loop]. unfold get_int, get_tag. rewrite (get_app T34 (mtags m) [(T10, S_0)] _ A2 : get T34 (mtags (decode_row c (n, m))) = _), py_int_dec by exact B.
  change (get T35 (mtags (decode_row c (n, m)))) with (Some (mtype m)). cbn [lift]. rewrite !bind_ret, A1. reflexivity.
Qed.

Lemma replay_admin : forall c l s gfb gfe w,
  admin_run s l -> l <> [] -> 0 <= s -> s + Z.of_nat (length l) <= I64MAX + 1 ->
  replay_loop c l gfb gfe w = mkR (inl (gfb, s + Z.of_nat (length l))) w [].
Proof.
  intros c l s gfb gfe w A Hl. destruct l as [|r0 l]; [contradiction|]. clear Hl. revert r0 s gfe A.
  induction l as [|r1 l IH]; intros [n m] s gfe [E [A1 [A2 A3]]] B1 B2; cbn [fst snd length] in *; subst n;
    rewrite replay_admin1 by (assumption || lia).
  - reflexivity.
  - rewrite (IH r1 (s + 1)) by (assumption || (cbn [length]; lia)).
    replace (s + 1 + Z.of_nat (S (length l))) with (s + Z.of_nat (S (S (length l)))) by lia.
    reflexivity.
Qed.

Fixpoint incr (l : list (Z * msg)) : Prop :=
  match l with
  | [] => True
  | r :: l' => match l' with [] => True | r' :: _ => fst r <= fst r' end /\ incr l'
  end.

Lemma sort_rows_incr : forall l, incr l -> sort_rows l = l.
Proof.
  induction l as [|r l IH]; intros H; [reflexivity|].
  cbn [sort_rows fold_right]. fold (sort_rows l). destruct H as [H1 H2]. rewrite IH by assumption.
  destruct l as [|r' l']; [reflexivity|]. cbn [insert_row].
  replace (fst r <=? fst r') with true by lia. reflexivity.
Qed.

Lemma incr_gen_app : forall (g : Z -> Z -> msg) k s i l2,
  incr l2 -> (forall r, hd_error l2 = Some r -> s + Z.of_nat k <= fst r) ->
  incr (gen (fun s i => (s, g s i)) s i k ++ l2).
Proof.
  induction k as [|k IH]; intros s i l2 H1 H2; [exact H1|].
  cbn [gen app]. cbn [incr]. split.
  - destruct k.
    + cbn [gen app]. destruct l2 as [|r l2]; [exact I|]. specialize (H2 r eq_refl). cbn [fst]. lia.
    + cbn [gen app fst]. lia.
  - apply IH; [exact H1|]. intros r Hr. specialize (H2 r Hr). lia.
Qed.

Lemma admin_run_incr : forall l s, admin_run s l ->
  incr l /\ Forall (fun r : Z * msg => s <= fst r < s + Z.of_nat (length l)) l.
Proof.
  induction l as [|r l IH]; intros s A; [split; constructor|]. destruct A as [E [_ [_ A]]].
  destruct (IH _ A) as [I F]. split.
  - split; [|exact I]. destruct l as [|r' l]; [exact I|]. destruct A as [E' _]. lia.
  - constructor; [cbn [length]; lia|]. eapply Forall_impl; [|exact F]. cbn [length]. intros; lia.
Qed.

(* recover_messages(OUTBOUND, b, M) on  pre ++ (k rows from b) ++ (session-level rows above them) *)
Lemma recover_range : forall c pre b i k suf M,
  keys_lt b pre -> admin_run (b + Z.of_nat k) suf -> b + Z.of_nat k + Z.of_nat (length suf) <= M + 1 ->
  sort_rows (filter (fun r : Z * msg => (b <=? fst r) && (fst r <=? M)) (pre ++ rows_app c b i k ++ suf))
  = rows_app c b i k ++ suf.
Proof.
  intros * K A HM. unfold rows_app. destruct (admin_run_incr _ _ A) as [I F]. rewrite !filter_app.
  rewrite (filter_false _ _ pre), (filter_true _ _ (gen _ b i k)), (filter_true _ _ suf).
  - apply sort_rows_incr, incr_gen_app; [exact I|].
    intros r Hr. destruct suf as [|r0 suf]; [discriminate|]. injection Hr as <-. inversion F; subst. lia.
  - eapply Forall_impl; [|exact F]. cbn. lia.
  - apply gen_Forall. intros q Hq. cbn. lia.
  - eapply Forall_impl; [|exact K]. cbn. lia.
Qed.

(* what _process_message reads in the peer's ResendRequest(b, 0) *)
Lemma rr_frame : forall c s b, let m := recv_of c (wrr (peer c) s b) in
  rcvd c s m /\ mkind m = KResend /\ get T7 (mtags m) = Some (z_to_dec b) /\ get T16 (mtags m) = Some S_0.
Proof. intros. repeat split. Qed.

(* a configuration as Net.v uses it: sys.maxsize, every message is replayed *)
Definition cfg_ok (c : cfg) : Prop := c_maxsize c = I64MAX /\ forall m, c_replay c m = true.

(* _process_resend for a ResendRequest(b, 0) over a journal  pre ++ (k application messages b ..) ++ (session-level
   messages up to next_num_out): k retransmissions and one gap fill are written; the journal and the counters stay
   as they are.  Waiting for a resend itself the end stays so, otherwise it passes through RESENDREQ_HANDLING. *)
Lemma serve_resend : forall c m s0 r ni no mr lt so si pre ins b i k suf,
  cfg_ok c -> get T7 (mtags m) = Some (z_to_dec b) -> get T16 (mtags m) = Some S_0 ->
  keys_lt b pre -> admin_run (b + Z.of_nat k) suf -> suf <> [] ->
  no = b + Z.of_nat k + Z.of_nat (length suf) -> 0 < b -> no <= I64MAX -> s0 = ST_ACTIVE \/ s0 = ST_AWAITING ->
  let w := W s0 r ni no mr lt true so si (pre ++ rows_app c b i k ++ suf) ins in
  let replies := map Wire (frames_pd c b i k) ++ [Wire (wgf c (b + Z.of_nat k) no)] in
  process_resend c m w = mkR (inl tt) w (if s0 =? ST_AWAITING then replies else State ST_HANDLING :: replies ++ [State ST_ACTIVE]).
Proof.
  intros * [Hmax Hrep] H7 H16 K A Hs EL B1 B2 S w replies. subst w replies.
  assert (E16 : py_int S_0 = Some 0) by reflexivity.
  assert (Hlen : (0 < length suf)%nat) by (destruct suf; [contradiction | cbn; lia]).
  unfold process_resend, recover_out, get_int, state_set. rewrite H7, H16, E16, Hmax, py_int_dec by lia.
  destruct S as [-> | ->]; mrun idtac;
    rewrite recover_range, replay_apps, (replay_admin c suf (b + Z.of_nat k)), <- EL
      by first [assumption | cbn; unfold I64MAX; stlia];
    mrun idtac; rewrite (Z.min_l no) by lia; mrun idtac;
    rewrite (send_msg_reply c _ (b + Z.of_nat k)) by first [discriminate | reflexivity | cbn; unfold I64MAX; stlia];
    mrun idtac; fin.
Qed.

(* ACTIVE and numbered as expected: the request is served and counted *)
Lemma recv_resend_request : forall c r ni no lt so si pre ins b i k suf,
  cfg_ok c -> all_lt ni ins -> keys_lt b pre -> admin_run (b + Z.of_nat k) suf -> suf <> [] ->
  no = b + Z.of_nat k + Z.of_nat (length suf) -> 0 < ni <= I64MAX -> 0 < b -> no <= I64MAX ->
  let J := pre ++ rows_app c b i k ++ suf in
  process_message c (recv_of c (wrr (peer c) ni b)) NOW0 (W ST_ACTIVE r ni no 0 lt true so si J ins)
  = mkR (inl tt) (W ST_ACTIVE r (ni + 1) no 0 NOW0 true so ni J (ins ++ [ni]))
        ([State ST_HANDLING] ++ map Wire (frames_pd c b i k) ++ [Wire (wgf c (b + Z.of_nat k) no); State ST_ACTIVE]).
Proof.
  intros * C K1 K2 A Hs EL B1 B2 B3 J. destruct (rr_frame c ni b) as [R [Hk [H7 H16]]].
  set (m := recv_of c _) in *. clearbody m. unfold process_message.
  rewrite (validate_ok c ni) by (assumption || cbn; lia).
  destruct R as [_ _ _ H34]. pose proof (existsb_lt _ _ K1) as HK1.
  unfold part1, early_drop, pre_handlers, gap_check, check_gaps, after_part1, dispatch,
    restore_handling, finalize, set_next_num_in, finalize_tail, persist_in, get_int, state_set.
  rewrite Hk, H34, !py_int_dec, py_int_bytes_dec by lia. subst J.
  mrun ltac:(rewrite ?HK1, ?(serve_resend c m ST_ACTIVE) by (assumption || (left; reflexivity))). fin.
Qed.

(* itself waiting for a resend and numbered above the expected number: the request is served, nothing is counted *)
Lemma recv_rr_awaiting : forall c r ni s no mr lt so si pre ins b i k suf,
  cfg_ok c -> keys_lt b pre -> admin_run (b + Z.of_nat k) suf -> suf <> [] ->
  no = b + Z.of_nat k + Z.of_nat (length suf) -> 0 < ni < s -> s <= I64MAX -> 0 < b -> no <= I64MAX ->
  let J := pre ++ rows_app c b i k ++ suf in
  process_message c (recv_of c (wrr (peer c) s b)) NOW0 (W ST_AWAITING r ni no mr lt true so si J ins)
  = mkR (inl tt) (W ST_AWAITING r ni no mr lt true so si J ins)
        (map Wire (frames_pd c b i k) ++ [Wire (wgf c (b + Z.of_nat k) no)]).
Proof.
  intros * C K2 A Hs EL B1 B2 B3 B4 J. destruct (rr_frame c s b) as [R [Hk [H7 H16]]].
  set (m := recv_of c _) in *. clearbody m. unfold process_message.
  rewrite (validate_ok c s) by (assumption || cbn; lia).
  destruct R as [_ _ _ H34].
  unfold part1, early_drop, pre_handlers, gap_check, check_gaps, after_part1, dispatch, restore_handling, get_int, state_set.
  rewrite Hk, H34, !py_int_dec by lia. subst J.
  mrun ltac:(rewrite ?(serve_resend c m ST_AWAITING) by (assumption || (right; reflexivity))). fin.
Qed.

Definition texts (i : Z) (k : nat) : list str := gen (fun _ i => payload i) i i k.
Definition nums (s : Z) (k : nat) : list Z := gen (fun s _ => s) s s k.
Definition logons (c : cfg) (s : Z) (m : nat) : list (Z * msg) := gen (fun s _ => (s, wlogon c s)) s s m.

Lemma keys_lt_app : forall b l1 l2, keys_lt b l1 -> keys_lt b l2 -> keys_lt b (l1 ++ l2).
Proof. intros. apply Forall_app. split; assumption. Qed.
Lemma all_lt_app : forall b l1 l2, all_lt b l1 -> all_lt b l2 -> all_lt b (l1 ++ l2).
Proof. intros. apply Forall_app. split; assumption. Qed.
Lemma keys_lt_weaken : forall b c l, keys_lt b l -> b <= c -> keys_lt c l.
Proof. intros b c l H Hc. eapply Forall_impl; [|exact H]. cbn. intros. lia. Qed.
Lemma all_lt_weaken : forall b c l, all_lt b l -> b <= c -> all_lt c l.
Proof. intros b c l H Hc. eapply Forall_impl; [|exact H]. cbn. intros. lia. Qed.
Lemma keys_lt_gen : forall (g : Z -> Z -> msg) k s i b, s + Z.of_nat k <= b -> keys_lt b (gen (fun s i => (s, g s i)) s i k).
Proof. intros. apply gen_Forall. intros j Hj. cbn. lia. Qed.
Lemma all_lt_nums : forall k s b, s + Z.of_nat k <= b -> all_lt b (nums s k).
Proof. intros. apply gen_Forall. intros j Hj. cbn. lia. Qed.
Lemma keys_lt_cons : forall b n (m : msg) l, n < b -> keys_lt b l -> keys_lt b ((n, m) :: l).
Proof. intros. constructor; assumption. Qed.
Lemma all_lt_cons : forall b n l, n < b -> all_lt b l -> all_lt b (n :: l).
Proof. intros. constructor; assumption. Qed.

(* set_seq_num(next_num_out = b): rows at or above b go *)
Lemma truncate_at : forall pre post b,
  keys_lt b pre -> Forall (fun r : Z * msg => b <= fst r) post ->
  filter (fun r : Z * msg => fst r <? b) (pre ++ post) = pre.
Proof.
  intros * K P. rewrite filter_app, (filter_true _ _ pre), (filter_false _ _ post), app_nil_r; [reflexivity| |].
  - eapply Forall_impl; [|exact P]. cbn. intros [a m] Ha. apply Z.ltb_ge. assumption.
  - eapply Forall_impl; [|exact K]. cbn. intros [a m] Ha. apply Z.ltb_lt. assumption.
Qed.

Lemma keep_all : forall l c, keys_lt c l -> filter (fun r : Z * msg => fst r <? c) l = l.
Proof.
  intros l c K. apply filter_true. eapply Forall_impl; [|exact K]. cbn. intros [a m] Ha. apply Z.ltb_lt. assumption.
Qed.

Lemma ge_gen : forall (g : Z -> Z -> msg) k s i b, b <= s -> Forall (fun r : Z * msg => b <= fst r) (gen (fun s i => (s, g s i)) s i k).
Proof. intros. apply gen_Forall. intros j Hj. cbn. lia. Qed.

(* THE INVARIANT of the recovery proofs: what each end has journaled before the part in question is numbered below what
   the other end expects (outbound rows) / below what the end itself expects (inbound numbers).  It is what makes a
   fresh number absent from the journal (has_key_lt, existsb_lt) and a requested range start where it should
   (recover_range); the step lemmas ask for it piecewise (keys_lt, all_lt) and the database jw re-establishes it after
   every step: the lists only grow by pieces that are below the new counters. *)
Definition below (xa xb : Z) (preA preB : list (Z * msg)) (insA insB : list Z) : Prop :=
  keys_lt xb preA /\ keys_lt xa preB /\ all_lt xa insA /\ all_lt xb insB.

Create HintDb jw discriminated.
#[export] Hint Resolve keys_lt_app all_lt_app keys_lt_cons all_lt_cons : jw.
#[export] Hint Extern 1 (below _ _ _ _ _ _) => unfold below; repeat split : jw.
#[export] Hint Extern 1 (keys_lt _ []) => constructor : jw.
#[export] Hint Extern 1 (all_lt _ []) => constructor : jw.
#[export] Hint Extern 1 (keys_lt _ (rows_app _ _ _ _)) => apply keys_lt_gen; lia : jw.
#[export] Hint Extern 1 (keys_lt _ (logons _ _ _)) => apply keys_lt_gen; lia : jw.
#[export] Hint Extern 1 (all_lt _ (nums _ _)) => apply all_lt_nums; lia : jw.
#[export] Hint Extern 3 (keys_lt _ _) => eapply keys_lt_weaken; [eassumption | lia] : jw.
#[export] Hint Extern 3 (all_lt _ _) => eapply all_lt_weaken; [eassumption | lia] : jw.
#[export] Hint Extern 1 (_ < _) => unfold I64MAX in *; stlia : jw.
#[export] Hint Extern 1 (_ <= _) => unfold I64MAX in *; stlia : jw.
#[export] Hint Extern 1 (_ <= _ /\ _) => unfold I64MAX in *; stlia : jw.
#[export] Hint Extern 1 (_ < _ /\ _) => unfold I64MAX in *; stlia : jw.

Lemma admin_logons : forall c m s, admin_run s (logons c s m).
Proof. induction m as [|m IH]; intros s; [exact I|]. cbn [logons gen admin_run fst snd]. repeat split. apply IH. Qed.

(* On an explicit network the operations of Net.v are computed; the library calls on a world, the frames and the
   runs of rows stay folded, for the step lemmas to rewrite them. *)
Ltac nopen :=
  cbn -[Nat.ltb length drain run process_message send_msg disconnect recv_of wapp wlogon wrr wpd wgf
        rows_app frames_app frames_pd logons texts nums Z.add Z.sub Z.of_nat gen payload app_msg logon_msg].

Lemma run_app : forall l1 l2 n, run n (l1 ++ l2) = run (run n l1) l2.
Proof. intros. unfold run. apply fold_left_app. Qed.

(* `wires` and `apps` of retransmissions, in the form `nopen` leaves them in *)
Lemma wires_map_wire : forall l, flat_map (fun e => match e with Wire m => [m] | _ => [] end) (map Wire l) = l.
Proof. induction l as [|m l IH]; [reflexivity|]. cbn. f_equal. exact IH. Qed.
Lemma apps_map_wire : forall l,
  flat_map (fun e => match e with App m => [get T58 (mtags m)] | _ => [] end) (map Wire l) = [].
Proof. induction l as [|m l IH]; [reflexivity|]. cbn. exact IH. Qed.

Lemma drain_S : forall f n,
  drain (S f) n = if pending SB n then drain f (do_deliver SB n)
                  else if pending SA n then drain f (do_deliver SA n) else n.
Proof. reflexivity. Qed.

Lemma drain_quiet : forall f n, pending SB n = false -> pending SA n = false -> drain f n = n.
Proof. intros f n H1 H2. destruct f; [reflexivity|]. rewrite drain_S, H1, H2. reflexivity. Qed.

Lemma drain_add : forall a f n, drain (a + f) n = drain f (drain a n).
Proof.
  induction a as [|a IH]; intros f n; [reflexivity|].
  cbn [Nat.add]. rewrite !drain_S.
  destruct (pending SB n) eqn:P1; [apply IH|].
  destruct (pending SA n) eqn:P2; [apply IH|].
  symmetry. apply drain_quiet; assumption.
Qed.

(* a network seen from side sd: its own world, channel, application first *)
Definition mkNetS (sd : side) (w wp : world) (out inc : list msg) (g gp : list (option str)) (s sp : list str)
                  (id : Z) : net :=
  match sd with
  | SA => mkNet w wp out inc g gp s sp id
  | SB => mkNet wp w inc out gp g sp s id
  end.

Lemma from_SA : forall w wp out inc g gp s sp id, mkNet w wp out inc g gp s sp id = mkNetS SA w wp out inc g gp s sp id.
Proof. reflexivity. Qed.
Lemma from_SB : forall w wp out inc g gp s sp id, mkNet wp w inc out gp g sp s id = mkNetS SB w wp out inc g gp s sp id.
Proof. reflexivity. Qed.

(* k application sends of side sd while ACTIVE *)
Lemma sends : forall sd k r ni no lt so si rows ins wp out inc g gp s sp id,
  keys_lt no rows -> 0 < no -> no + Z.of_nat k <= I64MAX -> so = no - 1 ->
  run (mkNetS sd (W ST_ACTIVE r ni no 0 lt true so si rows ins) wp out inc g gp s sp id) (repeat (ASend sd) k)
  = mkNetS sd (W ST_ACTIVE r ni (no + Z.of_nat k) 0 lt true (so + Z.of_nat k) si (rows ++ rows_app (cfg_of sd) no id k) ins) wp
           (out ++ frames_app (cfg_of sd) no id k) inc g gp (s ++ texts id k) sp (id + Z.of_nat k).
Proof.
  intros sd. induction k as [|k IH]; intros * K B1 B2 E.
  - cbn [repeat run fold_left rows_app frames_app texts gen]. rewrite !app_nil_r, !Z.add_0_r. reflexivity.
  - subst so. cbn [repeat]. change (run ?n (?a :: ?l)) with (run (step a n) l).
    assert (S1 : step (ASend sd) (mkNetS sd (W ST_ACTIVE r ni no 0 lt true (no - 1) si rows ins) wp out inc g gp s sp id)
                 = mkNetS sd (W ST_ACTIVE r ni (no + 1) 0 lt true no si (rows ++ [(no, wapp (cfg_of sd) no id)]) ins) wp
                          (out ++ [wapp (cfg_of sd) no id]) inc g gp (s ++ [payload id]) sp (id + 1)).
    { destruct sd; unfold step, do_send; nopen; rewrite send_app by (assumption || unfold I64MAX in *; stlia); nopen; rewrite app_nil_r; reflexivity. }
    rewrite S1, IH by (auto with jw || lia).
    unfold rows_app, frames_app, texts. cbn [gen]. rewrite <- !app_assoc. cbn [app].
    replace (no + 1 - 1) with no by lia.
    replace (no + 1 + Z.of_nat k) with (no + Z.of_nat (S k)) by lia.
    replace (no + Z.of_nat k) with (no - 1 + Z.of_nat (S k)) by lia.
    replace (id + 1 + Z.of_nat k) with (id + Z.of_nat (S k)) by lia. reflexivity.
Qed.

(* a field that every delivery overwrites (_message_last_time, the stored inbound counter), after k deliveries *)
Definition after {A} (x y : A) (k : nat) : A := match k with O => x | S _ => y end.

(* frames carrying an application message numbered s with payload i: as sent, or retransmitted *)
Definition carries_app (sd : side) (fr : Z -> Z -> msg) : Prop :=
  forall s i, let m := recv_of (cfg_of sd) (fr s i) in
              rcvd (cfg_of sd) s m /\ mkind m = KApp /\ get T58 (mtags m) = Some (payload i).

Lemma carries_app_wapp : forall sd, carries_app sd (wapp (cfg_of (other sd))).
Proof. intros [] s i; repeat split. Qed.
Lemma carries_app_wpd : forall sd, carries_app sd (wpd (cfg_of (other sd))).
Proof. intros [] s i; repeat split. Qed.

(* side sd, ACTIVE (s0 = ST_ACTIVE) or waiting for a resend with the watermark above (s0 = ST_AWAITING), is handed the next frame *)
Lemma deliver1 : forall sd fr s0 s i r no mr lt so si rows ins wp out rest g gp sm sp id,
  carries_app sd fr -> all_lt s ins -> 0 < s <= I64MAX -> s0 = ST_ACTIVE \/ s0 = ST_AWAITING /\ s < mr ->
  do_deliver sd (mkNetS sd (W s0 r s no mr lt true so si rows ins) wp out (fr s i :: rest) g gp sm sp id)
  = mkNetS sd (W s0 r (s + 1) no mr NOW0 true so s rows (ins ++ [s])) wp out rest (g ++ [Some (payload i)]) gp sm sp id.
Proof.
  intros * F K B S. destruct (F s i) as [R [Hk Ht]].
  assert (D0 : disconnected (W s0 r s no mr lt true so si rows ins) = false) by (destruct S as [->|[-> _]]; reflexivity).
  destruct sd; cbn [cfg_of] in R, Hk, Ht; unfold do_deliver; nopen; rewrite D0;
    rewrite (recv_app _ _ _ _ _ _ _ _ _ _ _ _ R Hk K B S); nopen; rewrite Ht, app_nil_r; reflexivity.
Qed.

(* k deliveries of consecutive frames *)
Lemma delivers : forall sd fr k s0 s i r no mr lt so si rows ins wp out rest g gp sm sp id,
  carries_app sd fr -> all_lt s ins -> 0 < s -> s + Z.of_nat k <= I64MAX + 1 -> s0 = ST_ACTIVE \/ s0 = ST_AWAITING /\ s + Z.of_nat k <= mr ->
  run (mkNetS sd (W s0 r s no mr lt true so si rows ins) wp out (gen fr s i k ++ rest) g gp sm sp id)
      (repeat (ADeliver sd) k)
  = mkNetS sd (W s0 r (s + Z.of_nat k) no mr (after lt NOW0 k) true so (after si (s + Z.of_nat k - 1) k) rows
                 (ins ++ nums s k))
           wp out rest (g ++ map Some (texts i k)) gp sm sp id.
Proof.
  intros sd fr. induction k as [|k IH]; intros * F K B1 B2 Hs.
  - cbn [repeat run fold_left gen nums texts map app after]. rewrite !app_nil_r, Z.add_0_r. reflexivity.
  - cbn [repeat gen app]. change (run ?n (?a :: ?l)) with (run (step a n) l). cbn [step].
    rewrite deliver1, IH by (auto with jw || lia).
    unfold nums, texts. cbn [gen map after]. rewrite <- !app_assoc. cbn [app].
    destruct k; cbn [after]; repeat (first [ reflexivity | lia | f_equal ]).
Qed.

(* ... the same when the network is drained (towards A: nothing is in flight towards B) *)
Lemma drain_delivers : forall sd fr k f s0 s i r no mr lt so si rows ins wp out rest g gp sm sp id,
  carries_app sd fr -> (sd = SA -> out = []) ->
  all_lt s ins -> 0 < s -> s + Z.of_nat k <= I64MAX + 1 -> s0 = ST_ACTIVE \/ s0 = ST_AWAITING /\ s + Z.of_nat k <= mr ->
  drain (k + f) (mkNetS sd (W s0 r s no mr lt true so si rows ins) wp out (gen fr s i k ++ rest) g gp sm sp id)
  = drain f (run (mkNetS sd (W s0 r s no mr lt true so si rows ins) wp out (gen fr s i k ++ rest) g gp sm sp id)
                 (repeat (ADeliver sd) k)).
Proof.
  intros sd fr. induction k as [|k IH]; intros * F O K B1 B2 Hs; [reflexivity|].
  cbn [Nat.add repeat gen app]. change (run ?n (?a :: ?l)) with (run (step a n) l). cbn [step].
  rewrite drain_S. set (N := mkNetS sd _ wp out _ g gp sm sp id).
  replace (if pending SB N then drain (k + f) (do_deliver SB N)
           else if pending SA N then drain (k + f) (do_deliver SA N) else N)
    with (drain (k + f) (do_deliver sd N)) by (subst N; destruct sd; [rewrite (O eq_refl)|]; reflexivity).
  subst N. rewrite deliver1 by (auto with jw || lia). apply IH; auto with jw; lia.
Qed.

(* the link breaks: both ends run their disconnect path, everything in flight is lost *)
Lemma break_W : forall s1 r1 ni1 no1 mr1 lt1 w1 so1 si1 rows1 ins1 s2 r2 ni2 no2 mr2 lt2 w2 so2 si2 rows2 ins2
                       abv bav gav gbv sav sbv id,
  ST_DISC_BROKEN < s1 -> ST_DISC_BROKEN < s2 ->
  do_break (mkNet (W s1 r1 ni1 no1 mr1 lt1 w1 so1 si1 rows1 ins1) (W s2 r2 ni2 no2 mr2 lt2 w2 so2 si2 rows2 ins2)
                  abv bav gav gbv sav sbv id)
  = mkNet (W ST_DISC_BROKEN r1 ni1 no1 0 0 false so1 si1 rows1 ins1) (W ST_DISC_BROKEN r2 ni2 no2 0 0 false so2 si2 rows2 ins2)
          [] [] gav gbv sav sbv id.
Proof.
  intros * S1 S2. unfold do_break, link_down, disconnected. cbn [wa wb st W].
  replace (s1 <=? ST_DISC_BROKEN) with false by stlia. nopen. rewrite !disconnect_conn by assumption. nopen. rewrite !app_nil_r. reflexivity.
Qed.

(* a new transport for the same two objects, and the initiator's Logon *)
Lemma reconnect_W : forall r1 ni1 no1 so1 si1 rows1 ins1 r2 ni2 no2 so2 si2 rows2 ins2 gav gbv sav sbv id,
  keys_lt no1 rows1 -> 0 < no1 <= I64MAX ->
  do_reconnect (mkNet (W ST_DISC_BROKEN r1 ni1 no1 0 0 false so1 si1 rows1 ins1) (W ST_DISC_BROKEN r2 ni2 no2 0 0 false so2 si2 rows2 ins2)
                      [] [] gav gbv sav sbv id)
  = mkNet (W ST_LOGON_SENT ROLE_INITIATOR ni1 (no1 + 1) 0 0 true no1 si1 (rows1 ++ [(no1, wlogon cfgA no1)]) ins1)
          (W ST_NCE r2 ni2 no2 0 0 true so2 si2 rows2 ins2)
          [wlogon cfgA no1] [] gav gbv sav sbv id.
Proof.
  intros * K B. unfold do_reconnect. nopen.
  change (set_wr true (set_st ST_NCE (W ST_DISC_BROKEN r1 ni1 no1 0 0 false so1 si1 rows1 ins1))) with (W ST_NCE r1 ni1 no1 0 0 true so1 si1 rows1 ins1).
  rewrite send_logon by assumption. nopen. rewrite app_nil_r. reflexivity.
Qed.

(* a quiescent network whose link is down: `settle` reconnects and drains *)
Lemma settle_down : forall f n, pending SB n = false -> pending SA n = false -> link_down n = true ->
  settle f n = drain f (do_reconnect n).
Proof. intros f n P1 P2 L. unfold settle. rewrite (drain_quiet f n P1 P2), L. reflexivity. Qed.

Definition net_up : net :=
  mkNet (W ST_ACTIVE ROLE_INITIATOR 2 2 0 NOW0 true 1 1 [(1, wlogon cfgA 1)] [1]) (W ST_ACTIVE ROLE_ACCEPTOR 2 2 0 NOW0 true 1 1 [(1, wlogon cfgB 1)] [1]) [] [] [] [] [] [] 1.

Lemma first_logon : run net0 [AReconnect; ADeliver SB; ADeliver SA] = net_up.
Proof. vm_compute. reflexivity. Qed.

(* first Logon exchange; A sends d + k application messages; the first d reach B *)
Definition sched_before (d k : nat) : list action :=
  [AReconnect; ADeliver SB; ADeliver SA] ++ repeat (ASend SA) (d + k) ++ repeat (ADeliver SB) d.

(* first Logon exchange; A sends da + ka messages, then B sends db + kb; the first da of A's reach B, the first
   db of B's reach A *)
Definition sched_before_both (da ka db kb : nat) : list action :=
  [AReconnect; ADeliver SB; ADeliver SA] ++ repeat (ASend SA) (da + ka) ++ repeat (ASend SB) (db + kb)
  ++ repeat (ADeliver SB) da ++ repeat (ADeliver SA) db.

Lemma sched_before_is_both : forall d k, sched_before d k = sched_before_both d k 0 0.
Proof. intros. unfold sched_before_both. cbn [Nat.add repeat app]. rewrite app_nil_r. reflexivity. Qed.

(* the two ends when the link is up (s = ST_ACTIVE, wrt = true) and after the break (s = ST_DISC_BROKEN): the last ka of A's messages and
   the last kb of B's have not arrived *)
Definition ends_both (s lt : Z) (wrt : bool) (da ka db kb : nat) (abv bav : list msg) : net :=
  let N := Z.of_nat (da + ka) in
  let M := Z.of_nat (db + kb) in
  mkNet (W s ROLE_INITIATOR (2 + Z.of_nat db) (2 + N) 0 lt wrt (1 + N) (1 + Z.of_nat db) ((1, wlogon cfgA 1) :: rows_app cfgA 2 1 (da + ka)) (1 :: nums 2 db))
        (W s ROLE_ACCEPTOR (2 + Z.of_nat da) (2 + M) 0 lt wrt (1 + M) (1 + Z.of_nat da) ((1, wlogon cfgB 1) :: rows_app cfgB 2 (1 + N) (db + kb)) (1 :: nums 2 da))
        abv bav (map Some (texts (1 + N) db)) (map Some (texts 1 da)) (texts 1 (da + ka)) (texts (1 + N) (db + kb)) (1 + N + M).

Definition net_before_both (da ka db kb : nat) : net :=
  ends_both ST_ACTIVE NOW0 true da ka db kb (frames_app cfgA (2 + Z.of_nat da) (1 + Z.of_nat da) ka)
            (frames_app cfgB (2 + Z.of_nat db) (1 + Z.of_nat (da + ka) + Z.of_nat db) kb).
Definition net_broken_both (da ka db kb : nat) : net := ends_both ST_DISC_BROKEN 0 false da ka db kb [] [].

Lemma at_before_both : forall da ka db kb,
  Z.of_nat (da + ka) + 3 <= I64MAX -> Z.of_nat (db + kb) + 3 <= I64MAX ->
  run net0 (sched_before_both da ka db kb) = net_before_both da ka db kb.
Proof.
  intros * B1 B2. unfold sched_before_both. rewrite run_app, first_logon. unfold net_up.
  rewrite run_app. rewrite from_SA. rewrite sends by (auto with jw; lia). cbn [mkNetS].
  rewrite run_app. rewrite from_SB. rewrite sends by (auto with jw; lia). cbn [mkNetS cfg_of app].
  rewrite run_app. unfold frames_app at 1. rewrite gen_app. rewrite from_SB.
  rewrite (delivers SB (wapp cfgA)) by (auto with jw; try apply (carries_app_wapp SB); lia). cbn [mkNetS].
  unfold frames_app at 1. rewrite gen_app. rewrite from_SA.
  rewrite (delivers SA (wapp cfgB)) by (auto with jw; try apply (carries_app_wapp SA); lia).
  unfold net_before_both, ends_both, frames_app. cbn [mkNetS app].
  destruct da, db; cbn [after]; repeat (first [ reflexivity | lia | f_equal ]).
Qed.

Lemma at_break_both : forall da ka db kb,
  Z.of_nat (da + ka) + 3 <= I64MAX -> Z.of_nat (db + kb) + 3 <= I64MAX ->
  run net0 (sched_before_both da ka db kb ++ [ABreak]) = net_broken_both da ka db kb.
Proof.
  intros * B1 B2. rewrite run_app, at_before_both by assumption. cbn [run fold_left step].
  apply break_W; stlia.
Qed.

(* The network just after a reconnect + Logon of A.  xa / xb = the number A / B expects next.  B has not seen A's ka
   application messages xb .. xb+ka-1 (payload ids from ia) nor the m + 1 Logons xb+ka .. LA that A has sent since
   (one per reconnect); A has not seen B's kb application messages xa .. xa+kb-1 (payload ids from ib).  preA / preB =
   the journal rows before those, insA / insB = the inbound numbers journaled so far, Ga Gb / Sa Sb = what the two
   applications have got / sent, id = the next payload id. *)
Definition net_rc (xa xb ia ib : Z) (ka kb m : nat) (preA preB : list (Z * msg)) (insA insB : list Z)
                  (Ga Gb : list (option str)) (Sa Sb : list str) (id : Z) : net :=
  let LA := xb + Z.of_nat ka + Z.of_nat m in
  let LB := xa + Z.of_nat kb in
  mkNet (W ST_LOGON_SENT ROLE_INITIATOR xa (LA + 1) 0 0 true LA (xa - 1) (preA ++ rows_app cfgA xb ia ka ++ logons cfgA (xb + Z.of_nat ka) (S m)) insA)
        (W ST_NCE ROLE_ACCEPTOR xb LB 0 0 true (LB - 1) (xb - 1) (preB ++ rows_app cfgB xa ib kb) insB)
        [wlogon cfgA LA] [] Ga Gb Sa Sb id.

Lemma at_reconnect_both : forall da ka db kb,
  Z.of_nat (da + ka) + 3 <= I64MAX ->
  do_reconnect (net_broken_both da ka db kb)
  = net_rc (2 + Z.of_nat db) (2 + Z.of_nat da) (1 + Z.of_nat da) (1 + Z.of_nat (da + ka) + Z.of_nat db) ka kb 0
           ((1, wlogon cfgA 1) :: rows_app cfgA 2 1 da) ((1, wlogon cfgB 1) :: rows_app cfgB 2 (1 + Z.of_nat (da + ka)) db)
           (1 :: nums 2 db) (1 :: nums 2 da)
           (map Some (texts (1 + Z.of_nat (da + ka)) db)) (map Some (texts 1 da))
           (texts 1 (da + ka)) (texts (1 + Z.of_nat (da + ka)) (db + kb))
           (1 + Z.of_nat (da + ka) + Z.of_nat (db + kb)).
Proof.
  intros * B. unfold net_broken_both, ends_both. rewrite reconnect_W by (auto with jw; unfold I64MAX in *; stlia).
  unfold net_rc, rows_app, logons. rewrite !gen_app. cbn [gen app]. rewrite <- ?app_assoc. cbn [app].
  repeat (first [ reflexivity | lia | f_equal ]).
Qed.

Lemma ostr_list_eqb_refl : forall l, ostr_list_eqb (map Some l) (map Some l) = true.
Proof. induction l as [|x l IH]; [reflexivity|]. cbn. rewrite IH, str_eqb_refl. reflexivity. Qed.

(* what `holds` (Net.v) decides, as a conjunction, with the four lists as parameters *)
Definition settled (s : net) (Ga Gb : list (option str)) (Sa Sb : list str) : Prop :=
  quiescent s = true
  /\ st (wa s) = ST_ACTIVE /\ st (wb s) = ST_ACTIVE
  /\ nin (wa s) = nout (wb s) /\ nin (wb s) = nout (wa s)
  /\ ga s = Ga /\ gb s = Gb /\ sa s = Sa /\ sb s = Sb.

Lemma settled_holds : forall s Sa Sb, settled s (map Some Sb) (map Some Sa) Sa Sb -> holds s = true.
Proof.
  intros s Sa Sb [Q [A [B1 [N1 [N2 [G1 [G2 [S1 S2]]]]]]]]. unfold holds, some_all.
  rewrite Q, A, B1, N1, N2, G1, G2, S1, S2, !Z.eqb_refl, !ostr_list_eqb_refl. reflexivity.
Qed.

(* the next delivery of `drain` goes to B when something is pending for it, otherwise to A *)
Lemma drain_deliver : forall sd f n m rest,
  chan_to sd n = m :: rest -> pending SB n = match sd with SA => false | SB => true end ->
  drain (S f) n = drain f (do_deliver sd n).
Proof.
  intros sd f n m rest C P. rewrite drain_S, P. destruct sd; [|reflexivity]. unfold pending. rewrite C. reflexivity.
Qed.


(* the replies to its ResendRequest reach side sd, which waits for them: k retransmissions, then the gap fill
   s + k -> e over the session-level messages, which ends the wait *)
Lemma drain_replies : forall sd k f s i e r no mr lt so si rows ins wp out g gp sm sp id,
  (sd = SA -> out = []) -> all_lt s ins -> keys_lt no rows -> 0 < s -> s + Z.of_nat k < e ->
  s + Z.of_nat k <= mr <= e - 1 -> e <= I64MAX -> 0 < no <= I64MAX ->
  drain (k + S f) (mkNetS sd (W ST_AWAITING r s no mr lt true so si rows ins) wp out
                     (frames_pd (cfg_of (other sd)) s i k ++ [wgf (cfg_of (other sd)) (s + Z.of_nat k) e]) g gp sm sp id)
  = drain f (mkNetS sd (W ST_ACTIVE r e no 0 NOW0 true (no - 1) (s + Z.of_nat k) rows ((ins ++ nums s k) ++ [s + Z.of_nat k]))
                    wp out [] (g ++ map Some (texts i k)) gp sm sp id).
Proof.
  intros * O K1 K2 B1 B2 B3 B4 B5. unfold frames_pd.
  rewrite (drain_delivers sd (wpd (cfg_of (other sd)))), (delivers sd (wpd (cfg_of (other sd))))
    by first [apply carries_app_wpd | assumption | right; split; [reflexivity | lia] | auto with jw].
  destruct sd; [rewrite (O eq_refl)|]; cbn [mkNetS cfg_of other].
  - erewrite (drain_deliver SA) by reflexivity. nopen. rewrite recv_gf by auto with jw. nopen. rewrite ?app_nil_r. reflexivity.
  - erewrite (drain_deliver SB) by reflexivity. nopen. rewrite recv_gf by auto with jw. nopen. rewrite ?app_nil_r. reflexivity.
Qed.

(* nothing is missing on either side: Logon, Logon reply *)
Lemma recovery_00 : forall xa xb ia ib preA preB insA insB Ga Gb Sa Sb id f,
  below xa xb preA preB insA insB ->
  0 < xa -> 0 < xb -> xb + 1 <= I64MAX -> xa + 1 <= I64MAX ->
  settled (drain (S (S f)) (net_rc xa xb ia ib 0 0 0 preA preB insA insB Ga Gb Sa Sb id))
          (Ga ++ map Some (texts ib 0)) (Gb ++ map Some (texts ia 0)) Sa Sb.
Proof.
  intros * [K1 [K2 [K3 K4]]] B1 B2 B3 B4. unfold net_rc, rows_app, logons. cbn [gen app Z.of_nat]. rewrite !app_nil_r, !Z.add_0_r.
  erewrite (drain_deliver SB) by reflexivity. nopen. rewrite (recv_logon_exact cfgB) by auto with jw. nopen.
  erewrite (drain_deliver SA) by reflexivity. nopen. rewrite (recv_logon_reply cfgA) by auto with jw. nopen.
  rewrite drain_quiet by reflexivity.
  repeat split; cbn; rewrite ?app_nil_r; reflexivity.
Qed.

(* only B misses something: the last ka application messages of A and m earlier Logons.  Logon (too high for B),
   Logon reply + ResendRequest, the ka retransmissions, one gap fill over the Logons *)
Lemma recovery_A : forall xa xb ia ib ka m preA preB insA insB Ga Gb Sa Sb id f,
  (0 < ka + m)%nat -> below xa xb preA preB insA insB ->
  0 < xa -> 0 < xb -> xb + Z.of_nat ka + Z.of_nat m + 1 <= I64MAX -> xa + 2 <= I64MAX ->
  settled (drain (3 + (ka + S f)) (net_rc xa xb ia ib ka 0 m preA preB insA insB Ga Gb Sa Sb id))
          (Ga ++ map Some (texts ib 0)) (Gb ++ map Some (texts ia ka)) Sa Sb.
Proof.
  intros * KM [K1 [K2 [K3 K4]]] B1 B2 B3 B4. unfold net_rc. cbn [rows_app gen Z.of_nat]. rewrite app_nil_r, Z.add_0_r.
  set (L := xb + Z.of_nat ka + Z.of_nat m) in *. cbn [Nat.add].
  erewrite (drain_deliver SB) by reflexivity. nopen. rewrite (recv_logon_high cfgB) by auto with jw. nopen.
  erewrite (drain_deliver SA) by reflexivity. nopen. rewrite (recv_logon_reply cfgA) by auto with jw. nopen.
  erewrite (drain_deliver SA) by reflexivity. nopen. rewrite (recv_resend_request cfgA) with (suf := logons cfgA (xb + Z.of_nat ka) (S m))
    by first [split; reflexivity | apply admin_logons | discriminate | unfold logons; rewrite gen_length; lia | auto with jw].
  nopen. rewrite !flat_map_app, wires_map_wire, apps_map_wire. nopen.
  rewrite from_SB, (drain_replies SB) by (subst L; first [discriminate | auto with jw]). cbn [mkNetS].
  rewrite drain_quiet by reflexivity.
  repeat split; cbn; rewrite ?app_nil_r; try reflexivity; lia.
Qed.

(* only A misses something: the last kb application messages of B.  Logon (as B expects), Logon reply (too high
   for A), A's ResendRequest, the kb retransmissions and the gap fill over B's Logon reply *)
Lemma recovery_B : forall xa xb ia ib kb preA preB insA insB Ga Gb Sa Sb id f,
  below xa xb preA preB insA insB ->
  0 < xa -> 0 < xb -> xb + 2 <= I64MAX -> xa + Z.of_nat (S kb) + 1 <= I64MAX ->
  settled (drain (3 + (S kb + S f)) (net_rc xa xb ia ib 0 (S kb) 0 preA preB insA insB Ga Gb Sa Sb id))
          (Ga ++ map Some (texts ib (S kb))) (Gb ++ map Some (texts ia 0)) Sa Sb.
Proof.
  intros * [K1 [K2 [K3 K4]]] B1 B2 B3 B4. unfold net_rc, logons.
  change (rows_app cfgA xb ia 0) with (@nil (Z * msg)). change (Z.of_nat 0) with 0. cbn [gen app Nat.add]. rewrite !Z.add_0_r.
  erewrite (drain_deliver SB) by reflexivity. nopen. rewrite (recv_logon_exact cfgB) by auto with jw. nopen.
  erewrite (drain_deliver SA) by reflexivity. nopen. rewrite (recv_logon_reply_high cfgA) by auto with jw. nopen.
  erewrite (drain_deliver SB) by reflexivity. nopen. rewrite <- (app_assoc preB).
  rewrite (recv_resend_request cfgB) with (b := xa) (k := S kb) (suf := [(xa + Z.of_nat (S kb), wlogon cfgB (xa + Z.of_nat (S kb)))])
    by first [split; reflexivity | solve [repeat split] | discriminate | cbn [length]; lia | auto with jw].
  nopen. rewrite !flat_map_app, wires_map_wire, apps_map_wire. nopen.
  change (S (kb + S f)) with (S kb + S f)%nat.
  rewrite from_SA, (drain_replies SA) by first [reflexivity | auto with jw]. cbn [mkNetS].
  rewrite drain_quiet by reflexivity.
  repeat split; cbn; rewrite ?app_nil_r; try reflexivity; lia.
Qed.

(* both ends miss something: the Logon exchange carries two gaps, two ResendRequests cross, each end serves the
   other's request while it waits for its own resend *)
Lemma recovery_AB : forall xa xb ia ib ka kb preA preB insA insB Ga Gb Sa Sb id f,
  below xa xb preA preB insA insB ->
  0 < xa -> 0 < xb ->
  xb + Z.of_nat (S ka) + 2 <= I64MAX -> xa + Z.of_nat (S kb) + 2 <= I64MAX ->
  settled (drain (4 + (S ka + (1 + (S kb + S f))))
                 (net_rc xa xb ia ib (S ka) (S kb) 0 preA preB insA insB Ga Gb Sa Sb id))
          (Ga ++ map Some (texts ib (S kb))) (Gb ++ map Some (texts ia (S ka))) Sa Sb.
Proof.
  intros * [K1 [K2 [K3 K4]]] B1 B2 B3 B4. unfold net_rc, logons. change (Z.of_nat 0) with 0. cbn [gen Nat.add]. rewrite !Z.add_0_r.
  set (LA := xb + Z.of_nat (S ka)). set (LB := xa + Z.of_nat (S kb)).
  erewrite (drain_deliver SB) by reflexivity. nopen. rewrite (recv_logon_high cfgB) by (subst LA LB; auto with jw). nopen.
  erewrite (drain_deliver SA) by reflexivity. nopen. rewrite (recv_logon_reply_high cfgA) by (subst LA LB; auto with jw). nopen.
  rewrite <- (app_assoc preB), <- (app_assoc preA), <- (app_assoc (rows_app cfgA xb ia (S ka))). cbn [app].
  erewrite (drain_deliver SB) by reflexivity. nopen.
  rewrite (recv_rr_awaiting cfgB) with (b := xa) (k := S kb) (suf := [(LB, wlogon cfgB LB); (LB + 1, wrr cfgB (LB + 1) xb)])
    by (subst LA LB; first [split; reflexivity | solve [repeat split] | discriminate | cbn [length]; lia | auto with jw]).
  nopen. rewrite !flat_map_app, wires_map_wire, apps_map_wire. nopen.
  erewrite (drain_deliver SA) by reflexivity. nopen.
  rewrite (recv_rr_awaiting cfgA) with (b := xb) (k := S ka) (suf := [(LA, wlogon cfgA LA); (LA + 1, wrr cfgA (LA + 1) xa)])
    by (subst LA LB; first [split; reflexivity | solve [repeat split] | discriminate | cbn [length]; lia | auto with jw]).
  nopen. rewrite !flat_map_app, wires_map_wire, apps_map_wire. nopen.
  change (S (ka + S (S (kb + S f)))) with (S ka + S (S kb + S f))%nat.
  rewrite from_SB, (drain_replies SB) by (subst LA LB; first [discriminate | auto with jw]). cbn [mkNetS].
  rewrite from_SA, (drain_replies SA) by (subst LA LB; first [reflexivity | auto with jw]). cbn [mkNetS].
  rewrite drain_quiet by reflexivity.
  repeat split; cbn; rewrite ?app_nil_r; try reflexivity; subst LA LB; lia.
Qed.

(* one more break: after the reconnect B answers the Logon (reply + ResendRequest), A services the request,
   j of the k retransmissions reach B, and the link breaks again with the rest and the gap fill in flight;
   the next reconnect leads to the same situation with other numbers *)
Definition round (j : nat) : list action :=
  [ADeliver SB; ADeliver SA; ADeliver SA] ++ repeat (ADeliver SB) j ++ [ABreak; AReconnect].

Lemma rec_step : forall xa xb ia ib ka m preA preB insA insB Ga Gb Sa Sb id j,
  (0 < ka + m)%nat -> (j <= ka)%nat ->
  below xa xb preA preB insA insB ->
  0 < xa -> 0 < xb -> xb + Z.of_nat ka + Z.of_nat m + 2 <= I64MAX -> xa + 2 <= I64MAX ->
  run (net_rc xa xb ia ib ka 0 m preA preB insA insB Ga Gb Sa Sb id) (round j)
  = net_rc (xa + 2) (xb + Z.of_nat j) (ia + Z.of_nat j) ib (ka - j) 0 (S m)
           (preA ++ rows_app cfgA xb ia j) (preB ++ [(xa, wlogon cfgB xa); (xa + 1, wrr cfgB (xa + 1) xb)])
           (insA ++ [xa; xa + 1]) (insB ++ nums xb j) Ga (Gb ++ map Some (texts ia j)) Sa Sb id.
Proof.
  intros * KM J [K1 [K2 [K3 K4]]] B1 B2 B3 B4. unfold net_rc, round. cbn [rows_app gen]. change (Z.of_nat 0) with 0. rewrite !app_nil_r, !Z.add_0_r.
  set (L := xb + Z.of_nat ka + Z.of_nat m).
  rewrite run_app. cbn [run fold_left]. unfold step.
  unfold do_deliver at 3. nopen. rewrite (recv_logon_high cfgB) by (subst L; auto with jw). nopen.
  rewrite (recv_logon_reply cfgA) by auto with jw. nopen.
  rewrite (recv_resend_request cfgA) with (suf := logons cfgA (xb + Z.of_nat ka) (S m))
    by (subst L; first [split; reflexivity | apply admin_logons | discriminate | unfold logons; rewrite gen_length; lia | auto with jw]).
  nopen. rewrite !flat_map_app, wires_map_wire, apps_map_wire. nopen.
  (* B: j of the retransmissions *)
  replace ka with (j + (ka - j))%nat at 3 by lia.
  unfold frames_pd at 1. rewrite gen_app, <- (app_assoc (gen _ xb ia j)), run_app. rewrite from_SB.
  rewrite (delivers SB (wpd cfgA)) by (subst L; first [apply (carries_app_wpd SB) | right; split; [reflexivity | lia] | auto with jw]).
  cbn [mkNetS].
  (* the link breaks, new transport, Logon L + 1 *)
  cbn [run fold_left step]. rewrite break_W by stlia.
  rewrite reconnect_W by (subst L; auto with jw; unfold I64MAX in *; stlia).
  replace (xb + Z.of_nat j + Z.of_nat (ka - j)) with (xb + Z.of_nat ka) by lia.
  replace (rows_app cfgA xb ia ka) with (rows_app cfgA xb ia j ++ rows_app cfgA (xb + Z.of_nat j) (ia + Z.of_nat j) (ka - j))
    by (unfold rows_app; rewrite <- gen_app; f_equal; lia).
  unfold logons at 2. rewrite (gen_snoc _ _ (S m)). fold (logons cfgA (xb + Z.of_nat ka) (S m)).
  replace (xb + Z.of_nat ka + Z.of_nat (S m)) with (L + 1) by (subst L; lia).
  rewrite ?app_nil_r, <- ?app_assoc. cbn [app].
  destruct j; cbn [after]; repeat (first [ reflexivity | lia | f_equal ]).
Qed.

(* any number of further breaks of that kind: round j1, round j2, ...; each j is at most what is still missing *)
Fixpoint fits (k : nat) (js : list nat) : Prop :=
  match js with
  | [] => True
  | j :: r => (j <= k)%nat /\ fits (k - j) r
  end.

Definition rounds (js : list nat) : list action := flat_map round js.

Lemma breaks_gen : forall js xa xb ia ib ka m preA preB insA insB Ga Gb Sa Sb id f,
  (0 < ka + m)%nat -> fits ka js ->
  below xa xb preA preB insA insB ->
  0 < xa -> 0 < xb ->
  xb + Z.of_nat ka + Z.of_nat m + 1 + Z.of_nat (length js) <= I64MAX ->
  xa + 2 + 2 * Z.of_nat (length js) <= I64MAX ->
  settled (drain (3 + (ka + S f)) (run (net_rc xa xb ia ib ka 0 m preA preB insA insB Ga Gb Sa Sb id) (rounds js)))
          (Ga ++ map Some (texts ib 0)) (Gb ++ map Some (texts ia ka)) Sa Sb.
Proof.
  induction js as [|j r IH]; intros * KM F Hb B1 B2 B3 B4; cbn [length] in B3, B4.
  - apply recovery_A; (assumption || lia).
  - destruct F as [J F]. cbn [rounds flat_map]. fold (rounds r). rewrite run_app, rec_step by (assumption || lia).
    replace (3 + (ka + S f))%nat with (3 + ((ka - j) + S (f + j)))%nat by lia.
    replace (Gb ++ map Some (texts ia ka)) with ((Gb ++ map Some (texts ia j)) ++ map Some (texts (ia + Z.of_nat j) (ka - j))).
    2:{ rewrite <- app_assoc, <- map_app. unfold texts. rewrite <- gen_app. repeat f_equal. lia. }
    destruct Hb as [K1 [K2 [K3 K4]]]. apply IH; auto with jw; lia.
Qed.

Lemma texts_split : forall i a b, texts i (a + b) = texts i a ++ texts (i + Z.of_nat a) b.
Proof. intros. unfold texts. rewrite gen_app. reflexivity. Qed.

(* `settled` at the lists of the families: A's application has sent n messages and then B's m.  The conjunction is the
   one the statements of Props/C07 spell out, so it carries `holds s = true`, which settled_holds derives from the rest. *)
Definition recovered_both (s : net) (n m : nat) : Prop :=
  quiescent s = true
  /\ st (wa s) = ST_ACTIVE /\ st (wb s) = ST_ACTIVE
  /\ nin (wa s) = nout (wb s) /\ nin (wb s) = nout (wa s)
  /\ sa s = texts 1 n /\ gb s = map Some (texts 1 n)
  /\ sb s = texts (1 + Z.of_nat n) m /\ ga s = map Some (texts (1 + Z.of_nat n) m)
  /\ holds s = true.

Lemma settled_recovered : forall s n m,
  settled s (map Some (texts (1 + Z.of_nat n) m)) (map Some (texts 1 n)) (texts 1 n) (texts (1 + Z.of_nat n) m) ->
  recovered_both s n m.
Proof.
  intros s n m H. pose proof (settled_holds _ _ _ H) as Hh.
  destruct H as [Q [A1 [A2 [N1 [N2 [G1 [G2 [S1 S2]]]]]]]]. repeat split; assumption.
Qed.

(* the deliveries the recovery takes when the last ka messages of A and the last kb of B were lost *)
Definition deliveries (ka kb : nat) : nat :=
  match ka, kb with
  | O, O => 2
  | S _, O => ka + 4
  | O, S _ => kb + 4
  | S _, S _ => ka + kb + 6
  end.

(* The two ends disconnected after A's application has sent da + ka messages and B's db + kb, of which the last ka
   and kb were lost: reconnect, Logon, drain.  (A side that has to serve a ResendRequest and to ask for one sends
   one number more: min 1 _.) *)
Theorem settle_broken : forall da ka db kb fuel,
  Z.of_nat (da + ka) + 3 + Z.of_nat (min 1 kb) <= I64MAX -> Z.of_nat (db + kb) + 3 + Z.of_nat (min 1 ka) <= I64MAX ->
  (deliveries ka kb <= fuel)%nat ->
  recovered_both (settle fuel (net_broken_both da ka db kb)) (da + ka) (db + kb).
Proof.
  intros * B1 B2 F. rewrite settle_down, at_reconnect_both by (reflexivity || lia).
  apply settled_recovered. rewrite (texts_split 1 da ka), (texts_split _ db kb), !map_app.
  destruct ka as [|ka], kb as [|kb]; cbn [deliveries] in F.
  - destruct fuel as [|[|f]]; [lia|lia|]. apply recovery_00; auto with jw; lia.
  - replace fuel with (3 + (S kb + S (fuel - (S kb + 4))))%nat by lia. apply recovery_B; auto with jw; lia.
  - replace fuel with (3 + (S ka + S (fuel - (S ka + 4))))%nat by lia. apply recovery_A; auto with jw; lia.
  - replace fuel with (4 + (S ka + (1 + (S kb + S (fuel - (S ka + S kb + 6))))))%nat by lia.
    apply recovery_AB; auto with jw; lia.
Qed.

(* a reply to a ResendRequest: a retransmission (PossDupFlag = Y) or a SequenceReset-GapFill *)
Definition is_reply (m : msg) : bool :=
  match get T43 (mtags m) with
  | Some v => str_eqb v S_Y
  | None => match mkind m, get T123 (mtags m) with
            | KSeqReset, Some v => str_eqb v S_Y
            | _, _ => false
            end
  end.

(* the former known-finding class C07-break-loses-resend-reply (before the D12 repair), on the state in which the link breaks *)
Definition reply_in_flight (n : net) : bool := existsb is_reply (ab n ++ ba n).

(* at the first break only application messages are in flight *)
Lemma no_reply_in_flight : forall da ka db kb, reply_in_flight (net_before_both da ka db kb) = false.
Proof.
  intros. unfold reply_in_flight, net_before_both, ends_both. cbn [ab ba].
  apply not_true_is_false. intros H. apply existsb_exists in H. destruct H as [m [Hin Hm]].
  assert (F : forall c s i k, Forall (fun m => is_reply m = false) (frames_app c s i k))
    by (intros; apply gen_Forall; reflexivity).
  apply in_app_or in Hin. destruct Hin as [Hin|Hin]; eapply Forall_forall in Hin; try apply F;
    cbv beta in Hin; rewrite Hin in Hm; discriminate.
Qed.

(* One break with traffic in both directions, from the start: at the break only application messages are in
   flight, and reconnect + Logon + drain recovers everything. *)
Theorem one_break : forall da ka db kb fuel,
  Z.of_nat (da + ka) + 3 + Z.of_nat (min 1 kb) <= I64MAX -> Z.of_nat (db + kb) + 3 + Z.of_nat (min 1 ka) <= I64MAX ->
  (deliveries ka kb <= fuel)%nat ->
  reply_in_flight (run net0 (sched_before_both da ka db kb)) = false
  /\ recovered_both (settle fuel (run net0 (sched_before_both da ka db kb ++ [ABreak]))) (da + ka) (db + kb).
Proof.
  intros * B1 B2 F. rewrite at_before_both, at_break_both by lia. split; [apply no_reply_in_flight | apply settle_broken; assumption].
Qed.

(* A break point inside a send:
   A's last send meets the dead transport: journaled (send_msg journals first), write() raises, the break follows *)

Lemma at_failed_write : forall d k, Z.of_nat (d + S k) + 3 <= I64MAX ->
  run net0 (sched_before d k ++ [ASendFail SA]) = net_broken_both d (S k) 0 0.
Proof.
  intros d k B. rewrite run_app, sched_before_is_both, at_before_both by lia. unfold net_before_both, ends_both.
  cbn [run fold_left step]. unfold do_send. nopen.
  change (set_wr false (W ST_ACTIVE ROLE_INITIATOR ?ni ?no 0 NOW0 true ?so ?si ?rows ?ins)) with (W ST_ACTIVE ROLE_INITIATOR ni no 0 NOW0 false so si rows ins).
  rewrite send_app by (auto with jw; unfold I64MAX in *; stlia). nopen.
  match goal with |- context [(?a <? ?b)%nat] =>
    replace (a <? b)%nat with true by (symmetry; apply Nat.ltb_lt; cbn [length]; rewrite app_length; cbn [length]; lia) end.
  rewrite break_W by stlia. unfold net_broken_both, ends_both.
  replace (d + S k)%nat with (S (d + k)) by lia.
  unfold rows_app, texts. rewrite !gen_snoc. cbn [app gen map]. rewrite ?app_nil_r.
  repeat (first [ reflexivity | lia | f_equal ]).
Qed.

(* Both applications have sent; all of B's db messages have reached A, the last k + 1 of A's da + k + 1 are in
   flight at the first break; then any number of further breaks during the retransmission *)
Theorem repeated_breaks_B_traffic : forall da k db js fuel,
  fits (S k) js ->
  Z.of_nat (da + S k) + 5 + 2 * Z.of_nat (length js) <= I64MAX ->
  Z.of_nat db + 5 + 2 * Z.of_nat (length js) <= I64MAX ->
  (S k + 4 <= fuel)%nat ->
  recovered_both (drain fuel (run net0 (sched_before_both da (S k) db 0 ++ [ABreak; AReconnect] ++ rounds js)))
                 (da + S k) (db + 0).
Proof.
  intros * F B1 B2 Fu.
  change ([ABreak; AReconnect] ++ rounds js) with ([ABreak] ++ AReconnect :: rounds js).
  rewrite app_assoc, run_app, at_break_both by lia. change (run ?n (?a :: ?l)) with (run (step a n) l). cbn [step].
  rewrite at_reconnect_both by lia.
  replace fuel with (3 + (S k + S (fuel - (S k + 4))))%nat by lia.
  apply settled_recovered. rewrite (texts_split 1 da (S k)), (texts_split _ db 0), !map_app.
  apply breaks_gen; auto with jw; lia.
Qed.

(* the two moments at which the first exchange can be cut: the initiator's Logon is in flight (i = 0), or the
   acceptor has answered and its reply is in flight (i = 1); then the explicit repair after the reconnect *)
Definition sched_logon_cut (i : nat) : list action :=
  match i with
  | O => [AReconnect; ABreak; AReconnect; ADeliver SB; ADeliver SA; ADeliver SA; ADeliver SB]
  | _ => [AReconnect; ADeliver SB; ABreak; AReconnect; ADeliver SB; ADeliver SA; ADeliver SB; ADeliver SA]
  end.

(* the same repair through `settle` (drain; reconnect + Logon; drain) instead of explicit deliveries *)
Definition cut_prefix (i : nat) : list action :=
  match i with O => [AReconnect; ABreak] | _ => [AReconnect; ADeliver SB; ABreak] end.

Definition net_up_cut (i : nat) : net :=
  match i with
  | O => mkNet (W ST_ACTIVE ROLE_INITIATOR 3 3 0 NOW0 true 2 2 [(1, wlogon cfgA 1); (2, wlogon cfgA 2)] [1; 2])
               (W ST_ACTIVE ROLE_ACCEPTOR 3 3 0 NOW0 true 2 1 [(1, wlogon cfgB 1); (2, wrr cfgB 2 1)] [1]) [] [] [] [] [] [] 1
  | _ => mkNet (W ST_ACTIVE ROLE_INITIATOR 3 4 0 NOW0 true 3 1 [(1, wlogon cfgA 1); (2, wlogon cfgA 2); (3, wrr cfgA 3 1)] [1])
               (W ST_ACTIVE ROLE_ACCEPTOR 4 3 0 NOW0 true 2 3 [(1, wlogon cfgB 1); (2, wlogon cfgB 2)] [1; 2; 3]) [] [] [] [] [] [] 1
  end.

Lemma logon_cut_repaired : forall i, run net0 (sched_logon_cut i) = net_up_cut i.
Proof. intros [|i]; vm_compute; reflexivity. Qed.

Lemma settle_cut : forall i f, settle (8 + f) (run net0 (cut_prefix i)) = net_up_cut i.
Proof.
  intros i f.
  assert (P : pending SB (run net0 (cut_prefix i)) = false /\ pending SA (run net0 (cut_prefix i)) = false
              /\ link_down (run net0 (cut_prefix i)) = true
              /\ drain 8 (do_reconnect (run net0 (cut_prefix i))) = net_up_cut i
              /\ pending SB (net_up_cut i) = false /\ pending SA (net_up_cut i) = false).
  { destruct i as [|i]; vm_compute; repeat split. }
  destruct P as [P1 [P2 [P3 [P4 [P5 P6]]]]].
  rewrite settle_down, drain_add, P4 by assumption. apply drain_quiet; assumption.
Qed.

(* both ends ACTIVE with matching numbers and nothing in flight: n sends of A, delivered *)
Lemma up_sends : forall n a b soa sia rowsa insa sob sib rowsb insb,
  keys_lt a rowsa -> all_lt a insb -> 0 < a -> a + Z.of_nat n <= I64MAX -> soa = a - 1 ->
  recovered_both (run (mkNet (W ST_ACTIVE ROLE_INITIATOR b a 0 NOW0 true soa sia rowsa insa) (W ST_ACTIVE ROLE_ACCEPTOR a b 0 NOW0 true sob sib rowsb insb)
                             [] [] [] [] [] [] 1)
                      (repeat (ASend SA) n ++ repeat (ADeliver SB) n)) n 0.
Proof.
  intros * K1 K2 B1 B2 E. rewrite run_app. rewrite from_SA. rewrite sends by assumption. cbn [mkNetS cfg_of app].
  rewrite <- (app_nil_r (frames_app cfgA a 1 n)). unfold frames_app. rewrite from_SB.
  rewrite (delivers SB (wapp cfgA)) by first [apply (carries_app_wapp SB) | left; reflexivity | assumption | lia].
  apply settled_recovered. repeat split; cbn; lia.
Qed.

(* D13, repaired: the replay of the lost message is lost too (a reply is in flight at the second break); the
   second ResendRequest is served from the untouched journal *)
Definition sched_double_break : list action :=
  [AReconnect; ADeliver SB; ADeliver SA; ASend SA; ABreak;
   AReconnect; ADeliver SB; ADeliver SA; ADeliver SA; ABreak].

(* formerly the silent loss: a gap fill is lost, then an application message is lost behind it *)
Definition sched_gap_fill_lost : list action :=
  [AReconnect; ABreak; AReconnect; ADeliver SB; ADeliver SA; ADeliver SA; ASend SA; ABreak].

(* the constants of Net.v are the code's (the generated tables are regenerated every run) *)

Fixpoint assoc_num (k : str) (l : list (str * N)) : option N :=
  match l with [] => None | (a, b) :: r => if str_eqb a k then Some b else assoc_num k r end.
Fixpoint assoc_str (k : str) (l : list (str * str)) : option str :=
  match l with [] => None | (a, b) :: r => if str_eqb a k then Some b else assoc_str k r end.
Definition state_is (name : str) (z : Z) : bool :=
  match assoc_num name conn_state with Some n => Z.of_N n =? z | None => false end.
Definition role_is (name : str) (z : Z) : bool :=
  match assoc_num name conn_role with Some n => Z.of_N n =? z | None => false end.

Definition net_constants_ok : bool :=
  (* "DISCONNECTED_NOCONN_TODAY", "DISCONNECTED_BROKEN_CONN", "NETWORK_CONN_ESTABLISHED", "LOGON_INITIAL_SENT",
     "RESENDREQ_HANDLING", "RESENDREQ_AWAITING", "ACTIVE", "INITIATOR", "ACCEPTOR", NEWORDERSINGLE = "D" *)
  state_is [68;73;83;67;79;78;78;69;67;84;69;68;95;78;79;67;79;78;78;95;84;79;68;65;89]%N ST_NOCONN
  && state_is [68;73;83;67;79;78;78;69;67;84;69;68;95;66;82;79;75;69;78;95;67;79;78;78]%N ST_DISC_BROKEN
  && state_is [78;69;84;87;79;82;75;95;67;79;78;78;95;69;83;84;65;66;76;73;83;72;69;68]%N ST_NCE
  && state_is [76;79;71;79;78;95;73;78;73;84;73;65;76;95;83;69;78;84]%N ST_LOGON_SENT
  && state_is [82;69;83;69;78;68;82;69;81;95;72;65;78;68;76;73;78;71]%N ST_HANDLING
  && state_is [82;69;83;69;78;68;82;69;81;95;65;87;65;73;84;73;78;71]%N ST_AWAITING
  && state_is [65;67;84;73;86;69]%N ST_ACTIVE
  && role_is [73;78;73;84;73;65;84;79;82]%N ROLE_INITIATOR
  && role_is [65;67;67;69;80;84;79;82]%N ROLE_ACCEPTOR
  && match assoc_str [78;69;87;79;82;68;69;82;83;73;78;71;76;69]%N fmsg with Some v => str_eqb v MT_D | None => false end
  && (sys_maxsize =? I64MAX).

