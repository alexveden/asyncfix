(* Proofs about the scheduling model Fix/Sched.v (C14).
   One run-to-next-suspension of a task whose code is safe (any mix of send_msg of new messages,
   send_test_req, _state_set hooks, plain hooks, role assignment, and the ResendRequest service with
   the replay code it unfolds into) leaves the task safe and changes the sequence state by `wstep`
   (exec_safe, resume_any); `Inv` is preserved by `wstep`, hence by sched_step for every choice and
   by every schedule (run_inv); safe_outcome is its reading at the start (safe_tasks_safe). *)
From Coq Require Import ZArith List Bool Lia.
From AF Require Import Fix.Sched.
Import ListNotations.
Open Scope Z_scope.

Lemma nth_upd {A} : forall (l : list A) i j x y,
  nth_error (upd i x l) j = Some y -> (j = i /\ y = x) \/ nth_error l j = Some y.
Proof.
  induction l as [|a l IH]; intros [|i] [|j] x y H; simpl in *; try discriminate; auto.
  - inversion H; auto.
  - destruct (IH _ _ _ _ H) as [[-> ->]|]; auto.
Qed.

Lemma row_at_in : forall l k f, row_at k l = Some f -> In (k, f) l.
Proof.
  induction l as [|[a g] l IH]; intros k f H; simpl in *; [discriminate|].
  destruct (a =? k) eqn:Ea; [apply Z.eqb_eq in Ea; inversion H; subst; auto|auto].
Qed.

Lemma row_at_insert : forall l n f k, row_at n l = None ->
  row_at k (insert_row n f l) = if k =? n then Some f else row_at k l.
Proof.
  induction l as [|[a g] l IH]; intros n f k H; simpl in *.
  - rewrite (Z.eqb_sym n k). reflexivity.
  - destruct (a =? n) eqn:Ean; [discriminate|].
    destruct (n <? a) eqn:Elt; simpl.
    + rewrite (Z.eqb_sym n k). destruct (k =? n) eqn:Ekn; auto.
    + rewrite IH by assumption.
      destruct (a =? k) eqn:Eak; auto.
      destruct (k =? n) eqn:Ekn; auto.
      apply Z.eqb_eq in Eak, Ekn. apply Z.eqb_neq in Ean. lia.
Qed.

Lemma in_insert_row : forall l n f k g, In (k, g) (insert_row n f l) <-> (k, g) = (n, f) \/ In (k, g) l.
Proof.
  induction l as [|[a h] l IH]; intros n f k g; simpl.
  - intuition congruence.
  - destruct (n <? a); simpl.
    + intuition congruence.
    + rewrite IH. intuition congruence.
Qed.

Fixpoint consec (l : list frame) (hi : Z) : Prop :=
  match l with
  | [] => True
  | f :: l' => f_seq f = hi - 1 /\ consec l' (hi - 1)
  end.

Lemma consec_in : forall l hi f, consec l hi -> In f l -> hi - Z.of_nat (length l) <= f_seq f < hi.
Proof.
  induction l as [|a l IH]; intros hi f Hc Hin; simpl in *; [contradiction|].
  destruct Hc as [Ha Hc]. destruct Hin as [->|Hin].
  - lia.
  - specialize (IH _ _ Hc Hin). lia.
Qed.

Lemma consec_inj : forall l hi f g, consec l hi -> In f l -> In g l -> f_seq f = f_seq g -> f = g.
Proof.
  induction l as [|a l IH]; intros hi f g Hc Hf Hg He; simpl in *; [contradiction|].
  destruct Hc as [Ha Hc].
  destruct Hf as [->|Hf]; destruct Hg as [->|Hg]; auto.
  - pose proof (consec_in _ _ _ Hc Hg). lia.
  - pose proof (consec_in _ _ _ Hc Hf). lia.
  - eapply IH; eauto.
Qed.

Fixpoint zseq (a : Z) (n : nat) : list Z :=
  match n with O => [] | S k => a :: zseq (a + 1) k end.

Lemma zseq_snoc : forall n a, zseq a (S n) = zseq a n ++ [a + Z.of_nat n].
Proof.
  induction n as [|n IH]; intros a.
  - simpl. f_equal. lia.
  - change (zseq a (S (S n))) with (a :: zseq (a + 1) (S n)). rewrite IH.
    simpl. do 2 f_equal. f_equal. lia.
Qed.

Lemma consec_zseq : forall l hi, consec l hi ->
  map f_seq (rev l) = zseq (hi - Z.of_nat (length l)) (length l).
Proof.
  induction l as [|a l IH]; intros hi Hc.
  - reflexivity.
  - destruct Hc as [Ha Hc]. cbn [rev]. rewrite map_app, (IH _ Hc).
    cbn [length map]. rewrite zseq_snoc. f_equal.
    + f_equal. lia.
    + f_equal. lia.
Qed.

Lemma filter_rev {A} : forall (p : A -> bool) l, filter p (rev l) = rev (filter p l).
Proof.
  induction l as [|a l IH]; simpl; auto.
  rewrite filter_app, IH. simpl. destruct (p a); simpl; auto. rewrite app_nil_r. auto.
Qed.

Definition is_new (m : msg) : bool := negb (m_ty m =? T_SEQRESET) && negb (m_pd m).
Definition is_newf (f : frame) : bool := negb (f_ty f =? T_SEQRESET) && negb (f_pd f).
Definition newf (l : list frame) : list frame := filter is_newf l.

(* a legitimate retransmission frame, given the journal and the live counter: the PossDup copy of a
   journaled message under that message's number, or a gap fill b -> n over numbers already used *)
Definition retx_ok (rws : list (Z * frame)) (hi : Z) (g : frame) : Prop :=
  (exists k f, In (k, f) rws /\ g = mkF (f_seq f) (f_ty f) true (f_id f) false)
  \/ (exists b n, g = mkF b T_SEQRESET false n true /\ b < n <= hi).

Definition retx_msg (rws : list (Z * frame)) (hi : Z) (m : msg) : Prop :=
  (exists k f, In (k, f) rws /\ m = replay_msg f)
  \/ (exists b n, m = gapfill_msg b n /\ b < n <= hi).

Definition instr_ok (rws : list (Z * frame)) (hi : Z) (i : instr) : Prop :=
  match i with
  | ISend m | ISendRest m => is_new m = true \/ retx_msg rws hi m
  | IRaise e => e <> EDupSeq
  | _ => True
  end.

(* code that is safe in world w *)
Definition cok (w : world) (c : list instr) : Prop := Forall (instr_ok (rows w) (nout w)) c.

(* journal entries are keyed by their own number and lie below the live counter *)
Definition ent_ok (w : world) : Prop := forall k f, In (k, f) (rows w) -> f_seq f = k /\ k < nout w.

Definition wle (w w' : world) : Prop := nout w <= nout w' /\ incl (rows w) (rows w').

Lemma wle_refl : forall w, wle w w.
Proof. intros; split; [lia|apply incl_refl]. Qed.

Lemma wle_trans : forall a b c, wle a b -> wle b c -> wle a c.
Proof. intros a b c [? ?] [? ?]; split; [lia|eapply incl_tran; eauto]. Qed.

Lemma retx_ok_mono : forall r r' hi hi' g, incl r r' -> hi <= hi' -> retx_ok r hi g -> retx_ok r' hi' g.
Proof.
  intros r r' hi hi' g Hi Hh [(k&f&?&?)|(b&n&?&?)]; [left|right].
  - exists k, f; auto.
  - exists b, n; split; auto; lia.
Qed.

Lemma instr_ok_mono : forall r r' hi hi' i, incl r r' -> hi <= hi' -> instr_ok r hi i -> instr_ok r' hi' i.
Proof.
  intros r r' hi hi' i Hi Hh H. destruct i; simpl in *; auto;
    (destruct H as [|[(k&f&?&?)|(b&n&?&?)]]; [left; auto|right; left; exists k, f; auto|
      right; right; exists b, n; split; auto; lia]).
Qed.

Lemma cok_mono : forall w w' c, wle w w' -> cok w c -> cok w' c.
Proof.
  intros w w' c [Hn Hr] H. unfold cok in *. eapply Forall_impl; [|exact H].
  intros i Hi. eapply instr_ok_mono; eauto.
Qed.

Definition no_dup_out (out : list outcome) : Prop := ~ In (OExc EDupSeq) out.

Lemma no_dup_out_cons : forall e out, e <> EDupSeq -> no_dup_out out -> no_dup_out (OExc e :: out).
Proof. unfold no_dup_out; intros e out He Hc [H|H]; [inversion H; congruence|auto]. Qed.

Lemma no_dup_out_ok : forall out, no_dup_out out -> no_dup_out (OOk :: out).
Proof. unfold no_dup_out; intros out Hc [H|H]; [discriminate|auto]. Qed.

Definition task_ok (w : world) (t : task) : Prop :=
  cok w (t_code t) /\ no_dup_out (t_out t) /\ t_exc t <> Some EDupSeq.

Lemma task_ok_mono : forall w w' t, wle w w' -> task_ok w t -> task_ok w' t.
Proof. intros w w' t Hw (?&?&?). repeat split; auto. eapply cok_mono; eauto. Qed.

(* w' differs from w in state / role / TestReqID / ticket only *)
Definition same_seq (w w' : world) : Prop :=
  nout w' = nout w /\ sout w' = sout w /\ rows w' = rows w /\ rwire w' = rwire w.

Lemma same_seq_refl : forall w, same_seq w w.
Proof. intros; repeat split. Qed.

Lemma same_seq_trans : forall a b c, same_seq a b -> same_seq b c -> same_seq a c.
Proof. unfold same_seq; intros a b c (?&?&?&?) (?&?&?&?); repeat split; congruence. Qed.

Lemma same_seq_wle : forall w w', same_seq w w' -> wle w w'.
Proof. intros w w' (Hn&_&Hr&_). split; [lia|rewrite Hr; apply incl_refl]. Qed.

Lemma same_seq_cok : forall w w' c, same_seq w w' -> cok w c -> cok w' c.
Proof. intros. eapply cok_mono; eauto using same_seq_wle. Qed.

Lemma same_seq_ent : forall w w', same_seq w w' -> ent_ok w -> ent_ok w'.
Proof. intros w w' (Hn&_&Hr&_) H k f. rewrite Hr, Hn. apply H. Qed.

Lemma ent_none : forall w k, ent_ok w -> nout w <= k -> row_at k (rows w) = None.
Proof.
  intros w k He Hk. destruct (row_at k (rows w)) as [f|] eqn:E; auto.
  destruct (He _ _ (row_at_in _ _ _ E)). lia.
Qed.

(* what a segment does to the sequence state: nothing, exactly one new frame numbered nout - journaled
   under nout, stored counter nout, live counter nout + 1, all in the same segment -, or exactly one
   retransmission frame (no counter, no journal change) *)
Inductive wstep (w w' : world) : Prop :=
| WS_quiet : same_seq w w' -> wstep w w'
| WS_sent : forall f, rwire w' = f :: rwire w -> f_seq f = nout w -> is_newf f = true ->
    nout w' = nout w + 1 -> sout w' = nout w -> rows w' = insert_row (nout w) f (rows w) ->
    wstep w w'
| WS_retx : forall g, rwire w' = g :: rwire w -> is_newf g = false -> retx_ok (rows w) (nout w) g ->
    nout w' = nout w -> sout w' = sout w -> rows w' = rows w ->
    wstep w w'.

Lemma wstep_same : forall w0 w w', same_seq w0 w -> wstep w w' -> wstep w0 w'.
Proof.
  intros w0 w w' Hs [Hq|f H1 H2 H3 H4 H5 H6|g H1 H2 H3 H4 H5 H6].
  - apply WS_quiet. eapply same_seq_trans; eauto.
  - destruct Hs as (?&?&?&?). apply WS_sent with (f := f); congruence.
  - destruct Hs as (?&?&?&?). apply WS_retx with (g := g); congruence.
Qed.

Lemma wstep_wle : forall w w', wstep w w' -> wle w w'.
Proof.
  intros w w' [Hq|f _ _ _ Hn _ Hr|g _ _ _ Hn _ Hr].
  - apply same_seq_wle; auto.
  - split; [lia|rewrite Hr; intros [k g] H; apply in_insert_row; auto].
  - split; [lia|rewrite Hr; apply incl_refl].
Qed.

(* the outcome of a segment started in w: the task is still safe, in the world it left *)
Definition good (w : world) (r : res) : Prop := task_ok (snd r) (fst r) /\ wstep w (snd r).

(* a continuation that is called, synchronously, in a world that differs from w in state/role/TestReqID only *)
Definition kgood (w : world) (k : list outcome -> world -> res) : Prop :=
  forall out w1, same_seq w w1 -> no_dup_out out -> good w1 (k out w1).

Lemma good_same : forall w0 w r, same_seq w0 w -> good w r -> good w0 r.
Proof. intros w0 w r Hs [? Hp]. split; auto. eapply wstep_same; eauto. Qed.

Lemma kgood_same : forall w w1 k, same_seq w w1 -> kgood w k -> kgood w1 k.
Proof. intros w w1 k Hs Hk out w2 Hs2 Hc. apply Hk; auto. eapply same_seq_trans; eauto. Qed.

(* the segment ends without a frame: at a hook, or for good *)
Lemma good_quiet : forall w w' code wt out x ab, same_seq w w' -> cok w' code -> no_dup_out out -> x <> Some EDupSeq ->
  good w (mkT code wt out x ab, w').
Proof. intros. split; [repeat split; assumption|apply WS_quiet; assumption]. Qed.

Lemma good_raise : forall abort e b out w after k, e <> EDupSeq -> no_dup_out out -> kgood w k ->
  good w (raise_ abort e b out w after k).
Proof.
  intros abort e b out w after k He Hc Hk. unfold raise_. destruct abort.
  - assert (Hc' : no_dup_out (if b then OExc e :: out else out)) by (destruct b; auto using no_dup_out_cons).
    destruct (existsb is_finally after && (st w =? S_HANDLING)); apply good_quiet; auto; try discriminate.
    + repeat split.
    + constructor; [exact He|constructor].
    + apply same_seq_refl.
    + constructor.
    + congruence.
  - apply Hk; [apply same_seq_refl|]. apply no_dup_out_cons; auto.
Qed.

(* a retransmission frame goes out: no counter, no journal change *)
Lemma good_retx : forall w g rest wt out ab, cok w rest -> no_dup_out out ->
  is_newf g = false -> retx_ok (rows w) (nout w) g -> good w (mkT rest wt out None ab, push_wire g w).
Proof.
  intros w g rest wt out ab Hs Hc Hn Hg. split.
  - repeat split; simpl; auto; discriminate.
  - apply WS_retx with (g := g); auto.
Qed.

Lemma good_send_tail : forall abort m rest out w k, ent_ok w ->
  (is_new m = true \/ retx_msg (rows w) (nout w) m) -> cok w rest -> no_dup_out out -> kgood w k ->
  good w (send_tail abort m rest out w k).
Proof.
  intros abort m rest out w k He Hm Hs Hc Hk. unfold send_tail.
  destruct ((m_ty m =? T_TESTREQ) && (negb (treq w) || negb (m_id m =? 0))).
  { apply good_raise; auto; discriminate. }
  destruct Hm as [Hn|[(kk&f&Hin&->)|(b&n&->&Hbn)]].
  - unfold is_new in Hn. apply andb_true_iff in Hn. destruct Hn as [Hty Hpd].
    apply negb_true_iff in Hty, Hpd. unfold number. rewrite Hty, Hpd.
    unfold nojournal, persist. cbn [f_pd f_ty f_gf f_seq rows]. rewrite ?Hty, ?Hpd. cbn [orb andb].
    rewrite (ent_none w (nout w) He (Z.le_refl _)). split.
    + repeat split; simpl; auto; try discriminate.
      eapply cok_mono; [|exact Hs]. split; simpl; [lia|]. intros [k0 g] H. apply in_insert_row. auto.
    + eapply WS_sent; simpl; try reflexivity. unfold is_newf. simpl. rewrite Hty. reflexivity.
  - assert (Hnum : number (replay_msg f) w = inr (f_seq f, w)).
    { unfold number, replay_msg. simpl. destruct (f_ty f =? T_SEQRESET); reflexivity. }
    rewrite Hnum. apply good_retx; auto.
    + unfold is_newf. simpl. apply andb_false_r.
    + left. exists kk, f. auto.
  - apply (good_retx w (mkF b T_SEQRESET false n true)); auto. right. exists b, n. auto.
Qed.

Lemma good_send_head : forall abort m rest out w k, ent_ok w ->
  (is_new m = true \/ retx_msg (rows w) (nout w) m) -> cok w rest -> no_dup_out out -> kgood w k ->
  good w (send_head abort m rest out w k).
Proof.
  intros abort m rest out w k He Hm Hs Hc Hk. unfold send_head. destruct (gate m w) as [e| |] eqn:Eg.
  - (* the gate raises nothing but FIXConnectionError *)
    assert (e = EConn) as ->.
    { unfold gate in Eg. repeat match type of Eg with (if ?c then _ else _) = _ => destruct c end; congruence. }
    apply good_raise; auto; discriminate.
  - apply good_quiet; [repeat split|constructor; [exact Hm|exact Hs]|exact Hc|discriminate].
  - apply good_send_tail; auto.
Qed.

Lemma execf_safe : forall abort code tail k out w, ent_ok w -> cok w code -> cok w tail -> no_dup_out out -> kgood w k ->
  good w (execf abort code tail k out w).
Proof.
  intros abort code. induction code as [|i rest IH]; intros tail k out w He Hcode Htail Hc Hk.
  - simpl. apply Hk; auto using same_seq_refl.
  - inversion Hcode as [|? ? Hi Hrest]; subst.
    assert (Hafter : cok w (rest ++ tail)) by (apply Forall_app; auto).
    assert (Hk' : kgood w (execf abort rest tail k)).
    { intros out1 w1 Hs1 Hc1. apply IH; eauto using same_seq_cok, same_seq_ent, kgood_same. }
    destruct i; cbn [execf]; simpl in Hi.
    + apply good_send_head; auto.
    + assert (Hs : same_seq w (set_role R_INITIATOR w)) by (repeat split).
      apply good_same with (w := set_role R_INITIATOR w); auto.
      apply good_send_tail; eauto using same_seq_cok, same_seq_ent, kgood_same.
    + destruct (treq w).
      * apply good_raise; auto; discriminate.
      * assert (Hs : same_seq w (set_treq true w)) by (repeat split).
        apply good_same with (w := set_treq true w); auto.
        apply good_send_head; eauto using same_seq_cok, same_seq_ent, kgood_same.
    + destruct (unless_awaiting && (st w =? S_AWAITING)).
      * apply Hk'; auto using same_seq_refl.
      * apply good_quiet; [repeat split|exact Hafter|exact Hc|discriminate].
    + apply good_quiet; [apply same_seq_refl|exact Hafter|exact Hc|discriminate].
    + apply good_same with (w := set_role r w); [repeat split|].
      apply Hk'; [repeat split|auto].
    + apply Hk'; auto using same_seq_refl.
    + apply good_raise; auto.
    + destruct (st w =? S_HANDLING).
      * apply good_quiet; [repeat split|exact Hafter|exact Hc|discriminate].
      * apply Hk'; auto using same_seq_refl.
Qed.

Lemma gap_instr_ok : forall rws hi a h, h <= hi ->
  Forall (instr_ok rws hi) (if a <? h then [ISend (gapfill_msg a h)] else []).
Proof.
  intros rws hi a h H. destruct (a <? h) eqn:E; constructor; [|constructor].
  right; right. exists a, h. split; [reflexivity|lia].
Qed.

Lemma replay_code_ok : forall rws hi rs d gfb gfe saved e',
  Forall (fun r => In r rws /\ f_seq (snd r) < hi) rs -> saved <= hi -> (gfe <= hi \/ rs = []) ->
  Forall (instr_ok rws hi) (replay_code rs d gfb gfe saved e').
Proof.
  intros rws hi rs. induction rs as [|[k f] rs IH]; intros d gfb gfe saved e' Hrs Hsv Hg; cbn [replay_code].
  - cbv zeta. destruct (saved <? gfe); [repeat constructor; discriminate|].
    apply Forall_app. split; [apply gap_instr_ok; lia|repeat constructor].
  - inversion Hrs as [|? ? [Hin Hlt] Hrs']; subst. simpl in Hlt.
    assert (Hge : gfe <= hi) by (destruct Hg as [|Hg]; [auto|discriminate]).
    cbv zeta. destruct (is_sess (f_ty f)).
    + apply IH; auto. left; lia.
    + constructor; [exact I|]. destruct (mem_z (f_seq f) d).
      * apply IH; auto. left; lia.
      * assert (Hge' : (if gfb <? f_seq f then f_seq f else gfe) <= hi) by (destruct (gfb <? f_seq f); lia).
        apply Forall_app. split; [apply gap_instr_ok, Hge'|].
        constructor; [right; left; exists k, f; auto|]. apply IH; auto.
Qed.

Lemma resend_code_ok : forall b e d w, ent_ok w -> cok w (resend_code b e d w).
Proof.
  intros b0 e d w He. unfold cok, resend_code. cbv zeta. generalize (Z.max b0 1). intros b.
  set (e' := if (e =? 0) || (MAXSIZE <? e) then MAXSIZE else e).
  (* a recovered row is a journal row at or above BeginSeqNo, hence below the counter *)
  assert (Hrec : Forall (fun r => In r (rows w) /\ b <= f_seq (snd r) < nout w) (recover b e' (rows w))).
  { apply Forall_forall. intros [k f] Hin. apply filter_In in Hin. simpl in Hin.
    destruct Hin as [Hin Hb]. destruct (He _ _ Hin). split; [exact Hin|]. simpl. lia. }
  apply replay_code_ok; [|lia|].
  - eapply Forall_impl; [|exact Hrec]. intros r (Hin & _ & Hlt). auto.
  - destruct Hrec as [|[k f] l [_ Hk] _]; [auto|left]. simpl in Hk. lia.
Qed.

Lemma exec_safe : forall abort code out w, ent_ok w -> cok w code -> no_dup_out out ->
  good w (exec abort code out w).
Proof.
  intros abort code. induction code as [|i rest IH]; intros out w He Hcode Hc.
  - apply good_quiet; [apply same_seq_refl|constructor|exact Hc|discriminate].
  - inversion Hcode as [|? ? Hi Hrest]; subst.
    assert (Hk : kgood w (exec abort rest)).
    { intros out1 w1 Hs1 Hc1. apply IH; eauto using same_seq_cok, same_seq_ent. }
    destruct i; cbn [exec];
      try (apply execf_safe; auto; constructor; [exact Hi|constructor]).
    apply execf_safe; auto. apply resend_code_ok; auto.
Qed.

Lemma resume_any : forall t w, ent_ok w -> task_ok w t -> good w (resume t w).
Proof.
  intros t w He Ht. pose proof Ht as (Hs & Hc & _). unfold resume.
  destruct (t_wait t); try (apply exec_safe; auto using no_dup_out_ok).
  split; [exact Ht|apply WS_quiet, same_seq_refl].
Qed.

(* the invariant speaks about the world only (the journal write is inside the atomic segment of send_msg)
   and holds after every scheduler step of every schedule; n0, rows0 = counter and journal at the start *)
Record Inv (n0 : Z) (rows0 : list (Z * frame)) (w : world) : Prop := mkInv {
  i_consec : consec (newf (rwire w)) (nout w);
  i_len : nout w = n0 + Z.of_nat (length (newf (rwire w)));
  i_retx : Forall (fun g => is_newf g = true \/ retx_ok (rows w) (nout w) g) (rwire w);
  i_ent : ent_ok w;
  i_low : forall k, k < n0 -> row_at k (rows w) = row_at k rows0;
  i_rows : forall k f, n0 <= k -> row_at k (rows w) = Some f -> In f (newf (rwire w)) /\ f_seq f = k;
  i_cover : forall f, In f (newf (rwire w)) -> row_at (f_seq f) (rows w) = Some f;
  i_sout : sout w = nout w - 1
}.

Lemma inv_range : forall n0 r0 w f, Inv n0 r0 w -> In f (newf (rwire w)) -> n0 <= f_seq f < nout w.
Proof.
  intros n0 r0 w f HI Hin. pose proof (consec_in _ _ _ (i_consec _ _ _ HI) Hin).
  pose proof (i_len _ _ _ HI). lia.
Qed.

Lemma inv_step : forall n0 r0 w w', Inv n0 r0 w -> wstep w w' -> Inv n0 r0 w'.
Proof.
  intros n0 r0 w w' HI [Hs|f Hw Hseq Hnew Hn Hso Hr|g Hw Hnew Hg Hn Hso Hr].
  - pose proof Hs as (Hn&Hso&Hr&Hw). destruct HI.
    constructor; rewrite ?Hn, ?Hso, ?Hr, ?Hw; auto.
    eapply same_seq_ent; eauto.
  - pose proof (i_len _ _ _ HI) as Hlen.
    assert (Hfree : row_at (nout w) (rows w) = None) by (apply ent_none; [apply (i_ent _ _ _ HI)|lia]).
    assert (Hnf : newf (rwire w') = f :: newf (rwire w)) by (rewrite Hw; unfold newf; simpl; rewrite Hnew; auto).
    assert (Hincl : incl (rows w) (insert_row (nout w) f (rows w))) by (intros [k g] H; apply in_insert_row; auto).
    constructor; rewrite ?Hnf, ?Hn, ?Hso, ?Hr.
    + simpl. split; [lia|]. replace (nout w + 1 - 1) with (nout w) by lia. apply (i_consec _ _ _ HI).
    + simpl length. rewrite Nat2Z.inj_succ. lia.
    + rewrite Hw. constructor; auto.
      eapply Forall_impl; [|apply (i_retx _ _ _ HI)]. intros g [|Hg]; auto. right.
      eapply retx_ok_mono; [exact Hincl| |exact Hg]. lia.
    + intros k g Hg. rewrite Hr in Hg. rewrite Hn. apply in_insert_row in Hg. destruct Hg as [Hg|Hg].
      * inversion Hg; subst. split; auto; lia.
      * destruct (i_ent _ _ _ HI k g Hg). split; auto; lia.
    + intros k Hk. rewrite row_at_insert by assumption.
      destruct (k =? nout w) eqn:E; [apply Z.eqb_eq in E; lia|]. apply (i_low _ _ _ HI); auto.
    + intros k g Hk Hg. rewrite row_at_insert in Hg by assumption.
      destruct (k =? nout w) eqn:E.
      * apply Z.eqb_eq in E. inversion Hg; subst. split; [left; auto|lia].
      * destruct (i_rows _ _ _ HI k g Hk Hg). split; auto. right; auto.
    + intros g [<-|Hg]; rewrite row_at_insert by assumption.
      * rewrite Hseq, Z.eqb_refl. reflexivity.
      * pose proof (inv_range _ _ _ _ HI Hg).
        destruct (f_seq g =? nout w) eqn:E; [apply Z.eqb_eq in E; lia|]. apply (i_cover _ _ _ HI); auto.
    + lia.
  - assert (Hnf : newf (rwire w') = newf (rwire w)) by (rewrite Hw; unfold newf; simpl; rewrite Hnew; auto).
    destruct HI.
    constructor; rewrite ?Hnf, ?Hn, ?Hso, ?Hr; auto.
    + rewrite Hw. constructor; auto.
    + intros k f Hf. rewrite Hr in Hf. rewrite Hn. auto.
Qed.

Definition CInv (n0 : Z) (r0 : list (Z * frame)) (c : config) : Prop :=
  Inv n0 r0 (c_w c) /\ (forall j t, nth_error (c_ts c) j = Some t -> task_ok (c_w c) t).

Lemma step_inv : forall n0 r0 c i, CInv n0 r0 c -> CInv n0 r0 (sched_step c i).
Proof.
  intros n0 r0 c i [HI Hall]. unfold sched_step. destruct (nth_error (c_ts c) i) as [t|] eqn:Hi; [|split; auto].
  destruct (resume_any t (c_w c) (i_ent _ _ _ HI) (Hall _ _ Hi)) as [Hok Hp].
  destruct (resume t (c_w c)) as [t' w']. split; simpl in *.
  - eapply inv_step; eauto.
  - intros j t0 Hj. destruct (nth_upd _ _ _ _ _ Hj) as [[_ ->]|Hj']; [exact Hok|].
    eapply task_ok_mono; [apply wstep_wle; exact Hp|eauto].
Qed.

Lemma run_inv : forall n0 r0 sched c, CInv n0 r0 c -> CInv n0 r0 (run_sched c sched).
Proof.
  intros n0 r0 sched. induction sched as [|i s IH]; intros c HC; simpl; auto.
  apply IH. apply step_inv; auto.
Qed.

(* the world the scenario starts from: nothing on the (observed) wire yet, journal rows keyed by their
   own number and below the live counter, stored counter = live counter - 1 (a quiescent session) *)
Definition init_ok (w : world) : Prop :=
  rwire w = [] /\ ent_ok w /\ sout w = nout w - 1.

(* what a task may consist of: everything the library runs on the outbound path *)
Definition base_instr (i : instr) : bool :=
  match i with
  | ISend m | ISendRest m => is_new m
  | ITestReq | IStateHook _ _ | IHook | ISetRole _ | IResend _ _ _ | IFinally => true
  | IRaise _ => false
  end.

Definition fresh_task (t : task) : Prop :=
  t_wait t = WStart /\ forallb base_instr (t_code t) = true /\ t_out t = [] /\ t_exc t = None.

Definition no_dup_error (ts : list task) : Prop :=
  forall j t, nth_error ts j = Some t -> ~ In (OExc EDupSeq) (t_out t) /\ t_exc t <> Some EDupSeq.

(* the full property on the configuration c reached from world w0 by ANY schedule prefix;
   new = the new messages on the wire *)
Definition safe_outcome (w0 : world) (c : config) : Prop :=
  let w := c_w c in
  let new := newf (wire_of w) in
  map f_seq new = zseq (nout w0) (length new)
  /\ nout w = nout w0 + Z.of_nat (length new)
  /\ Forall (fun g => is_newf g = true \/ retx_ok (rows w) (nout w) g) (wire_of w)
  /\ no_dup_error (c_ts c)
  /\ (forall f, In f new -> row_at (f_seq f) (rows w) = Some f)
  /\ (forall k f, nout w0 <= k -> row_at k (rows w) = Some f -> In f new /\ f_seq f = k)
  /\ (forall k, k < nout w0 -> row_at k (rows w) = row_at k (rows w0))
  /\ sout w = nout w - 1.

Lemma base_cok : forall w c, forallb base_instr c = true -> cok w c.
Proof.
  intros w c H. unfold cok. apply Forall_forall. intros i Hi. rewrite forallb_forall in H. specialize (H _ Hi).
  destruct i; simpl in *; auto; discriminate.
Qed.

Lemma init_cinv : forall w0 ts, init_ok w0 -> Forall fresh_task ts -> CInv (nout w0) (rows w0) (mkC w0 ts).
Proof.
  intros w0 ts (Hw & He & Hs) Hts.
  split; simpl.
  - constructor; rewrite ?Hw; simpl; auto; try contradiction.
    + lia.
    + intros k f Hk Hf. rewrite (ent_none _ _ He Hk) in Hf. discriminate.
  - intros j t Hj. rewrite Forall_forall in Hts. destruct (Hts _ (nth_error_In _ _ Hj)) as (_&Hc&Ho&Hx).
    repeat split; [apply base_cok; auto|rewrite Ho; intros []|rewrite Hx; discriminate].
Qed.

Theorem safe_tasks_safe : forall (w0 : world) (ts : list task) (sched : list nat),
  init_ok w0 -> Forall fresh_task ts ->
  safe_outcome w0 (run_sched (mkC w0 ts) sched).
Proof.
  intros w0 ts sched Hw Hts.
  pose proof (run_inv _ _ sched _ (init_cinv _ _ Hw Hts)) as [HI Hok].
  set (c := run_sched (mkC w0 ts) sched) in *.
  unfold safe_outcome. unfold wire_of, newf. rewrite filter_rev. fold (newf (rwire (c_w c))).
  pose proof (i_len _ _ _ HI) as Hlen.
  split; [rewrite (consec_zseq _ _ (i_consec _ _ _ HI)), rev_length; f_equal; lia|].
  split; [rewrite rev_length; lia|].
  split; [apply Forall_rev, (i_retx _ _ _ HI)|].
  split; [intros j t Hj; destruct (Hok _ _ Hj) as (_ & Hc & He); split; assumption|].
  split; [intros f Hf; apply in_rev in Hf; apply (i_cover _ _ _ HI), Hf|].
  split; [intros k f Hk Hf; rewrite <- in_rev; apply (i_rows _ _ _ HI k f Hk Hf)|].
  split; [apply (i_low _ _ _ HI)|apply (i_sout _ _ _ HI)].
Qed.

Lemma senders_fresh : forall mss, Forall (fun ms => forallb is_new ms = true) mss ->
  Forall fresh_task (map sender_task mss).
Proof.
  intros mss Hm. apply Forall_forall. intros t Ht. apply in_map_iff in Ht. destruct Ht as (ms&<-&Hin).
  rewrite Forall_forall in Hm. specialize (Hm _ Hin). rewrite forallb_forall in Hm.
  repeat split; simpl; auto. apply forallb_forall.
  intros i Hi. apply in_map_iff in Hi. destruct Hi as (m&<-&Hm'). exact (Hm _ Hm').
Qed.

(* the reader task r plus the heartbeat probe plus any number of application senders *)
Theorem window_safe : forall (w0 : world) (r : task) (mss : list (list msg)) (sched : list nat),
  init_ok w0 -> fresh_task r -> Forall (fun ms => forallb is_new ms = true) mss ->
  safe_outcome w0 (run_sched (mkC w0 (r :: heartbeat_task :: map sender_task mss)) sched).
Proof.
  intros w0 r mss sched Hw Hr Hm. apply safe_tasks_safe; auto.
  constructor; [exact Hr|]. constructor; [repeat split; reflexivity|]. apply senders_fresh, Hm.
Qed.

(* init_ok, decided: for the concrete worlds of the examples *)
Definition init_okb (w : world) : bool :=
  match rwire w with [] => true | _ => false end
  && forallb (fun r => (f_seq (snd r) =? fst r) && (fst r <? nout w)) (rows w)
  && (sout w =? nout w - 1).

Lemma init_okb_ok : forall w, init_okb w = true -> init_ok w.
Proof.
  intros w H. unfold init_okb in H. apply andb_true_iff in H as [H Hs]. apply andb_true_iff in H as [Hw He].
  split; [destruct (rwire w); [reflexivity|discriminate]|]. split; [|lia].
  intros k f Hin. rewrite forallb_forall in He. specialize (He _ Hin). simpl in He. lia.
Qed.

(* the worlds and schedules of the examples of Props/C14.v *)
Definition app (i : Z) : msg := mkMsg 68 i None false false.
Definition active0 : world := mkW 1 0 [] [] S_ACTIVE R_INITIATOR false 0.

(* non-vacuity: two senders x two messages in state ACTIVE, a FIFO schedule; all four go out 1..4,
   all journaled, counter 4 *)
Definition ex_cfg : config := mkC active0 [sender_task [app 1; app 2]; sender_task [app 3; app 4]].
Definition ex_sched : list nat := [0; 1; 0; 1; 0; 1]%nat.

(* the world after pre-history ms was sent by one task alone from a fresh session *)
Fixpoint run_alone (fuel : nat) (c : config) : config :=
  match fuel with O => c | S f => if all_done c then c else run_alone f (sched_step c 0%nat) end.
Definition after (pre : list msg) : world :=
  let w := c_w (run_alone (2 * length pre + 2) (mkC active0 [sender_task pre])) in
  mkW (nout w) (sout w) (rows w) [] (st w) (role w) (treq w) (tick w).

(* (number, PossDupFlag, id) of each frame, wire order *)
Definition wire_view (w : world) : list (Z * bool * Z) := map (fun f => (f_seq f, f_pd f, f_id f)) (wire_of w).

(* The three schedules that broke the property before the repair of D12 (next_num_out rewound during the
   replay): an application send that STARTS inside the ResendRequest service now gets the next free number. *)
Definition rw_cfg : config := mkC (after [app 1; app 2; app 3]) [reader_resend 1 0 []; sender_task [app 9]].
Definition rw_sched : list nat := [0; 0; 1; 0; 1; 0; 0; 0; 0; 0; 0]%nat.

Definition rw_sched2 : list nat := [0; 0; 0; 0; 1; 1; 0; 0; 0; 0; 0]%nat.

(* the heartbeat probe already suspended in drain (numbered 3 and journaled under 3, like every send) when
   the ResendRequest arrives: messages 1, 2 are retransmitted, 3 - session level - is covered by the tail gap
   fill 3 -> 4, nothing is reused *)
Definition hb_cfg : config := mkC (after [app 1; app 2]) [reader_resend 1 0 []; heartbeat_task].
Definition hb_sched : list nat := [1; 0; 0; 0; 1; 0; 0; 0; 0; 0]%nat.

(* the wake-up order of drain waiters no longer matters (before R8a the journal write came after drain and this
   LIFO schedule left the stored counter at 1): stored counter = highest number sent under LIFO wake-up too *)
Definition lifo_cfg : config := mkC active0 [sender_task [app 1]; sender_task [app 2]].
Definition lifo_sched : list nat := [0; 1; 1; 0]%nat.

(* a request that cannot be served (BeginSeqNo beyond the last sent number): the assertion aborts the handler,
   the finally clause around _process_resend puts the state back to ACTIVE (one more on_state_change hook),
   the concurrent send is unaffected *)
Definition un_cfg : config := mkC (after [app 1; app 2]) [reader_resend 7 0 []; sender_task [app 9]].
Definition un_sched : list nat := [0; 0; 1; 0; 1]%nat.

