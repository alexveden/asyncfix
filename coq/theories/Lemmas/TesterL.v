(* C20, the tester model Fix/Tester.v.  Three ideas carry the file: the message of an accepted call is a function of
   the state, the order and the arguments (sent_report, read by sent_report_get; exec_inv); every helper call extends
   the tester state (tester_ext, run_ext); and process_sent_report says once what the order object does with such a
   message. *)
From Coq Require Import ZArith List Bool Lia Sorting.Sorted Sorting.Permutation FinFun.
From AF Require Import Base.Sx Py.Str Lemmas.StrB Fix.OrderStatus Fix.Tester.
Import ListNotations.
Open Scope Z_scope.

Lemma NoDup_by_nodup (l : list N) : nodup N.eq_dec l = l -> NoDup l.
Proof. intros <-. apply NoDup_nodup. Qed.

Lemma mem_In x l : mem x l = true <-> In x l.
Proof.
  unfold mem. rewrite existsb_exists. split.
  - intros (y & I & E). apply N.eqb_eq in E. now subst.
  - intros I. exists x. split; [exact I|apply N.eqb_refl].
Qed.

Lemma sorted_nodup ids : StronglySorted Z.lt ids -> NoDup ids.
Proof.
  induction 1 as [|z ids SS IH F]; constructor; [|assumption].
  intros I. rewrite Forall_forall in F. specialize (F _ I). lia.
Qed.

(* the tester state after the OrderID step (fixes/R12b: one id per root ClOrdID) and the id it yields *)
Definition ids_state (t : tstate) (o : order) : tstate :=
  match o_oid o with None => snd (order_id_for t (root_of o)) | Some _ => t end.
Definition oid_num (t : tstate) (o : order) : Z := fst (order_id_for t (root_of o)).

Definition order_id_text (t : tstate) (o : order) : str :=
  match o_oid o with None => z_to_dec (oid_num t o) | Some s => s end.

Definition after_ids (t : tstate) (o : order) : tstate :=
  let t1 := ids_state t o in mkT (t_oid t1) (t_eid t + 1) (t_reg t) (t_oids t1).

Definition report (t : tstate) (o : order) (a : eargs) (clord : str) (oq cum leaves price : Z) (last : msg) : msg :=
  ([(T_ClOrdID, VS clord); (T_OrderID, VS (order_id_text t o)); (T_ExecID, VS (z_to_dec (t_eid t + 1)))]
   ++ opt_field T_OrigClOrdID (a_orig a)
   ++ [(T_ExecType, VS [a_exec a]); (T_OrdStatus, VS [a_status a]); (T_Side, VS (o_side o))])
  ++ [(T_CumQty, VQ cum); (T_LeavesQty, VQ leaves)] ++ last
  ++ [(T_Symbol, VS (o_ticker o)); (T_Price, VQ price); (T_OrderQty, VQ oq);
      (T_AvgPx, VQ (a_avg a)); (T_Account, VS (o_account o))].

(* the function, with the id bookkeeping folded into order_id_text / after_ids *)
Lemma fix_exec_unfold u t o a :
  fix_exec_report_msg u t o a =
  if negb (registered t (o_clord o)) then AssertionFailed t else
  match a_clord a with
  | None | Some [] => AssertionFailed t
  | Some (c :: cs) =>
    if (a_status a =? CREATED)%N then AssertionFailed t else
    match resolve_qtys o a with
    | None => AssertionFailed (after_ids t o)
    | Some (oq, cum, leaves) =>
      match trade_fields u o a cum with
      | None => AssertionFailed (after_ids t o)
      | Some last =>
        match resolve_price o a with
        | None => AssertionFailed (after_ids t o)
        | Some price =>
          if pending_cancel_ok o a cum leaves && finished_ok a leaves
          then Ok (report t o a (c :: cs) oq cum leaves price last) (after_ids t o)
          else AssertionFailed (after_ids t o)
        end
      end
    end
  end.
Proof.
  unfold fix_exec_report_msg, report, order_id_text, after_ids, ids_state, oid_num, order_id_for,
    next_order_id, next_exec_id.
  destruct (negb (registered t (o_clord o))); [reflexivity|].
  destruct (a_clord a) as [[|c cs]|]; try reflexivity.
  destruct (a_status a =? CREATED)%N; [reflexivity|].
  destruct (o_oid o) as [s|]; [|destruct (lookup (root_of o) (t_oids t))]; cbn [fst snd t_oid t_eid t_reg t_oids];
  (destruct (resolve_qtys o a) as [[[oq cum] leaves]|]; [|reflexivity];
   destruct (trade_fields u o a cum) as [last|]; [|reflexivity];
   destruct (resolve_price o a) as [price|]; reflexivity).
Qed.

(* the conditions of the assertion chain (incl. ord_status != CREATED, fixes/R12a), with the values they leave *)
Definition exec_accepted (u : Z) (t : tstate) (o : order) (a : eargs) (m : msg) (t' : tstate) : Prop :=
  exists clord oq cum leaves price last,
    registered t (o_clord o) = true /\ a_clord a = Some clord /\ clord <> [] /\ a_status a <> CREATED /\
    resolve_qtys o a = Some (oq, cum, leaves) /\ trade_fields u o a cum = Some last /\
    resolve_price o a = Some price /\ pending_cancel_ok o a cum leaves = true /\ finished_ok a leaves = true /\
    t' = after_ids t o /\ m = report t o a clord oq cum leaves price last.

Lemma fix_exec_cases u t o a :
  match fix_exec_report_msg u t o a with
  | Ok m t' => exec_accepted u t o a m t'
  | AssertionFailed t' => t' = t \/ t' = after_ids t o
  end.
Proof.
  rewrite fix_exec_unfold.
  destruct (registered t (o_clord o)) eqn:R; cbn [negb]; [|now left].
  destruct (a_clord a) as [[|c cs]|] eqn:C; try now left.
  destruct (a_status a =? CREATED)%N eqn:ST; [now left|]. apply N.eqb_neq in ST.
  destruct (resolve_qtys o a) as [[[oq cum] leaves]|] eqn:Q; [|now right].
  destruct (trade_fields u o a cum) as [last|] eqn:TF; [|now right].
  destruct (resolve_price o a) as [price|] eqn:P; [|now right].
  destruct (pending_cancel_ok o a cum leaves) eqn:PC; [|now right].
  destruct (finished_ok a leaves) eqn:F; [|now right]. cbn [andb].
  exists (c :: cs), oq, cum, leaves, price, last. repeat split; try assumption; discriminate.
Qed.

Lemma exec_accepts_iff u t o a m t' : fix_exec_report_msg u t o a = Ok m t' <-> exec_accepted u t o a m t'.
Proof.
  split.
  - intros H. pose proof (fix_exec_cases u t o a) as C. now rewrite H in C.
  - intros (clord & oq & cum & leaves & price & last & R & C & NE & ST & Q & TF & P & PC & F & -> & ->).
    destruct clord as [|c cs]; [congruence|]. apply N.eqb_neq in ST.
    rewrite fix_exec_unfold, R, C, ST, Q, TF, P, PC, F. reflexivity.
Qed.

Lemma exec_fail_state u t o a t' :
  fix_exec_report_msg u t o a = AssertionFailed t' ->
  t' = t \/ t' = after_ids t o.
Proof. intros H. pose proof (fix_exec_cases u t o a) as C. now rewrite H in C. Qed.

(* an omitted argument (nan) stands for the order's value *)
Definition or_default {A} (x : option A) (d : A) : A := match x with Some v => v | None => d end.

Lemma or_default_ind {A} (P : A -> Prop) x d : (forall v, x = Some v -> P v) -> P d -> P (or_default x d).
Proof. destruct x as [v|]; cbn [or_default]; auto. Qed.

(* resolve_order_qty, resolve_cum, resolve_leaves and resolve_price all have this shape *)
Lemma checked_default {A} (x : option A) (d : A) (ok : A -> bool) r :
  match x with Some v => if ok v then Some v else None | None => Some d end = Some r ->
  r = or_default x d /\ forall v, x = Some v -> ok v = true.
Proof.
  destruct x as [v|]; [destruct (ok v) eqn:E|]; intros [= <-]; split; try reflexivity.
  - now intros ? [= <-].
  - discriminate.
Qed.

Definition r_qty (o : order) (a : eargs) : Z := or_default (a_oqty a) (o_qty o).
Definition r_cum (o : order) (a : eargs) : Z := or_default (a_cum a) (o_cum o).
Definition r_leaves (o : order) (a : eargs) : Z := or_default (a_leaves a) (o_leaves o).
Definition r_price (o : order) (a : eargs) : Z := or_default (a_price a) (o_price o).

Lemma resolve_qtys_spec o a oq cum leaves :
  resolve_qtys o a = Some (oq, cum, leaves) ->
  oq = r_qty o a /\ cum = r_cum o a /\ leaves = r_leaves o a /\ cum + leaves <= oq /\
  (forall q, a_oqty a = Some q -> a_exec a = X_REPLACED /\ 0 < q) /\
  (forall c, a_cum a = Some c -> 0 <= c <= o_qty o) /\
  (forall l, a_leaves a = Some l -> 0 <= l <= oq).
Proof.
  unfold resolve_qtys. intros H.
  destruct (resolve_order_qty o a) as [oq'|] eqn:Q; [|discriminate].
  destruct (resolve_cum o a) as [cum'|] eqn:C; [|discriminate].
  destruct (resolve_leaves o a oq') as [leaves'|] eqn:L; [|discriminate].
  destruct (cum' + leaves' <=? oq') eqn:S; [|discriminate]. injection H as <- <- <-.
  apply checked_default in Q as (EQ & Q). apply checked_default in C as (EC & C). apply checked_default in L as (EL & L).
  do 3 (split; [assumption|]). split; [lia|]. split; [|split]; intros v E.
  - specialize (Q v E). lia.
  - specialize (C v E). lia.
  - specialize (L v E). lia.
Qed.

Definition last_field (a : eargs) : msg := match a_last a with Some l => [(T_LastQty, VQ l)] | None => [] end.

Lemma trade_fields_shape u o a cum last :
  trade_fields u o a cum = Some last ->
  last = last_field a /\
  match a_last a with
  | Some l => a_exec a = X_TRADE /\ 0 < l /\ 2000 * Z.abs (l - (cum - o_cum o)) <= u
  | None => a_exec a <> X_TRADE
  end.
Proof.
  unfold trade_fields, last_field, round3_zero. destruct (a_last a) as [l|].
  - destruct (_ && _) eqn:E; intros [= <-]. split; [reflexivity|lia].
  - destruct (a_exec a =? X_TRADE)%N eqn:E; intros [= <-]. split; [reflexivity|lia].
Qed.

(* the message of an accepted call is a function of the state, the order and the arguments *)
Definition sent_report (t : tstate) (o : order) (a : eargs) : msg :=
  report t o a (or_default (a_clord a) []) (r_qty o a) (r_cum o a) (r_leaves o a) (r_price o a) (last_field a).

Lemma exec_inv {u t o a m t'} :
  fix_exec_report_msg u t o a = Ok m t' ->
  m = sent_report t o a /\ t' = after_ids t o /\ a_clord a = Some (or_default (a_clord a) []) /\ a_status a <> CREATED /\
  resolve_qtys o a = Some (r_qty o a, r_cum o a, r_leaves o a) /\
  trade_fields u o a (r_cum o a) = Some (last_field a) /\
  finished_ok a (r_leaves o a) = true /\ (forall p, a_price a = Some p -> a_exec a = X_REPLACED).
Proof.
  intros H.
  apply exec_accepts_iff in H as (clord & oq & cum & leaves & price & last & _ & C & _ & ST & Q & TF & P & _ & F & -> & ->).
  destruct (resolve_qtys_spec _ _ _ _ _ Q) as (-> & -> & -> & _).
  destruct (trade_fields_shape _ _ _ _ _ TF) as (-> & _).
  apply checked_default in P as (-> & P). unfold sent_report. rewrite C. cbn [or_default].
  repeat split; try assumption. intros p E. specialize (P p E). lia.
Qed.

Lemma sent_report_get t o a :
  let m := sent_report t o a in
  get_s T_ClOrdID m = Some (or_default (a_clord a) []) /\
  get_s T_OrderID m = Some (order_id_text t o) /\
  get_s T_ExecID m = Some (z_to_dec (t_eid t + 1)) /\
  get_s T_ExecType m = Some [a_exec a] /\
  get_s T_OrdStatus m = Some [a_status a] /\
  get_s T_Side m = Some (o_side o) /\
  get_q T_CumQty m = Some (r_cum o a) /\
  get_q T_LeavesQty m = Some (r_leaves o a) /\
  get_q T_LastQty m = a_last a /\
  get_s T_Symbol m = Some (o_ticker o) /\
  get_q T_Price m = Some (r_price o a) /\
  get_q T_OrderQty m = Some (r_qty o a) /\
  get_q T_AvgPx m = Some (a_avg a) /\
  get_s T_Account m = Some (o_account o).
Proof.
  unfold sent_report, report, last_field. destruct (a_orig a) as [[|c s]|], (a_last a); repeat split.
Qed.

Definition tags_of (m : msg) : list N := map fst m.

Definition expected_tags (a : eargs) : list N :=
  [T_ClOrdID; T_OrderID; T_ExecID] ++ (if truthy (a_orig a) then [T_OrigClOrdID] else [])
  ++ [T_ExecType; T_OrdStatus; T_Side; T_CumQty; T_LeavesQty]
  ++ (if (a_exec a =? X_TRADE)%N then [T_LastQty] else [])
  ++ [T_Symbol; T_Price; T_OrderQty; T_AvgPx; T_Account].

Lemma expected_tags_nodup a : NoDup (expected_tags a).
Proof.
  unfold expected_tags. destruct (truthy (a_orig a)), (a_exec a =? X_TRADE)%N; apply NoDup_by_nodup; reflexivity.
Qed.

(* the three quantities of the report are the defaulted arguments, and the helper's assertions hold of them *)
Lemma exec_qtys {u t o a m t'} :
  fix_exec_report_msg u t o a = Ok m t' ->
  get_q T_CumQty m = Some (r_cum o a) /\ get_q T_LeavesQty m = Some (r_leaves o a) /\
  get_q T_OrderQty m = Some (r_qty o a) /\
  r_cum o a + r_leaves o a <= r_qty o a /\
  (forall q, a_oqty a = Some q -> a_exec a = X_REPLACED /\ 0 < q) /\
  (forall c, a_cum a = Some c -> 0 <= c <= o_qty o) /\
  (forall l, a_leaves a = Some l -> 0 <= l <= r_qty o a) /\
  finished_ok a (r_leaves o a) = true.
Proof.
  intros H. destruct (exec_inv H) as (-> & _ & _ & _ & Q & _ & F & _).
  destruct (sent_report_get t o a) as (_ & _ & _ & _ & _ & _ & G7 & G8 & _ & _ & _ & G12 & _).
  apply resolve_qtys_spec in Q as (_ & _ & _ & S & OQ & C & L). auto 10.
Qed.

Lemma exec_nonneg_defaulted {u t o a m t'} :
  fix_exec_report_msg u t o a = Ok m t' -> 0 <= o_cum o -> 0 <= o_leaves o -> 0 <= r_cum o a /\ 0 <= r_leaves o a.
Proof.
  intros H HC HL. destruct (exec_qtys H) as (_ & _ & _ & _ & _ & C & L & _).
  unfold r_cum, r_leaves. split; apply or_default_ind; try assumption; intros v E.
  - apply (C v E).
  - apply (L v E).
Qed.

Lemma exec_tags {u t o a m t'} :
  fix_exec_report_msg u t o a = Ok m t' ->
  tags_of m = expected_tags a /\ NoDup (tags_of m).
Proof.
  intros H. destruct (exec_inv H) as (-> & _ & _ & _ & _ & TF & _).
  apply trade_fields_shape in TF as (_ & TF).
  assert (E : tags_of (sent_report t o a) = expected_tags a).
  { assert (L : map fst (last_field a) = if (a_exec a =? X_TRADE)%N then [T_LastQty] else []).
    { unfold last_field. destruct (a_last a); [destruct TF as (-> & _)|apply N.eqb_neq in TF; rewrite TF]; reflexivity. }
    unfold tags_of, sent_report, report, expected_tags. rewrite !map_app, L.
    destruct (a_orig a) as [[|c s]|]; reflexivity. }
  rewrite E. split; [reflexivity|apply expected_tags_nodup].
Qed.

Definition mandatory_tags : list N :=
  [T_ClOrdID; T_OrderID; T_ExecID; T_ExecType; T_OrdStatus; T_Side; T_CumQty; T_LeavesQty;
   T_Symbol; T_Price; T_OrderQty; T_AvgPx; T_Account].

Lemma expected_mandatory a : Forall (fun tag => In tag (expected_tags a)) mandatory_tags.
Proof.
  apply Forall_forall. intros tag I. unfold expected_tags.
  change mandatory_tags with ([T_ClOrdID; T_OrderID; T_ExecID] ++ [T_ExecType; T_OrdStatus; T_Side; T_CumQty; T_LeavesQty]
                              ++ [T_Symbol; T_Price; T_OrderQty; T_AvgPx; T_Account]) in I.
  rewrite !in_app_iff in *. tauto.
Qed.

Lemma expected_lastqty a : In T_LastQty (expected_tags a) <-> a_exec a = X_TRADE.
Proof.
  unfold expected_tags. destruct (a_exec a =? X_TRADE)%N eqn:E.
  - apply N.eqb_eq in E. split; [intros _; assumption|]. intros _. destruct (truthy (a_orig a)); cbn; intuition.
  - apply N.eqb_neq in E. split; [|intros; contradiction].
    destruct (truthy (a_orig a)); cbn; intuition discriminate.
Qed.

Lemma expected_orig a : In T_OrigClOrdID (expected_tags a) <-> truthy (a_orig a) = true.
Proof.
  unfold expected_tags. destruct (truthy (a_orig a)) eqn:E.
  - split; [reflexivity|]. intros _. cbn. intuition.
  - split; [|discriminate]. destruct (a_exec a =? X_TRADE)%N; cbn; intuition discriminate.
Qed.

Definition wf_order (o : order) : Prop := 0 <= o_cum o /\ 0 <= o_leaves o /\ o_cum o + o_leaves o <= o_qty o.

Definition consistent (m : msg) : Prop :=
  exists cum leaves oq,
    get_q T_CumQty m = Some cum /\ get_q T_LeavesQty m = Some leaves /\ get_q T_OrderQty m = Some oq /\
    0 <= cum /\ 0 <= leaves /\ cum + leaves <= oq.

(* what the order object makes of the message of an accepted call *)
Lemma process_sent_report t o a :
  let c := or_default (a_clord a) [] in
  let p := process_execution_report o (sent_report t o a) in
  if negb (str_eqb c (o_clord o)) && negb match o_orig o with Some og => str_eqb c og | None => false end
  then p = (o, RaisedFIXError)
  else
    o_clord (fst p) = o_clord o /\ o_oid (fst p) = Some (order_id_text t o) /\
    o_cum (fst p) = r_cum o a /\ o_leaves (fst p) = r_leaves o a /\
    o_qty (fst p) = (if (a_exec a =? X_REPLACED)%N then r_qty o a else o_qty o) /\
    (snd p = RetTrue \/ snd p = RetFalse \/ snd p = RaisedValueError /\ mem (a_status a) all_statuses = false).
Proof.
  intros c p. subst p. unfold process_execution_report.
  destruct (sent_report_get t o a) as (G1 & G2 & _ & G4 & G5 & _ & G7 & G8 & _ & _ & G11 & G12 & G13 & _).
  rewrite G1, G7, G5, G4, G8, G2, G13, G11, G12. fold c.
  destruct (negb (str_eqb c (o_clord o)) && _); [reflexivity|]. cbn [code_of].
  destruct (change_status (o_status o) K_EXECUTIONREPORT (a_exec a) (a_status a) false =? T)%N;
    [destruct (mem (a_status a) all_statuses)|]; cbn [fst snd o_clord o_oid o_cum o_leaves o_qty]; auto 10.
Qed.

Lemma process_wf {u t o a m t'} :
  fix_exec_report_msg u t o a = Ok m t' -> wf_order o -> wf_order (fst (process_execution_report o m)).
Proof.
  intros H W. destruct (exec_qtys H) as (_ & _ & _ & S & OQ & _). destruct (exec_inv H) as (-> & _).
  destruct (exec_nonneg_defaulted H (proj1 W) (proj1 (proj2 W))) as (C & L).
  pose proof (process_sent_report t o a) as P. cbv zeta in P.
  destruct (negb _ && _); [now rewrite P|]. destruct P as (_ & _ & E1 & E2 & E3 & _).
  unfold wf_order. rewrite E1, E2, E3.
  (* an OrderQty argument is only accepted with REPLACED *)
  assert (QQ : (if (a_exec a =? X_REPLACED)%N then r_qty o a else o_qty o) = r_qty o a).
  { destruct (a_exec a =? X_REPLACED)%N eqn:X; [reflexivity|]. symmetry. unfold r_qty. apply or_default_ind; [|reflexivity].
    intros q E. apply OQ in E. lia. }
  rewrite QQ. lia.
Qed.

Lemma process_no_error {u t o a m t'} :
  fix_exec_report_msg u t o a = Ok m t' ->
  (a_clord a = Some (o_clord o) \/ (a_clord a = o_orig o)) ->
  In (a_status a) all_statuses ->
  snd (process_execution_report o m) = RetTrue \/ snd (process_execution_report o m) = RetFalse.
Proof.
  intros H C ST. destruct (exec_inv H) as (-> & _ & C' & _).
  pose proof (process_sent_report t o a) as P. cbv zeta in P.
  replace (negb _ && _) with false in P.
  - destruct P as (_ & _ & _ & _ & _ & [P|[P|(_ & P)]]); auto. rewrite (proj2 (mem_In _ _) ST) in P. discriminate.
  - destruct C as [C|C]; rewrite C' in C.
    + injection C as ->. now rewrite str_eqb_refl.
    + rewrite <- C, str_eqb_refl. now rewrite andb_false_r.
Qed.

Lemma after_ids_eq t o :
  after_ids t o =
  match o_oid o, lookup (root_of o) (t_oids t) with
  | None, None => mkT (t_oid t + 1) (t_eid t + 1) (t_reg t) (t_oids t ++ [(root_of o, t_oid t + 1)])
  | _, _ => mkT (t_oid t) (t_eid t + 1) (t_reg t) (t_oids t)
  end.
Proof.
  unfold after_ids, ids_state, order_id_for, next_order_id.
  destruct (o_oid o); [|destruct (lookup (root_of o) (t_oids t))]; reflexivity.
Qed.

Lemma order_id_text_eq t o :
  order_id_text t o =
  match o_oid o, lookup (root_of o) (t_oids t) with
  | Some s, _ => s
  | None, Some v => z_to_dec v
  | None, None => z_to_dec (t_oid t + 1)
  end.
Proof.
  unfold order_id_text, oid_num, order_id_for, next_order_id.
  destruct (o_oid o); [|destruct (lookup (root_of o) (t_oids t))]; reflexivity.
Qed.

Lemma exec_ids {u t o a m t'} :
  fix_exec_report_msg u t o a = Ok m t' ->
  get_s T_ExecID m = Some (z_to_dec (t_eid t + 1)) /\ t_eid t' = t_eid t + 1 /\ t_reg t' = t_reg t /\
  match o_oid o with
  | Some s => get_s T_OrderID m = Some s /\ t_oid t' = t_oid t /\ t_oids t' = t_oids t
  | None =>
      match lookup (root_of o) (t_oids t) with
      | Some v => get_s T_OrderID m = Some (z_to_dec v) /\ t_oid t' = t_oid t /\ t_oids t' = t_oids t
      | None => get_s T_OrderID m = Some (z_to_dec (t_oid t + 1)) /\ t_oid t' = t_oid t + 1 /\
                t_oids t' = t_oids t ++ [(root_of o, t_oid t + 1)]
      end
  end.
Proof.
  intros H. destruct (exec_inv H) as (-> & -> & _).
  destruct (sent_report_get t o a) as (_ & G2 & G3 & _). rewrite G2, G3, after_ids_eq, order_id_text_eq.
  destruct (o_oid o); [|destruct (lookup (root_of o) (t_oids t))]; cbn [t_eid t_reg t_oid t_oids]; auto 10.
Qed.

Definition exec_id_of (m : msg) : option str := get_s T_ExecID m.
Definition order_id_of (m : msg) : option str := get_s T_OrderID m.

Lemma exec_order_id {u t o a m t'} :
  fix_exec_report_msg u t o a = Ok m t' -> order_id_of m = Some (order_id_text t o).
Proof. intros H. destruct (exec_inv H) as (-> & _). apply sent_report_get. Qed.

Lemma lookup_app k l k' v :
  lookup k (l ++ [(k', v)]) =
  match lookup k l with Some w => Some w | None => if str_eqb k' k then Some v else None end.
Proof.
  induction l as [|[k1 v1] l IH]; cbn [app lookup]; [reflexivity|]. destruct (str_eqb k1 k); [reflexivity|exact IH].
Qed.

(* the map only holds ids that were drawn from the counter, each once *)
Definition wf_t (t : tstate) : Prop :=
  Forall (fun e => snd e <= t_oid t) (t_oids t) /\ NoDup (map snd (t_oids t)).

(* what every helper call does to the tester state: the ExecID counter does not go back, an OrderID once drawn for
   a root ClOrdID stays, and the map stays well formed *)
Definition tester_ext (t t' : tstate) : Prop :=
  t_eid t <= t_eid t' /\
  (forall k v, lookup k (t_oids t) = Some v -> lookup k (t_oids t') = Some v) /\
  (wf_t t -> wf_t t').

Lemma tester_ext_refl t : tester_ext t t.
Proof. split; [lia|]. split; auto. Qed.

Lemma tester_ext_trans {t1 t2 t3} : tester_ext t1 t2 -> tester_ext t2 t3 -> tester_ext t1 t3.
Proof. intros (E1 & L1 & W1) (E2 & L2 & W2). split; [lia|]. split; auto. Qed.

Lemma after_ids_ext t o : tester_ext t (after_ids t o).
Proof.
  rewrite after_ids_eq. assert (S : tester_ext t (mkT (t_oid t) (t_eid t + 1) (t_reg t) (t_oids t))).
  { split; [cbn; lia|]. split; auto. }
  destruct (o_oid o); [exact S|]. destruct (lookup (root_of o) (t_oids t)); [exact S|].
  split; [cbn; lia|]. split.
  - intros k v L. cbn [t_oids]. now rewrite lookup_app, L.
  - intros (B & ND). unfold wf_t. cbn [t_oids t_oid]. split.
    + apply Forall_app. split; [|constructor; [cbn; lia|constructor]].
      eapply Forall_impl; [|exact B]. cbn. lia.
    + rewrite map_app. cbn [map snd]. eapply Permutation_NoDup; [apply Permutation_cons_append|]. constructor; [|exact ND].
      (* the new id is above every id in the map *)
      intros I. apply in_map_iff in I as (e & E & I). rewrite Forall_forall in B. specialize (B _ I). lia.
Qed.

Lemma exec_ext {u t o a m t'} : fix_exec_report_msg u t o a = Ok m t' -> tester_ext t t'.
Proof. intros H. destruct (exec_inv H) as (_ & -> & _). apply after_ids_ext. Qed.

Lemma exec_fail_ids {u t o a t'} :
  fix_exec_report_msg u t o a = AssertionFailed t' ->
  t_eid t <= t_eid t' <= t_eid t + 1 /\ t_oid t <= t_oid t' <= t_oid t + 1 /\ t_reg t' = t_reg t /\
  (forall k v, lookup k (t_oids t) = Some v -> lookup k (t_oids t') = Some v).
Proof.
  intros H. apply exec_fail_state in H as [->| ->]; [repeat split; try lia; auto|].
  split; [|split; [|split]]; [| | |apply after_ids_ext];
    rewrite after_ids_eq; destruct (o_oid o), (lookup (root_of o) (t_oids t)); cbn; lia || reflexivity.
Qed.

Lemma register_oids t key : t_oids (register t key) = t_oids t /\ t_oid (register t key) = t_oid t.
Proof. split; reflexivity. Qed.

Lemma step_ext {u t p t' r} : step u t p = (t', r) -> tester_ext t t'.
Proof.
  destruct p as [key|o a|b]; cbn [step].
  - (* register only touches t_reg *) intros [= <- _]. exact (tester_ext_refl t).
  - destruct (fix_exec_report_msg u t o a) as [m t1|t1] eqn:E; intros [= <- _].
    + eapply exec_ext; eassumption.
    + apply exec_fail_state in E as [->| ->]; [apply tester_ext_refl|apply after_ids_ext].
  - intros [= <- _]. apply tester_ext_refl.
Qed.

Lemma step_some u t p t' m :
  step u t p = (t', Some m) -> exists o a, p = OpExec o a /\ fix_exec_report_msg u t o a = Ok m t'.
Proof.
  destruct p as [key|o a|b]; cbn [step]; try discriminate.
  destruct (fix_exec_report_msg u t o a) as [m1 t1|t1] eqn:E; intros [= <- <-]. now exists o, a.
Qed.

Lemma run_ext {u ops} : forall {t t' ms}, run_ops u t ops = (t', ms) -> tester_ext t t'.
Proof.
  induction ops as [|p ops IH]; intros t t' ms H; cbn [run_ops] in H.
  - injection H as <- _. apply tester_ext_refl.
  - destruct (step u t p) as [t1 r] eqn:S. destruct (run_ops u t1 ops) as [t2 ms'] eqn:R. injection H as <- _.
    exact (tester_ext_trans (step_ext S) (IH _ _ _ R)).
Qed.

(* over any history of helper calls on one tester: the ExecIDs issued are str(n) for a strictly
   increasing sequence of numbers, all above the counter at the start *)
Lemma run_exec_ids u ops : forall t t' ms,
  run_ops u t ops = (t', ms) ->
  t_eid t <= t_eid t' /\
  exists ids, map exec_id_of ms = map (fun z => Some (z_to_dec z)) ids /\
              StronglySorted Z.lt ids /\ Forall (fun z => t_eid t < z <= t_eid t') ids.
Proof.
  induction ops as [|p ops IH]; intros t t' ms H; cbn [run_ops] in H.
  - injection H as <- <-. split; [lia|]. exists []. repeat split; constructor.
  - destruct (step u t p) as [t1 r] eqn:S. destruct (run_ops u t1 ops) as [t2 ms'] eqn:R.
    injection H as <- <-. destruct (IH _ _ _ R) as (M2 & ids & E & SS & F).
    pose proof (step_ext S) as (M1 & _). split; [lia|].
    assert (F' : forall lo, lo <= t_eid t1 -> Forall (fun z => lo < z <= t_eid t2) ids).
    { intros lo Hlo. eapply Forall_impl; [|exact F]. cbn. lia. }
    destruct r as [m|]; [|exists ids; auto].
    apply step_some in S as (o & a & _ & S). apply exec_ids in S as (EM & E1 & _).
    exists ((t_eid t + 1) :: ids). cbn [map]. unfold exec_id_of at 1. rewrite EM, E. repeat split.
    + constructor; [assumption|]. eapply Forall_impl; [|apply (F' (t_eid t1)); lia]. cbn. lia.
    + constructor; [lia|]. apply F'. lia.
Qed.

Lemma run_exec_ids_distinct u ops t t' ms :
  run_ops u t ops = (t', ms) -> NoDup (map exec_id_of ms) /\ Forall (fun e => e <> None) (map exec_id_of ms).
Proof.
  intros H. apply run_exec_ids in H as (_ & ids & -> & SS & _). split.
  - apply Injective_map_NoDup; [|now apply sorted_nodup].
    intros x y E. inversion E as [E1]. now apply z_to_dec_inj.
  - apply Forall_forall. intros e I. apply in_map_iff in I as (z & <- & _). discriminate.
Qed.

Lemma process_oid {u t o a m t'} :
  fix_exec_report_msg u t o a = Ok m t' -> a_clord a = Some (o_clord o) ->
  let o' := fst (process_execution_report o m) in
  o_oid o' = order_id_of m /\ o_clord o' = o_clord o /\
  snd (process_execution_report o m) <> RaisedFIXError /\ snd (process_execution_report o m) <> RaisedTagNotFound.
Proof.
  intros H C. rewrite (exec_order_id H). destruct (exec_inv H) as (-> & _).
  pose proof (process_sent_report t o a) as P. cbv zeta in P. rewrite C in P. cbn [or_default] in P.
  rewrite str_eqb_refl in P. destruct P as (P1 & P2 & _ & _ & _ & P6).
  repeat split; try assumption; intros E; rewrite E in P6; intuition discriminate.
Qed.

Lemma drive_oid_inv u calls : forall t o s,
  o_oid o = Some s -> Forall (fun a => a_clord a = Some (o_clord o)) calls ->
  Forall (fun m => order_id_of m = Some s) (drive u t o calls).
Proof.
  induction calls as [|a calls IH]; intros t o s OID F; cbn [drive]; [constructor|].
  inversion F as [|? ? FA F']; subst.
  destruct (fix_exec_report_msg u t o a) as [m t1|t1] eqn:E; [|now apply IH].
  assert (I : order_id_of m = Some s).
  { rewrite (exec_order_id E). unfold order_id_text. now rewrite OID. }
  constructor; [exact I|]. destruct (process_oid E FA) as (O1 & O2 & _). apply IH.
  - now rewrite O1.
  - now rewrite O2.
Qed.

Lemma reject_spec mt clord orig st m :
  fix_cxlrep_reject_msg mt clord orig st = ROk m ->
  exists c og r,
    clord = Some c /\ orig = Some og /\ st <> CREATED /\
    m = [(T_OrderID, VS [48%N]); (T_ClOrdID, VS c); (T_OrigClOrdID, VS og); (T_OrdStatus, VS [st]);
         (T_CxlRejResponseTo, VS [r])] /\
    ((mt = [K_ORDERCANCELREQUEST] /\ r = 49%N) \/ (mt = [K_ORDERCANCELREPLACEREQUEST] /\ r = 50%N)).
Proof.
  unfold fix_cxlrep_reject_msg. destruct clord as [c|]; [|discriminate]. destruct orig as [og|]; [|discriminate].
  destruct (st =? CREATED)%N eqn:EC; [discriminate|]. apply N.eqb_neq in EC.
  destruct (str_eqb mt [K_ORDERCANCELREQUEST]) eqn:E1.
  - intros [= <-]. apply str_eqb_eq in E1. exists c, og, 49%N. auto 10.
  - destruct (str_eqb mt [K_ORDERCANCELREPLACEREQUEST]) eqn:E2; [|discriminate].
    intros [= <-]. apply str_eqb_eq in E2. exists c, og, 50%N. auto 10.
Qed.

Lemma reject_refuses mt clord orig st :
  fix_cxlrep_reject_msg mt clord orig st = RAssertion <->
  (exists c og, clord = Some c /\ orig = Some og) /\
  (st = CREATED \/ (mt <> [K_ORDERCANCELREQUEST] /\ mt <> [K_ORDERCANCELREPLACEREQUEST])).
Proof.
  unfold fix_cxlrep_reject_msg. destruct clord as [c|]; [|split; [discriminate|intros ((? & ? & ? & ?) & _); discriminate]].
  destruct orig as [og|]; [|split; [discriminate|intros ((? & ? & ? & ?) & _); discriminate]].
  destruct (st =? CREATED)%N eqn:EC.
  - apply N.eqb_eq in EC. split; [|reflexivity]. intros _. split; [now exists c, og|now left].
  - apply N.eqb_neq in EC.
    destruct (str_eqb mt [K_ORDERCANCELREQUEST]) eqn:E1.
    + split; [discriminate|]. intros (_ & [C|(N1 & _)]); [contradiction|]. apply str_eqb_eq in E1. contradiction.
    + destruct (str_eqb mt [K_ORDERCANCELREPLACEREQUEST]) eqn:E2.
      * split; [discriminate|]. intros (_ & [C|(_ & N2)]); [contradiction|]. apply str_eqb_eq in E2. contradiction.
      * split; [|reflexivity]. intros _. split; [now exists c, og|]. right.
        split; intros E; apply str_eqb_eq in E; congruence.
Qed.

(* what an accepted call for an order without order_id leaves in the map, and what it reads from it *)
Lemma exec_oid_map {u t o a m t'} :
  fix_exec_report_msg u t o a = Ok m t' -> o_oid o = None ->
  exists v, lookup (root_of o) (t_oids t') = Some v /\ order_id_of m = Some (z_to_dec v) /\
            (forall w, lookup (root_of o) (t_oids t) = Some w -> v = w).
Proof.
  intros H OID. rewrite (exec_order_id H). destruct (exec_inv H) as (_ & -> & _).
  rewrite after_ids_eq, order_id_text_eq, OID. destruct (lookup (root_of o) (t_oids t)) as [w|] eqn:L.
  - exists w. repeat split; [exact L|]. now intros ? [= <-].
  - exists (t_oid t + 1). cbn [t_oids]. rewrite lookup_app, L, str_eqb_refl. repeat split. discriminate.
Qed.

Lemma lookup_in k l v : lookup k l = Some v -> In (k, v) l.
Proof.
  induction l as [|[k' v'] l IH]; cbn [lookup]; [discriminate|].
  destruct (str_eqb k' k) eqn:E; [|right; auto]. intros [= <-]. apply str_eqb_eq in E. subst. now left.
Qed.

Lemma wf_lookup_inj t k1 k2 v : wf_t t -> lookup k1 (t_oids t) = Some v -> lookup k2 (t_oids t) = Some v -> k1 = k2.
Proof.
  intros (_ & ND) L1 L2. apply lookup_in in L1, L2.
  now injection (NoDup_map_inj snd _ _ _ ND L1 L2 eq_refl).
Qed.

(* the orders and arguments of the examples in Props/C20.v *)

Definition w_order : order :=
  mkOrder [111;114;100;45;45;49]%N None None (8 * 4096) 0 0 (10 * 4096) [49%N] [84;73;67;75]%N [48;48;48;48;48;48]%N PENDING_NEW.
Definition w_state : tstate := register t_init (o_clord w_order).
Definition w_args (clord : str) (ex st : N) (cum leaves : option Z) : eargs :=
  mkArgs (Some clord) ex st cum leaves None None None None 0.

(* a live order and a partial fill on it *)
Definition w_live : order :=
  mkOrder [111;114;100;45;45;49]%N None (Some [49%N]) (8 * 4096) 0 (8 * 4096) (10 * 4096) [49%N] [84;73;67;75]%N
          [48;48;48;48;48;48]%N NEW.
Definition w_fill : eargs :=
  mkArgs (Some (o_clord w_live)) X_TRADE PARTIALLY_FILLED (Some (2 * 4096)) (Some (6 * 4096)) (Some (2 * 4096 + 2))
         None None None (10 * 4096).
