(* C17: the invariant of the product system  order object || reference exchange.

   Idea.  The report queue x2c is the output of a trace of exchange steps that the client has not
   seen yet.  `sync o x0 pre` relates the object o to the exchange state x0 *it has caught up with*
   (the state just before the oldest undelivered report was produced); pre = the requests o has
   sent that x0 had not received.  Delivering a report moves x0 one step along the trace
   (lemma catchup), receiving a request is silent (lemma sync_recv), building a request extends pre
   (lemma sync_build).  When both queues are empty x0 is the exchange itself and sync gives
   convergence. *)
From Coq Require Import ZArith NArith List Bool Lia.
From AF Require Import Base.Sx Py.Str Fix.OrderStatus Fix.Order Fix.Exchange Lemmas.StrB Lemmas.OrderL.
Import ListNotations.
Open Scope N_scope.

(* the known-finding steps, on the exchange state alone *)
Definition xbad (x : exch) (a : xact) : bool :=
  match a with
  | XExpire => (x_base x =? SUSPENDED) && match x_pend x with None => true | Some _ => false end
  | XAcceptRpl => (x_base x =? SUSPENDED) && match xstep x XAcceptRpl with Some _ => true | None => false end
  | _ => false
  end.

Lemma bad_step_xdo s a : bad_step s (XDo a) = xbad (s_x s) a.
Proof. destruct a; reflexivity. Qed.

Inductive titem := TRecv (r : req) | TEmit (a : xact).

Fixpoint replay (x : exch) (tr : list titem) : option (exch * list rep) :=
  match tr with
  | [] => Some (x, [])
  | TRecv r :: t => replay (xrecv x r) t
  | TEmit a :: t =>
      if xbad x a then None else
      match xstep x a with
      | Some (x1, r) =>
          match replay x1 t with Some (x2, rs) => Some (x2, r :: rs) | None => None end
      | None => None
      end
  end.

Fixpoint reqs (tr : list titem) : list req :=
  match tr with
  | [] => []
  | TRecv r :: t => r :: reqs t
  | TEmit _ :: t => reqs t
  end.

Lemma reqs_app a b : reqs (a ++ b) = reqs a ++ reqs b.
Proof. induction a as [|[r|x] a IH]; cbn; rewrite ?IH; reflexivity. Qed.

Lemma replay_app a : forall b x,
  replay x (a ++ b) =
  match replay x a with
  | Some (x1, rs) => match replay x1 b with Some (x2, rs') => Some (x2, rs ++ rs') | None => None end
  | None => None
  end.
Proof.
  induction a as [|[r|e] a IH]; intros b x; cbn [app replay].
  - destruct (replay x b) as [[x2 rs]|]; reflexivity.
  - apply IH.
  - destruct (xbad x e); [reflexivity|]. destruct (xstep x e) as [[x1 r]|]; [|reflexivity].
    rewrite IH. destruct (replay x1 a) as [[x2 rs]|]; [|reflexivity].
    destruct (replay x2 b) as [[x3 rs']|]; reflexivity.
Qed.

(* The order's own status at the exchange (x_base) in two ranges.  is_open: the order is at the exchange
   and not finished; reports are then addressed to its live ClOrdID.  base_ok: the statuses it can have
   while a cancel / replace request is outstanding: the request was built when it was NEW, PARTIALLY_FILLED
   or SUSPENDED, since then it may have been filled, cancelled unsolicited or expired. *)
Definition base_ok (b : N) : bool := mem b [NEW; PARTIALLY_FILLED; FILLED; CANCELED; EXPIRED; SUSPENDED].
Definition is_open (b : N) : bool := mem b [PENDING_NEW; NEW; PARTIALLY_FILLED; SUSPENDED].

(* the object's book is the exchange's; before the new order is received the exchange's book is empty *)
Definition fields_ok (o : order) (x : exch) : Prop :=
  o_cum o = x_cum x /\ o_leaves o = x_leaves x /\
  (x_base x <> CREATED -> o_price o = x_price x /\ o_qty o = x_qty x) /\
  (x_base x = CREATED -> x_cum x = 0%Z /\ x_leaves x = 0%Z).

(* the object's status while it waits for the answer to a request of kind k.  CANCELED on both sides: an
   unsolicited cancel crossed the cancel request; the object is finished and will ignore the reject *)
Definition kind_status (k : pkind) (o : order) (x : exch) : Prop :=
  match k with
  | PCancel => o_status o = PENDING_CANCEL \/ (o_status o = CANCELED /\ x_base x = CANCELED)
  | PReplace => o_status o = PENDING_REPLACE
  end.

(* the object waits for the answer to request (k, clid, orig) *)
Definition await (o : order) (x : exch) (k : pkind) (clid orig : str) : Prop :=
  o_clord o = clid /\ o_orig o = Some orig /\ orig = x_clord x /\ orig <> [] /\
  base_ok (x_base x) = true /\ kind_status k o x.

(* with no request outstanding the object's ClOrdID is the live one and OrigClOrdID is empty; the code
   as found leaves OrigClOrdID set after a reject (D17) *)
Definition ids_idle (legacy : bool) (o : order) (x : exch) : Prop :=
  is_open (x_base x) = true ->
  (o_clord o = x_clord x /\ o_orig o = None) \/
  (legacy = true /\ o_orig o = Some (x_clord x) /\ x_clord x <> []).

(* The two phases that sync's rules are made of: nothing is outstanding (SyIdle), or the answer to
   request (k, id, orig) is (SyPend: the request is pending at the exchange; SyCxl / SyRpl: it is on its
   way, one rule per kind, read as one rule through req_of). *)
Definition idle (legacy : bool) (o : order) (x : exch) : Prop :=
  x_pend x = None /\ fields_ok o x /\ o_status o = x_base x /\ ids_idle legacy o x /\ o_clord o <> []
  /\ (x_base x = CREATED -> o_orig o = None).
Definition waiting (o : order) (x : exch) (k : pkind) (id orig : str) : Prop :=
  fields_ok o x /\ await o x k id orig /\ o_clord o <> [].
Definition req_of (k : pkind) (id orig : str) (px qty : Z) : req :=
  match k with PCancel => RCancel id orig qty | PReplace => RReplace id orig px qty end.

Inductive sync (legacy : bool) (o : order) (x : exch) : list req -> Prop :=
| SyIdle : x_pend x = None -> fields_ok o x -> o_status o = x_base x -> ids_idle legacy o x ->
           o_clord o <> [] -> (x_base x = CREATED -> o_orig o = None) -> sync legacy o x []
| SyPend p : x_pend x = Some p -> fields_ok o x -> await o x (p_kind p) (p_clid p) (p_orig p) ->
           o_clord o <> [] -> sync legacy o x []
| SyNew id px qty : x_base x = CREATED -> x_pend x = None -> o_status o = PENDING_NEW ->
           o_clord o = id -> id <> [] -> o_orig o = None -> o_price o = px -> o_qty o = qty ->
           o_cum o = 0%Z -> o_leaves o = 0%Z -> sync legacy o x [RNew id px qty]
| SyCxl id orig qty : x_pend x = None -> fields_ok o x -> await o x PCancel id orig ->
           o_clord o <> [] -> sync legacy o x [RCancel id orig qty]
| SyRpl id orig px qty : x_pend x = None -> fields_ok o x -> await o x PReplace id orig ->
           o_clord o <> [] -> sync legacy o x [RReplace id orig px qty].

Lemma sync_idle legacy o x : idle legacy o x -> sync legacy o x [].
Proof. intros (H1 & H2 & H3 & H4 & H5 & H6). apply SyIdle; assumption. Qed.

Lemma sync_flight legacy o x k id orig px qty :
  x_pend x = None -> waiting o x k id orig -> sync legacy o x [req_of k id orig px qty].
Proof. intros Hp (H1 & H2 & H3). destruct k; constructor; assumption. Qed.

Lemma base_ok_not_created b : base_ok b = true -> b <> CREATED.
Proof. intros H E. subst. discriminate. Qed.

(* receiving a request is silent *)
Lemma recv_flight legacy o x k id orig px qty :
  x_pend x = None -> waiting o x k id orig -> sync legacy o (xrecv x (req_of k id orig px qty)) [].
Proof.
  intros Hp (Hf & Ha & Hn). destruct (Ha) as (_ & _ & Hl & _ & Hb & _).
  assert (Hc : (x_base x =? CREATED) = false) by apply N.eqb_neq, base_ok_not_created, Hb.
  replace (xrecv x (req_of k id orig px qty))
    with (set_pend x (Some (mkP k id orig (match k with PCancel => 0%Z | PReplace => px end) qty)))
    by (destruct k; cbn [req_of xrecv]; rewrite Hp, Hc, Hl, str_eqb_refl; reflexivity).
  eapply SyPend; [reflexivity|exact Hf|exact Ha|exact Hn].
Qed.

Lemma sync_recv legacy o x r rest :
  sync legacy o x (r :: rest) -> sync legacy o (xrecv x r) rest.
Proof.
  intro H. inversion H as [| |id px qty Hb Hp Hs Hc Hn Ho Hpx Hq Hcu Hl| |]; subst; clear H.
  - cbn [xrecv]. rewrite Hb. change (CREATED =? CREATED) with true. cbv iota. apply sync_idle.
    split; [reflexivity|]. split; [|split; [exact Hs|split; [left; auto|split; [exact Hn|discriminate]]]].
    unfold fields_ok; cbn. repeat split; auto; discriminate.
  - apply (recv_flight legacy o x PCancel id orig 0%Z qty); [|split; [|split]]; assumption.
  - apply (recv_flight legacy o x PReplace); [|split; [|split]]; assumption.
Qed.

Lemma sync_len legacy o x pre : sync legacy o x pre -> (length pre <= 1)%nat.
Proof. intro H. inversion H; cbn; lia. Qed.

Lemma sync_pend_pre legacy o x pre : sync legacy o x pre -> pre <> [] -> x_pend x = None.
Proof. intros H Hn. inversion H; subst; auto; congruence. Qed.

Lemma accepts_clord o : accepts o (o_clord o) = true.
Proof. unfold accepts. rewrite str_eqb_refl. reflexivity. Qed.
Lemma accepts_orig o c : o_orig o = Some c -> accepts o c = true.
Proof. intro H. unfold accepts, opt_str_eqb. rewrite H, str_eqb_refl. apply orb_true_r. Qed.

Lemma truthy_cons (s : str) : s <> [] -> truthy (Some s) = true.
Proof. destruct s; [congruence|reflexivity]. Qed.

(* a builder's gate is open only when nothing is outstanding: the object's status is then none of
   those it has while it waits *)
Lemma sync_gate legacy o x pre :
  sync legacy o x pre -> mem (o_status o) [PENDING_NEW; PENDING_CANCEL; CANCELED; PENDING_REPLACE] = false ->
  pre = [] /\ idle legacy o x.
Proof.
  assert (Hw : forall k id orig, await o x k id orig -> mem (o_status o) [PENDING_NEW; PENDING_CANCEL; CANCELED; PENDING_REPLACE] = true).
  { intros k id orig (_ & _ & _ & _ & _ & Hk). destruct k; cbn in Hk; [destruct Hk as [Hk|[Hk _]]|]; rewrite Hk; reflexivity. }
  intros H Hst. inversion H as [H1 H2 H3 H4 H5 H6| p ? ? Ha| ? ? ? ? ? Hs|? ? ? ? ? Ha|? ? ? ? ? ? Ha]; subst.
  - exact (conj eq_refl (conj H1 (conj H2 (conj H3 (conj H4 (conj H5 H6)))))).
  - rewrite (Hw _ _ _ Ha) in Hst. discriminate.
  - rewrite Hs in Hst. discriminate.
  - rewrite (Hw _ _ _ Ha) in Hst. discriminate.
  - rewrite (Hw _ _ _ Ha) in Hst. discriminate.
Qed.

Lemma live_open_ok b : is_live b = true -> is_open b = true /\ base_ok b = true.
Proof. intro H. apply mem_In in H. destruct H as [<-|[<-|[<-|[]]]]; split; reflexivity. Qed.

(* ... so an object that says it can be cancelled is idle, and the order is live at the exchange *)
Lemma sync_can_cancel legacy o x pre :
  sync legacy o x pre -> can_cancel o = true -> pre = [] /\ idle legacy o x /\ is_live (x_base x) = true.
Proof.
  intros Hs Hcan. apply can_cancel_iff in Hcan.
  destruct (sync_gate legacy o x pre Hs) as (Hpre & Hi); [destruct Hcan as [<-|[<-|[<-|[]]]]; reflexivity|].
  split; [exact Hpre|]. split; [exact Hi|]. destruct Hi as (_ & _ & <- & _). apply mem_In, Hcan.
Qed.

Lemma build_flight legacy o x pre k px qty :
  sync legacy o x pre -> can_cancel o = true -> truthy (o_orig o) = false ->
  pre = [] /\
  sync legacy (set_status (set_ids o (snd (clord_next o)) (Some (o_clord o)) (fst (clord_next o)))
                          (match k with PCancel => PENDING_CANCEL | PReplace => PENDING_REPLACE end) true)
       x [req_of k (snd (clord_next o)) (o_clord o) px qty].
Proof.
  intros Hs Hcan Htr.
  destruct (sync_can_cancel legacy o x pre Hs Hcan) as (-> & (Hp & Hf & Hst & Hids & Hne & _) & Hlive).
  destruct (live_open_ok _ Hlive) as [Hopen Hok]. destruct (Hids Hopen) as [[Hc Ho]|[_ [Ho Hne']]].
  2:{ rewrite Ho, (truthy_cons _ Hne') in Htr. discriminate. }
  split; [reflexivity|]. apply sync_flight; [exact Hp|].
  split; [exact Hf|]. split; [|apply clord_id_nonempty].
  unfold await. cbn [set_status set_ids o_clord o_orig o_status].
  repeat split; auto. destruct k; [left|]; reflexivity.
Qed.

Lemma sync_build legacy o x pre c ob r :
  sync legacy o x pre -> obuild o c = Some ob -> snd ob = Ok r ->
  pre = [] /\ sync legacy (fst ob) x [r].
Proof.
  intros Hs Hb Hr. destruct (obuild_cases o c ob Hb) as (r' & Hr' & H).
  destruct (bgate o c) eqn:Hg; [subst ob|destruct H as [e ->]; discriminate].
  injection Hr as ->. destruct c as [| |p q|rr]; cbn [bgate] in Hg; [| | |discriminate]; injection Hr' as <-.
  - apply N.eqb_eq in Hg.
    destruct (sync_gate legacy o x pre Hs) as (-> & Hp & (Hcu & Hl & _ & Hz) & Hst & _ & _ & Ho).
    { rewrite Hg. reflexivity. }
    rewrite Hg in Hst. symmetry in Hst. destruct (Hz Hst) as [Hz1 Hz2].
    split; [reflexivity|]. apply SyNew; cbn; auto using clord_id_nonempty; congruence.
  - apply andb_prop in Hg. destruct Hg as [Hcan Htr]. apply negb_true_iff in Htr.
    exact (build_flight legacy o x pre PCancel 0%Z (o_qty o) Hs Hcan Htr).
  - apply andb_prop in Hg. destruct Hg as [Hg Htr]. apply andb_prop in Hg. destruct Hg as [Hcan _].
    apply negb_true_iff in Htr.
    exact (build_flight legacy o x pre PReplace (rpl_px o p) (rpl_qty o q) Hs Hcan Htr).
Qed.

Definition is_answer (a : xact) : bool :=
  match a with XAcceptCxl | XAcceptRpl | XRejReq => true | _ => false end.

Lemma answer_needs_pend x a : is_answer a = true -> x_pend x = None -> xstep x a = None.
Proof. intros Ha Hp. destruct a; try discriminate; cbn [xstep]; rewrite Hp; reflexivity. Qed.

(* how the order's own status moves when the exchange acts on its own *)
Inductive btrans : N -> N -> Prop :=
| BtNew b' : In b' [PENDING_NEW; NEW; REJECTED] -> btrans PENDING_NEW b'
| BtWork b b' : is_working b = true -> In b' [FILLED; PARTIALLY_FILLED; SUSPENDED] -> btrans b b'
| BtLive b b' : is_live b = true -> In b' [CANCELED; EXPIRED] -> btrans b b'
| BtResume b' : In b' [NEW; PARTIALLY_FILLED] -> btrans SUSPENDED b'.

(* xb is x with another book: the live ClOrdID, the pending request, price and qty are those of x *)
Definition same_terms (x xb : exch) : Prop :=
  x_clord xb = x_clord x /\ x_pend xb = x_pend x /\ x_price xb = x_price x /\ x_qty xb = x_qty x.

Lemma emit_inv (g : bool) xb c o ex t x1 r :
  (if g then emit xb c o ex t else None) = Some (x1, r) ->
  g = true /\ x1 = bump xb /\ r = exec_of xb c o ex t.
Proof. destruct g; [|discriminate]. unfold emit. intro H. injection H as <- <-. auto. Qed.

(* x1, r come from a step of x that answers no request: r reports the book xb the step has moved to;
   either it acknowledges the pending request, or it is addressed to the live ClOrdID and the status
   has moved along btrans, not from SUSPENDED to EXPIRED unless a request is pending (K2 excluded) *)
Definition own_report (x x1 : exch) (r : rep) : Prop :=
  exists xb rc ro ex, r = exec_of xb rc ro ex false /\ x1 = bump xb /\ ex <> X_REPLACED /\ same_terms x xb /\
    ((exists p, x_pend x = Some p /\ xb = x /\ rc = p_clid p) \/
     (rc = x_clord x /\ btrans (x_base x) (x_base xb)
      /\ (x_pend x = None -> x_base x = SUSPENDED -> x_base xb <> EXPIRED))).

Lemma book_report x xb ex (g : bool) x1 r :
  (if g then emit xb (x_clord x) None ex false else None) = Some (x1, r) ->
  ex <> X_REPLACED -> same_terms x xb -> (g = true -> btrans (x_base x) (x_base xb)) ->
  (x_pend x = None -> x_base x = SUSPENDED -> x_base xb <> EXPIRED) ->
  own_report x x1 r.
Proof.
  intros Hx Hex Hs Hb Hk. apply emit_inv in Hx. destruct Hx as (Hg & -> & ->).
  exists xb, (x_clord x), None, ex. auto 10.
Qed.

Lemma xstep_report x a x1 r :
  is_answer a = false -> xbad x a = false -> xstep x a = Some (x1, r) -> own_report x x1 r.
Proof.
  intros Hans Hbad Hx. destruct a; try discriminate Hans; cbn [xstep] in Hx.
  - (* XPendNew *)
    apply (book_report _ _ _ _ _ _ Hx); [discriminate|repeat split|intro Hg|intros _ E; rewrite E; discriminate].
    apply N.eqb_eq in Hg. rewrite Hg. apply BtNew. cbn. auto.
  - (* XAck *)
    apply (book_report _ _ _ _ _ _ Hx); [discriminate|repeat split|intro Hg|discriminate].
    apply N.eqb_eq in Hg. rewrite Hg. apply BtNew. cbn. auto.
  - (* XRejNew *)
    apply (book_report _ _ _ _ _ _ Hx); [discriminate|repeat split|intro Hg|discriminate].
    apply N.eqb_eq in Hg. rewrite Hg. apply BtNew. cbn. auto.
  - (* XFill *)
    apply (book_report _ _ _ _ _ _ Hx); [discriminate|repeat split|intro Hg|intros _ _; cbn; destruct (_ =? 0)%Z; discriminate].
    apply andb_prop in Hg. destruct Hg as [Hg _]. apply andb_prop in Hg. destruct Hg as [Hg _].
    apply BtWork; [exact Hg|]. cbn. destruct (_ =? 0)%Z; cbn; auto.
  - (* XPendAck *)
    destruct (x_pend x) as [p|] eqn:Hp; [|discriminate]. apply (emit_inv true) in Hx. destruct Hx as (_ & -> & ->).
    eexists _, _, _, _. split; [reflexivity|]. split; [reflexivity|]. split; [destruct (p_kind p); discriminate|].
    split; [repeat split; assumption|]. left. exists p. auto.
  - (* XCancelUnsol *)
    apply (book_report _ _ _ _ _ _ Hx); [discriminate|repeat split|intro Hg|discriminate].
    apply BtLive; [exact Hg|]. cbn. auto.
  - (* XExpire: not from SUSPENDED with nothing pending, by xbad *)
    apply (book_report _ _ _ _ _ _ Hx); [discriminate|repeat split|intro Hg|intros Hp E _].
    + apply BtLive; [exact Hg|]. cbn. auto.
    + cbn [xbad] in Hbad. rewrite Hp, E in Hbad. discriminate.
  - (* XSuspend *)
    apply (book_report _ _ _ _ _ _ Hx); [discriminate|repeat split|intro Hg|discriminate].
    apply BtWork; [exact Hg|]. cbn. auto.
  - (* XResume *)
    apply (book_report _ _ _ _ _ _ Hx); [discriminate|repeat split|intro Hg|intros _ _; cbn; unfold open_status; destruct (_ =? 0)%Z; discriminate].
    apply N.eqb_eq in Hg. rewrite Hg. apply BtResume. cbn. unfold open_status. destruct (_ =? 0)%Z; cbn; auto.
Qed.

(* what the proofs below need of such a move: the order was open, stays known to both tables, and the
   object's table accepts the new status, except SUSPENDED -> EXPIRED (K2) *)
Lemma btrans_table b b' ex :
  btrans b b' ->
  is_open b = true /\ b' <> CREATED /\ (base_ok b = true -> base_ok b' = true) /\
  (b' = b \/ (b = SUSPENDED /\ b' = EXPIRED)
   \/ (change_status b K_EXECUTIONREPORT ex b' false =? T) && mem b' all_statuses = true).
Proof.
  intros [c H|c c' Hb H|c c' Hb H|c H]; try (apply mem_In in Hb).
  - destruct H as [<-|[<-|[<-|[]]]].
    all: split; [reflexivity|]; split; [discriminate|]; split; [discriminate|auto].
  - destruct Hb as [<-|[<-|[]]], H as [<-|[<-|[<-|[]]]].
    all: split; [reflexivity|]; split; [discriminate|]; split; [reflexivity|auto].
  - destruct Hb as [<-|[<-|[<-|[]]]], H as [<-|[<-|[]]].
    all: split; [reflexivity|]; split; [discriminate|]; split; [reflexivity|auto].
  - destruct H as [<-|[<-|[]]].
    all: split; [reflexivity|]; split; [discriminate|]; split; [reflexivity|auto].
Qed.

(* the object after a report of the exchange *)
Lemma report_result legacy o xb rc ro ex t :
  accepts o rc = true ->
  fst (process_report legacy o (exec_of xb rc ro ex t)) =
  exec_result o (mkE rc ro (x_oid xb) ex (x_status xb) (x_cum xb) (x_leaves xb) (x_avg xb)
                     (if t then Some (x_price xb) else None) (if t then Some (x_qty xb) else None)).
Proof. intro H. unfold exec_of. cbn [process_report]. apply per_accepted, H. Qed.

(* a step of the exchange on its own, seen from an object that accepts the ClOrdIDs it may be
   addressed by: ids, price and qty stay, the book fields follow, the status goes through the table *)
Lemma plain_step legacy o x a x1 r :
  fields_ok o x -> (is_open (x_base x) = true -> accepts o (x_clord x) = true) ->
  (forall p, x_pend x = Some p -> accepts o (p_clid p) = true) ->
  is_answer a = false -> xbad x a = false -> xstep x a = Some (x1, r) ->
  let o' := fst (process_report legacy o r) in
  fields_ok o' x1 /\ o_clord o' = o_clord o /\ o_orig o' = o_orig o /\ x_clord x1 = x_clord x /\ x_pend x1 = x_pend x /\
  (x_base x1 = x_base x \/
   btrans (x_base x) (x_base x1) /\ (x_pend x = None -> x_base x = SUSPENDED -> x_base x1 <> EXPIRED)) /\
  exists ex, ex <> X_REPLACED /\
    o_status o' = if (change_status (o_status o) K_EXECUTIONREPORT ex (x_status x1) false =? T)
                     && mem (x_status x1) all_statuses then x_status x1 else o_status o.
Proof.
  intros Hf Hlive Hack Hans Hbad Hx.
  destruct (xstep_report x a x1 r Hans Hbad Hx)
    as (xb & rc & ro & ex & -> & -> & Hex & (Hxc & Hxp & Hxpx & Hxq) & Hcase).
  destruct Hf as (_ & _ & Hpq & Hz).
  assert (H : accepts o rc = true /\ (x_base xb <> CREATED -> x_base x <> CREATED)
              /\ (x_base xb = CREATED -> x_cum xb = 0%Z /\ x_leaves xb = 0%Z)).
  { destruct Hcase as [(p & Hp & -> & ->)|(-> & Hb & _)]; [auto|].
    destruct (btrans_table _ _ ex Hb) as (Hopen & Hnc & _). split; [exact (Hlive Hopen)|].
    split; [intros _ E; rewrite E in Hopen; discriminate|contradiction]. }
  destruct H as (Ha & Hc & Hz').
  cbv zeta. rewrite report_result by exact Ha. unfold exec_result, exec_changes, fields_ok.
  cbn [e_ex e_st e_cum e_leaves e_px e_qty o_cum o_leaves o_price o_qty o_clord o_orig o_status
       bump x_cum x_leaves x_base x_price x_qty x_clord x_pend].
  replace (ex =? X_REPLACED) with false by (symmetry; apply N.eqb_neq, Hex). rewrite Hxpx, Hxq.
  split; [split; [reflexivity|split; [reflexivity|split; [intro E; exact (Hpq (Hc E))|exact Hz']]]|].
  split; [reflexivity|]. split; [reflexivity|]. split; [exact Hxc|]. split; [exact Hxp|].
  split; [|exists ex; split; [exact Hex|reflexivity]].
  destruct Hcase as [(p & _ & -> & _)|(_ & H)]; [left; reflexivity|right; exact H].
Qed.

Lemma catchup_idle legacy o x a x1 r :
  idle legacy o x -> xbad x a = false -> xstep x a = Some (x1, r) ->
  idle legacy (fst (process_report legacy o r)) x1.
Proof.
  intros (Hp & Hf & Hst & Hids & Hne & Hcr) Hbad Hx.
  destruct (is_answer a) eqn:Hans; [rewrite (answer_needs_pend x a Hans Hp) in Hx; discriminate|].
  destruct (plain_step legacy o x a x1 r Hf) as (Pf & Pcl & Por & Hxc & Hxp & Hmove & ex & Hex & Pst);
    [|intros p Hp'; congruence|exact Hans|exact Hbad|exact Hx|].
  { intro Hopen. destruct (Hids Hopen) as [[<- _]|[_ [Ho _]]]; [apply accepts_clord|apply accepts_orig, Ho]. }
  rewrite Hp in Hxp. unfold idle, ids_idle. rewrite Pcl, Por, Hxc, Pst. clear Pst. unfold x_status. rewrite Hxp, Hst.
  split; [reflexivity|]. split; [exact Pf|]. destruct Hmove as [E|[Hb Hk2]].
  - rewrite E. split; [destruct (_ && _); reflexivity|]. split; [exact Hids|]. split; [exact Hne|exact Hcr].
  - destruct (btrans_table _ _ ex Hb) as (Hopen & Hnc & _ & Hacc).
    split; [|split; [intros _; exact (Hids Hopen)|split; [exact Hne|contradiction]]].
    destruct Hacc as [E|[[E1 E2]|E]]; [rewrite E; destruct (_ && _); reflexivity|destruct (Hk2 Hp E1 E2)|rewrite E; reflexivity].
Qed.

(* the rows of the object's table at the two statuses it has while it waits *)
Lemma exec_at_pending_cancel ex ms :
  (change_status PENDING_CANCEL K_EXECUTIONREPORT ex ms false =? T) = (ms =? CANCELED).
Proof.
  rewrite (N.eqb_sym ms). unfold change_status.
  change (exec_report PENDING_CANCEL ex ms) with (row [(CANCELED, T); (CREATED, ERR)] IGN ms).
  unfold row. cbn [find fst snd]. destruct (CANCELED =? ms); [reflexivity|]. destruct (CREATED =? ms); reflexivity.
Qed.

Lemma exec_at_pending_replace ex ms :
  ex <> X_REPLACED -> (change_status PENDING_REPLACE K_EXECUTIONREPORT ex ms false =? T) = false.
Proof.
  intro H. apply N.eqb_neq in H. unfold change_status.
  change (exec_report PENDING_REPLACE ex ms)
    with (if ex =? X_REPLACED then row [(NEW, T); (PARTIALLY_FILLED, T); (FILLED, T); (CANCELED, T)] ERR ms
          else row [(CREATED, ERR); (ACCEPTED_FOR_BIDDING, ERR)] IGN ms).
  rewrite H. unfold row. cbn [find fst snd].
  destruct (CREATED =? ms); [reflexivity|]. destruct (ACCEPTED_FOR_BIDDING =? ms); reflexivity.
Qed.

(* while a request is pending the exchange reports a pending status, never CANCELED *)
Lemma x_status_canceled x : x_status x = CANCELED -> x_base x = CANCELED.
Proof.
  unfold x_status, pend_status. destruct (x_pend x) as [p|]; [destruct (p_kind p); discriminate|auto].
Qed.

Lemma await_step legacy o x k clid orig a x1 r :
  waiting o x k clid orig ->
  (x_pend x = None \/ exists p, x_pend x = Some p /\ p_clid p = clid) ->
  is_answer a = false -> xbad x a = false -> xstep x a = Some (x1, r) ->
  waiting (fst (process_report legacy o r)) x1 k clid orig /\ x_pend x1 = x_pend x.
Proof.
  intros (Hf & Haw & Hne) Hpend Hans Hbad Hx. destruct (Haw) as (Hc & Ho & Hl & Hn & Hb & Hk).
  destruct (plain_step legacy o x a x1 r Hf) as (Pf & Pcl & Por & Hxc & Hxp & Hmove & ex & Hex & Pst);
    [| |exact Hans|exact Hbad|exact Hx|].
  { intros _. apply accepts_orig. rewrite Ho, Hl. reflexivity. }
  { intros p Hp. destruct Hpend as [E|(p' & E & <-)]; [congruence|]. replace p with p' by congruence.
    rewrite <- Hc. apply accepts_clord. }
  assert (Hb' : base_ok (x_base x1) = true /\ (x_base x = CANCELED -> x_base x1 = CANCELED)).
  { destruct Hmove as [->|[Hbt _]]; [auto|].
    destruct (btrans_table _ _ ex Hbt) as (Hopen & _ & Hok & _). split; [exact (Hok Hb)|].
    intro E. rewrite E in Hopen. discriminate. }
  destruct Hb' as [Hb' Hcc].
  split; [|exact Hxp]. split; [exact Pf|]. split; [|rewrite Pcl; exact Hne].
  unfold await. rewrite Pcl, Por, Hxc.
  split; [exact Hc|]. split; [exact Ho|]. split; [exact Hl|]. split; [exact Hn|]. split; [exact Hb'|].
  unfold kind_status in Hk |- *. rewrite Pst. clear Pst. destruct k.
  - destruct Hk as [Hk|[Hk Hbx]]; rewrite Hk.
    + rewrite exec_at_pending_cancel. destruct (x_status x1 =? CANCELED) eqn:E; [|left; reflexivity].
      apply N.eqb_eq in E. rewrite E. right. split; [reflexivity|apply x_status_canceled, E].
    + rewrite finished_no_change by reflexivity. right. split; [reflexivity|exact (Hcc Hbx)].
  - rewrite Hk, exec_at_pending_replace by exact Hex. reflexivity.
Qed.

(* an execution report that answers the pending request: the book xb it describes has no request
   pending, the object takes its status, and either new terms (REPLACED) or a closed order *)
Lemma exec_answer_idle legacy o xb ro ex t :
  x_pend xb = None -> x_clord xb = o_clord o -> o_clord o <> [] -> x_base xb <> CREATED ->
  (change_status (o_status o) K_EXECUTIONREPORT ex (x_base xb) false =? T) && mem (x_base xb) all_statuses = true ->
  (if ex =? X_REPLACED then t = true
   else is_open (x_base xb) = false /\ o_price o = x_price xb /\ o_qty o = x_qty xb) ->
  idle legacy (fst (process_report legacy o (exec_of xb (o_clord o) ro ex t))) (bump xb).
Proof.
  intros Hp Hc Hne Hnc Hst Ht. rewrite report_result by apply accepts_clord.
  unfold idle, fields_ok, ids_idle, exec_result, exec_changes, x_status.
  cbn [bump x_pend x_base x_cum x_leaves x_price x_qty x_clord
       e_ex e_st e_cum e_leaves e_px e_qty o_cum o_leaves o_price o_qty o_clord o_orig o_status].
  rewrite Hp, Hst, Hc. split; [reflexivity|]. split; [|split; [reflexivity|]].
  - split; [reflexivity|]. split; [reflexivity|]. split; [intros _|contradiction].
    destruct (ex =? X_REPLACED); [subst t; split; reflexivity|apply Ht].
  - split; [intro Ho|split; [exact Hne|contradiction]].
    destruct (ex =? X_REPLACED); [left; split; reflexivity|]. destruct Ht as [Ht _]. congruence.
Qed.

(* a cancel reject: an object that waits takes the reported status and, repaired, its ids back; one
   already CANCELED by an unsolicited cancel that crossed the request ignores it *)
Lemma reject_idle legacy o x k id orig :
  waiting o x k id orig -> idle legacy (rej_result legacy o (x_base x)) (bump (set_pend x None)).
Proof.
  intros (Hf & (Hc & Ho & Hl & Hn & Hb & Hk) & Hne).
  assert (Hen : mem (x_base x) all_statuses = true /\ (x_base x =? REJECTED) = false).
  { apply mem_In in Hb. destruct Hb as [<-|[<-|[<-|[<-|[<-|[<-|[]]]]]]]; split; reflexivity. }
  destruct Hen as [Hm Hnr].
  pose proof (base_ok_not_created _ Hb) as Hnc.
  assert (Hst : rej_changes legacy o (x_base x) = true
                \/ rej_changes legacy o (x_base x) = false /\ o_status o = CANCELED /\ x_base x = CANCELED).
  { unfold rej_changes. rewrite Hm, orb_true_r, andb_true_r. apply mem_In in Hb.
    destruct k; cbn [kind_status] in Hk; [destruct Hk as [Hk|[Hk Hx]]|]; rewrite Hk.
    2:{ right. auto. }
    all: left; destruct Hb as [<-|[<-|[<-|[<-|[<-|[<-|[]]]]]]]; reflexivity. }
  unfold idle, fields_ok, ids_idle, rej_result.
  cbn [bump set_pend x_pend x_base x_cum x_leaves x_price x_qty x_clord o_cum o_leaves o_price o_qty o_clord o_orig o_status].
  rewrite Hnr, Ho, (truthy_cons _ Hn). split; [reflexivity|]. split; [exact Hf|].
  destruct Hst as [->|(-> & Hoc & Hxc)]; cbn [andb].
  - split; [reflexivity|]. destruct legacy; cbn [negb]; (split; [intros _|split; [|contradiction]]).
    + right. rewrite <- Hl. auto.
    + exact Hne.
    + left. split; [exact Hl|reflexivity].
    + exact Hn.
  - split; [congruence|]. split; [rewrite Hxc; discriminate|]. split; [exact Hne|contradiction].
Qed.

Lemma catchup_answer legacy o x p a x1 r :
  x_pend x = Some p -> waiting o x (p_kind p) (p_clid p) (p_orig p) ->
  xbad x a = false -> is_answer a = true -> xstep x a = Some (x1, r) ->
  idle legacy (fst (process_report legacy o r)) x1.
Proof.
  intros Hp Hw Hbad Hans Hx. destruct (Hw) as (Hf & (Hc & _ & _ & _ & Hb & Hk) & Hne).
  pose proof (base_ok_not_created _ Hb) as Hnc.
  destruct a; try discriminate; cbn [xstep] in Hx; rewrite Hp in Hx.
  - (* cancelled *)
    destruct (p_kind p); [|discriminate]. apply emit_inv in Hx. destruct Hx as (Hlive & -> & ->).
    destruct Hk as [Hk|[_ Hk]]; [|rewrite Hk in Hlive; discriminate].
    rewrite <- Hc. apply exec_answer_idle; cbn [set_book set_pend set_clord x_pend x_base x_clord x_price x_qty];
      [reflexivity|reflexivity|exact Hne|discriminate| |].
    + rewrite Hk, exec_at_pending_cancel. reflexivity.
    + split; [reflexivity|]. apply Hf, Hnc.
  - (* replaced *)
    cbn [xbad xstep] in Hbad. rewrite Hp in Hbad. destruct (p_kind p); [discriminate|].
    apply emit_inv in Hx. destruct Hx as (Hen & -> & ->). rewrite Hen in Hbad. unfold emit in Hbad.
    rewrite andb_true_r in Hbad. rewrite Hbad.
    rewrite <- Hc. apply exec_answer_idle; cbn [set_book set_pend set_clord set_terms x_pend x_base x_clord];
      [reflexivity|reflexivity|exact Hne| | |reflexivity].
    + destruct (_ =? 0)%Z; [|destruct (_ =? 0)%Z]; discriminate.
    + cbn [kind_status] in Hk. rewrite Hk. destruct (_ =? 0)%Z; [|destruct (_ =? 0)%Z]; reflexivity.
  - (* cancel reject *)
    injection Hx as <- <-. cbn [process_report]. rewrite pcr_result. exact (reject_idle legacy o x _ _ _ Hw).
Qed.

Lemma xstep_created x a : x_base x = CREATED -> x_pend x = None -> xstep x a = None.
Proof. intros Hb Hp. destruct a; cbn [xstep]; rewrite ?Hb, ?Hp; reflexivity. Qed.

(* a request on its way stays on its way while the exchange acts on its own *)
Lemma catchup_flight legacy o x k id orig px qty a x1 r :
  x_pend x = None -> fields_ok o x -> await o x k id orig -> o_clord o <> [] ->
  xbad x a = false -> xstep x a = Some (x1, r) ->
  sync legacy (fst (process_report legacy o r)) x1 [req_of k id orig px qty].
Proof.
  intros Hp Hf Ha Hn Hbad Hx.
  destruct (is_answer a) eqn:Hans; [rewrite (answer_needs_pend x a Hans Hp) in Hx; discriminate|].
  destruct (await_step legacy o x k id orig a x1 r (conj Hf (conj Ha Hn)) (or_introl Hp) Hans Hbad Hx) as [Hw Hp'].
  apply sync_flight; [congruence|exact Hw].
Qed.

Lemma catchup legacy o x pre a x1 r :
  sync legacy o x pre -> xbad x a = false -> xstep x a = Some (x1, r) ->
  sync legacy (fst (process_report legacy o r)) x1 pre.
Proof.
  intros Hs Hbad Hx. inversion Hs as [H1 H2 H3 H4 H5 H6|p Hp Hf Ha Hn|id px qty Hb Hp|id orig qty Hp Hf Ha Hn|id orig px qty Hp Hf Ha Hn]; subst; clear Hs.
  - eapply sync_idle, catchup_idle; [|eassumption..]. exact (conj H1 (conj H2 (conj H3 (conj H4 (conj H5 H6))))).
  - destruct (is_answer a) eqn:Hans.
    + eapply sync_idle, catchup_answer; [exact Hp|exact (conj Hf (conj Ha Hn))|eassumption..].
    + destruct (await_step legacy o x _ _ _ a x1 r (conj Hf (conj Ha Hn))
                  (or_intror (ex_intro _ p (conj Hp eq_refl))) Hans Hbad Hx) as [(K1 & K2 & K3) K4].
      apply SyPend with (p := p); [congruence|assumption..].
  - rewrite (xstep_created x a Hb Hp) in Hx. discriminate.
  - exact (catchup_flight legacy o x PCancel id orig 0%Z qty a x1 r Hp Hf Ha Hn Hbad Hx).
  - exact (catchup_flight legacy o x PReplace id orig px qty a x1 r Hp Hf Ha Hn Hbad Hx).
Qed.

Definition Inv (legacy : bool) (s : sys) : Prop :=
  exists x0 tr, replay x0 tr = Some (s_x s, s_x2c s) /\ sync legacy (s_o s) x0 (reqs tr ++ s_c2x s).

Lemma inv_deliver legacy tr : forall x0 o x r q c2x,
  replay x0 tr = Some (x, r :: q) -> sync legacy o x0 (reqs tr ++ c2x) ->
  exists x1 tr', replay x1 tr' = Some (x, q) /\ sync legacy (fst (process_report legacy o r)) x1 (reqs tr' ++ c2x).
Proof.
  induction tr as [|[rq|a] tr IH]; intros x0 o x r q c2x Hr Hs; cbn [replay reqs app] in *.
  - discriminate.
  - apply sync_recv in Hs. eapply IH; eauto.
  - destruct (xbad x0 a) eqn:Hb; [discriminate|].
    destruct (xstep x0 a) as [[x1 r1]|] eqn:Hx; [|discriminate].
    destruct (replay x1 tr) as [[x2 rs]|] eqn:Hr2; [|discriminate].
    inversion Hr; subst; clear Hr.
    exists x1, tr. split; [exact Hr2|]. eapply catchup; eauto.
Qed.

Lemma inv_step legacy s a : Inv legacy s -> bad_step s a = false -> Inv legacy (step legacy s a).
Proof.
  intros (x0 & tr & Hr & Hs) Hbad.
  assert (Hbuild : forall c ob, obuild (s_o s) c = Some ob -> Inv legacy (send s ob)).
  { intros c ob Hb. unfold send. destruct (snd ob) as [r|e] eqn:Hsnd.
    - destruct (sync_build legacy _ _ _ c ob r Hs Hb Hsnd) as (Hpre & Hs').
      apply app_eq_nil in Hpre. destruct Hpre as [Hq1 Hq2].
      exists x0, tr. cbn [s_x s_x2c s_o s_c2x]. split; [exact Hr|]. rewrite Hq1, Hq2. exact Hs'.
    - destruct (obuild_cases _ c ob Hb) as (r & _ & H).
      destruct (bgate (s_o s) c); [subst ob; discriminate|destruct H as [e' ->]].
      exists x0, tr. cbn [s_x s_x2c s_o s_c2x fst]. auto. }
  destruct a as [| |p q| | |xa]; cbn [step].
  - apply (Hbuild CNew). reflexivity.
  - apply (Hbuild CCancel). reflexivity.
  - apply (Hbuild (CReplace p q)). reflexivity.
  - destruct (s_x2c s) as [|r q] eqn:Hq; [exists x0, tr; rewrite Hq; auto|].
    destruct (inv_deliver legacy tr x0 (s_o s) (s_x s) r q (s_c2x s) Hr Hs) as (x1 & tr' & H1 & H2).
    exists x1, tr'. cbn [s_x s_x2c s_o s_c2x]. auto.
  - destruct (s_c2x s) as [|r q] eqn:Hq; [exists x0, tr; rewrite Hq; auto|].
    exists x0, (tr ++ [TRecv r]). cbn [s_x s_x2c s_o s_c2x]. split.
    + rewrite replay_app, Hr. cbn [replay]. rewrite app_nil_r. reflexivity.
    + rewrite reqs_app. cbn [reqs]. rewrite <- app_assoc. exact Hs.
  - rewrite bad_step_xdo in Hbad.
    destruct (xstep (s_x s) xa) as [[x' r]|] eqn:Hx; [|exists x0, tr; auto].
    exists x0, (tr ++ [TEmit xa]). cbn [s_x s_x2c s_o s_c2x]. split.
    + rewrite replay_app, Hr. cbn [replay]. rewrite Hbad, Hx. reflexivity.
    + rewrite reqs_app. cbn [reqs]. rewrite app_nil_r. exact Hs.
Qed.

Lemma inv_run legacy acts : forall s,
  Inv legacy s -> kf_hit legacy s acts = false -> Inv legacy (run_from legacy s acts).
Proof.
  induction acts as [|a acts IH]; intros s Hi Hk; [exact Hi|].
  cbn [kf_hit] in Hk. apply orb_false_elim in Hk. destruct Hk as [Hk1 Hk2].
  cbn [run_from fold_left]. apply IH; [apply inv_step; assumption|exact Hk2].
Qed.

Definition fresh_order (o : order) : Prop :=
  o_status o = CREATED /\ o_orig o = None /\ o_cum o = 0%Z /\ o_leaves o = 0%Z /\ o_clord o <> [].

Lemma inv_init legacy o oid : fresh_order o -> Inv legacy (init_sys o oid).
Proof.
  intros (Hst & Ho & Hc & Hl & Hn). exists (init_exch oid), []. split; [reflexivity|].
  cbn [reqs app init_sys s_o s_c2x]. apply SyIdle; cbn; auto.
  - unfold fields_ok; cbn. repeat split; auto; congruence.
  - intro H. discriminate.
Qed.

(* what convergence means.  The status may differ in one case: an unsolicited cancel crossed a cancel
   request; the object is CANCELED while the exchange, holding the request, reports PENDING_CANCEL *)
Definition agrees (o : order) (x : exch) : Prop :=
  (o_status o = x_status x \/ (x_pend x <> None /\ o_status o = x_base x)) /\
  o_cum o = x_cum x /\ o_leaves o = x_leaves x /\
  (x_base x <> CREATED -> o_price o = x_price x /\ o_qty o = x_qty x).

Lemma replay_quiet legacy o tr : forall x0 x,
  replay x0 tr = Some (x, []) -> sync legacy o x0 (reqs tr) -> sync legacy o x [].
Proof.
  induction tr as [|[rq|a] tr IH]; intros x0 x Hr Hs; cbn [replay reqs] in *.
  - inversion Hr; subst. exact Hs.
  - apply sync_recv in Hs. eapply IH; eauto.
  - destruct (xbad x0 a); [discriminate|]. destruct (xstep x0 a) as [[x1 r1]|]; [|discriminate].
    destruct (replay x1 tr) as [[x2 rs]|]; discriminate.
Qed.

Lemma sync_agrees legacy o x : sync legacy o x [] -> agrees o x.
Proof.
  intro H. unfold agrees, x_status. inversion H as [Hp (Hc & Hl & Hpq & _)|p Hp (Hc & Hl & Hpq & _) (_ & _ & _ & _ & _ & Hk)| | |]; rewrite Hp.
  - auto.
  - split; [|auto]. unfold pend_status. destruct (p_kind p); cbn in Hk; [|left; exact Hk].
    destruct Hk as [Hk|[Hk Hb]]; [left; exact Hk|]. right. split; [discriminate|congruence].
Qed.

Lemma converges legacy s :
  Inv legacy s -> quiescent s = true -> agrees (s_o s) (s_x s).
Proof.
  intros (x0 & tr & Hr & Hs) Hq. unfold quiescent in Hq.
  destruct (s_c2x s) eqn:Hc; [|discriminate]. destruct (s_x2c s) eqn:Hx; [|discriminate].
  rewrite app_nil_r in Hs. eapply sync_agrees, replay_quiet; eauto.
Qed.

Lemma xstep_no_pend x a x1 r :
  x_pend x = None -> xbad x a = false -> xstep x a = Some (x1, r) ->
  x_pend x1 = None /\ x_clord x1 = x_clord x /\ x_base x1 <> CREATED.
Proof.
  intros Hp Hbad Hx.
  destruct (is_answer a) eqn:Hans; [rewrite (answer_needs_pend x a Hans Hp) in Hx; discriminate|].
  destruct (xstep_report x a x1 r Hans Hbad Hx)
    as (xb & rc & ro & ex & _ & -> & _ & (Hc & Hp' & _) & [(p & E & _)|(_ & Hb & _)]); [congruence|].
  split; [cbn; congruence|]. split; [exact Hc|]. apply (btrans_table _ _ ex Hb).
Qed.

Lemma replay_norecv tr : forall x0 x rs,
  replay x0 tr = Some (x, rs) -> reqs tr = [] -> x_pend x0 = None ->
  x_pend x = None /\ x_clord x = x_clord x0 /\ (x_base x0 <> CREATED -> x_base x <> CREATED)
  /\ (x_base x0 = CREATED -> x = x0).
Proof.
  induction tr as [|[rq|a] tr IH]; intros x0 x rs Hr Hq Hp; cbn [replay reqs] in *.
  - inversion Hr; subst. auto.
  - discriminate.
  - destruct (xbad x0 a) eqn:Hb; [discriminate|]. destruct (xstep x0 a) as [[x1 r1]|] eqn:Hx; [|discriminate].
    destruct (replay x1 tr) as [[x2 rs2]|] eqn:Hr2; [|discriminate]. inversion Hr; subst; clear Hr.
    destruct (xstep_no_pend _ _ _ _ Hp Hb Hx) as (K1 & K2 & K3).
    destruct (IH _ _ _ Hr2 Hq K1) as (J1 & J2 & J3 & _).
    split; [exact J1|]. split; [congruence|]. split; [auto|].
    intro E. rewrite (xstep_created x0 a E Hp) in Hx. discriminate.
Qed.

(* at most one request between the two parties, and it is the one the exchange expects *)
Lemma one_outstanding legacy s :
  Inv legacy s ->
  (length (s_c2x s) <= 1)%nat /\ (s_c2x s <> [] -> x_pend (s_x s) = None).
Proof.
  intros (x0 & tr & Hr & Hs). pose proof (sync_len _ _ _ _ Hs) as Hl. rewrite app_length in Hl.
  split; [lia|]. intro Hne.
  assert (Hq : reqs tr = []) by (destruct (reqs tr); [reflexivity|destruct (s_c2x s); [congruence|cbn in Hl; lia]]).
  assert (Hp0 : x_pend x0 = None).
  { eapply sync_pend_pre; eauto. rewrite Hq. exact Hne. }
  eapply replay_norecv; eauto.
Qed.

Lemma request_expected legacy s r q :
  Inv legacy s -> s_c2x s = r :: q ->
  q = [] /\
  match r with
  | RNew _ _ _ => x_base (s_x s) = CREATED
  | RCancel _ orig _ | RReplace _ orig _ _ =>
      x_pend (s_x s) = None /\ orig = x_clord (s_x s) /\ x_base (s_x s) <> CREATED
  end.
Proof.
  intros (x0 & tr & Hr & Hs) Hc. rewrite Hc in Hs.
  pose proof (sync_len _ _ _ _ Hs) as Hl. rewrite app_length in Hl. cbn [length] in Hl.
  assert (Hq : reqs tr = []) by (destruct (reqs tr); [reflexivity|cbn in Hl; lia]).
  assert (Hq2 : q = []) by (destruct q; [reflexivity|cbn in Hl; lia]).
  rewrite Hq, Hq2 in Hs. cbn [app] in Hs. split; [exact Hq2|].
  destruct (replay_norecv _ _ _ _ Hr Hq (sync_pend_pre _ _ _ _ Hs ltac:(discriminate))) as (K1 & K2 & K3 & K4).
  inversion Hs as [| |? ? ? Hb| ? ? ? ? ? Ha| ? ? ? ? ? ? Ha]; subst; clear Hs.
  - rewrite (K4 Hb). exact Hb.
  - destruct Ha as (_ & _ & A3 & _ & A5 & _). split; [exact K1|]. split; [congruence|]. apply K3, base_ok_not_created, A5.
  - destruct Ha as (_ & _ & A3 & _ & A5 & _). split; [exact K1|]. split; [congruence|]. apply K3, base_ok_not_created, A5.
Qed.

(* whenever the (repaired) object says it can be cancelled / replaced, the builder succeeds, refers
   to the ClOrdID live at the exchange, and nothing else is outstanding *)
Lemma gate_idle s :
  Inv false s -> can_cancel (s_o s) = true ->
  s_c2x s = [] /\ x_pend (s_x s) = None /\ o_orig (s_o s) = None /\ o_clord (s_o s) = x_clord (s_x s).
Proof.
  intros (x0 & tr & Hr & Hs) Hcan.
  destruct (sync_can_cancel false _ _ _ Hs Hcan) as (Hpre & (Hp & _ & _ & Hids & _) & Hlive).
  apply app_eq_nil in Hpre. destruct Hpre as [Hq Hc].
  destruct (Hids (proj1 (live_open_ok _ Hlive))) as [[I1 I2]|[I1 _]]; [|discriminate].
  destruct (replay_norecv _ _ _ _ Hr Hq Hp) as (K1 & K2 & _).
  split; [exact Hc|]. split; [exact K1|]. split; [exact I2|]. congruence.
Qed.

Lemma cancel_wellformed s :
  Inv false s -> can_cancel (s_o s) = true ->
  let o := s_o s in
  snd (cancel_req o) = Ok (RCancel (clord_id_of (clord_root (o_clord o)) (o_cnt o + 1)) (x_clord (s_x s)) (o_qty o))
  /\ s_c2x s = [] /\ x_pend (s_x s) = None.
Proof.
  intros Hi Hcan. destruct (gate_idle s Hi Hcan) as (G1 & G2 & G3 & G4). cbv zeta.
  destruct (obuild_cases (s_o s) CCancel _ eq_refl) as (r & Hr & H). injection Hr as <-.
  cbn [bgate] in H. rewrite Hcan, G3 in H. rewrite H, G4. auto.
Qed.

Lemma replace_wellformed s p q :
  Inv false s -> can_replace (s_o s) = true ->
  let o := s_o s in
  (rpl_px o p <> o_price o \/ rpl_qty o q <> o_qty o) ->
  snd (replace_req o p q) = Ok (RReplace (clord_id_of (clord_root (o_clord o)) (o_cnt o + 1)) (x_clord (s_x s))
                                         (rpl_px o p) (rpl_qty o q))
  /\ s_c2x s = [] /\ x_pend (s_x s) = None.
Proof.
  intros Hi Hcan. destruct (gate_idle s Hi Hcan) as (G1 & G2 & G3 & G4). cbv zeta. intro Hch.
  destruct (obuild_cases (s_o s) (CReplace p q) _ eq_refl) as (r & Hr & H). injection Hr as <-.
  cbn [bgate] in H. rewrite Hcan, G3 in H.
  replace ((rpl_px (s_o s) p =? o_price (s_o s))%Z && (rpl_qty (s_o s) q =? o_qty (s_o s))%Z) with false in H
    by (symmetry; apply andb_false_iff; destruct Hch as [E|E]; [left|right]; apply Z.eqb_neq, E).
  rewrite H, G4. auto.
Qed.

(* the object inside the product only ever moves by the operations of OrderL.ostep *)
Lemma step_is_ostep legacy s a : s_o (step legacy s a) = s_o s \/ exists c, s_o (step legacy s a) = ostep legacy (s_o s) c.
Proof.
  destruct a as [| |p q| | |xa]; cbn [step].
  - right. exists CNew. unfold send. destruct (snd (new_req (s_o s))); reflexivity.
  - right. exists CCancel. unfold send. destruct (snd (cancel_req (s_o s))); reflexivity.
  - right. exists (CReplace p q). unfold send. destruct (snd (replace_req (s_o s) p q)); reflexivity.
  - destruct (s_x2c s) as [|r rs]; [left; reflexivity|]. right. exists (CRep r). reflexivity.
  - left. destruct (s_c2x s); reflexivity.
  - left. destruct (xstep (s_x s) xa) as [[x' r]|]; reflexivity.
Qed.

Lemma run_from_ind legacy (P : order -> Prop) :
  (forall o c, P o -> P (ostep legacy o c)) -> forall acts s, P (s_o s) -> P (s_o (run_from legacy s acts)).
Proof.
  intros Hs acts. induction acts as [|a acts IH]; intros s H; [exact H|]. cbn [run_from fold_left]. apply IH.
  destruct (step_is_ostep legacy s a) as [E|[c E]]; rewrite E; [exact H|apply Hs, H].
Qed.


Definition reach (legacy : bool) (o : order) (oid : str) (acts : list act) : sys :=
  run_from legacy (init_sys o oid) acts.
Definition clean (legacy : bool) (o : order) (oid : str) (acts : list act) : Prop :=
  kf_hit legacy (init_sys o oid) acts = false.

Lemma reach_inv legacy clord ticker side price qty ordtype account target o oid acts :
  init_order clord ticker side price qty ordtype account target = Ok o ->
  clean legacy o oid acts -> Inv legacy (reach legacy o oid acts).
Proof.
  intros Hi Hc. apply inv_run; [apply inv_init|exact Hc].
  destruct (init_owf _ _ _ _ _ _ _ _ _ Hi) as ((_ & _ & Hne & _) & _ & Hs & _ & Ho & Hcu & Hl & _).
  repeat split; assumption.
Qed.

Definition w_root : str := [111; 114; 100].                       (* "ord" *)
Definition w_order : order :=
  mkO w_root None None [84] [49] 800 40 0 0 None [50] [48] 0 CREATED true 800.
Definition w_sys : sys := init_sys w_order [88].

Lemma w_order_init : init_order w_root [84] [49] 800 40 [50] [48] None = Ok w_order.
Proof. reflexivity. Qed.

Definition w_open : list act := [ANew; XRecv; XDo XAck; ADeliver].
Definition w_k2 : list act := w_open ++ [XDo XSuspend; ADeliver; XDo XExpire; ADeliver].
Definition w_k3 : list act := w_open ++ [XDo XSuspend; ADeliver; AReplace (Some 804%Z) None; XRecv; XDo XAcceptRpl; ADeliver].
Definition w_d17 : list act := w_open ++ [ACancel; XRecv; XDo XRejReq; ADeliver].
(* replace accepted, partial fill racing with a cancel that is refused, second cancel accepted *)
Definition w_live : list act :=
  w_open ++ [AReplace (Some 804%Z) (Some 48%Z); XRecv; XDo XPendAck; XDo (XFill 2 800); XDo XAcceptRpl;
             ADeliver; ADeliver; ADeliver; ACancel; XDo (XFill 4 802); XRecv; XDo XRejReq; ADeliver; ADeliver;
             ACancel; XRecv; XDo XAcceptCxl; ADeliver].

