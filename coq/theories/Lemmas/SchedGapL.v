(* C14 / C06 under concurrency: the gap fills of a ResendRequest reply never reach beyond the outbound counter of the
   moment the request arrived.  The code of the reply (Fix/Sched.v: resend_code) is fixed when the reader starts the
   service; whatever other tasks send while it is suspended in should_replay / drain gets numbers FROM that counter on
   (C14_senders_safe), so no gap fill can tell the peer to skip a message that was sent during the service. *)
From Coq Require Import ZArith List Bool Lia.
From AF Require Import Fix.Sched Lemmas.SchedL.
Import ListNotations.
Open Scope Z_scope.

Definition is_gapfill (m : msg) : bool := (m_ty m =? T_SEQRESET) && m_gf m.

(* a gap fill instruction b -> NewSeqNo has NewSeqNo <= saved *)
Definition gf_le (saved : Z) (i : instr) : Prop :=
  match i with
  | ISend m => is_gapfill m = true -> m_id m <= saved
  | _ => True
  end.

(* safe code of a reply: its gap fills run up to the counter the code was checked against *)
Lemma instr_ok_gf_le : forall rws hi i, instr_ok rws hi i -> gf_le hi i.
Proof.
  intros rws hi [m| | | | | | | |] H; try exact I. simpl. intros Hg.
  destruct H as [Hn|[(k&f&_&->)|(b&n&->&Hbn)]].
  - unfold is_new in Hn. unfold is_gapfill in Hg. destruct (m_ty m =? T_SEQRESET); discriminate.
  - unfold is_gapfill in Hg. simpl in Hg. rewrite andb_false_r in Hg. discriminate.
  - simpl. lia.
Qed.

Theorem resend_gapfill_bound : forall b0 e d w,
  ent_ok w -> Forall (gf_le (nout w)) (resend_code b0 e d w).
Proof. intros b0 e d w He. exact (Forall_impl _ (instr_ok_gf_le _ _) (resend_code_ok b0 e d w He)). Qed.

(* example: journal 1, 2 (application), 3 (Heartbeat); ResendRequest(1, 0) is serviced while another task sends message
   id 9, which gets number 4 in the middle of the reply: the tail gap fill is 3 -> 4 (the counter when the request
   arrived), not 3 -> 5 - message 4 is not skipped *)
Definition hbm : msg := mkMsg T_HEARTBEAT 0 None false false.
Definition gp_cfg : config := mkC (after [app 1; app 2; hbm]) [reader_resend 1 0 []; sender_task [app 9]].
Definition gp_sched : list nat := [0; 0; 0; 1; 0; 1; 0; 0; 0; 0]%nat.
