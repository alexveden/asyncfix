(* Reasoning framework for the session model (Fix/Session.v), shared by C04, C11 and C05:
   - equations of the monad, so that a handler is evaluated by rewriting, never by unfolding the world record;
   - pres f c     : computation c leaves the world projection f unchanged (whatever its outcome);
   - writes ds c  : c touches at most the fields ds (it preserves every projection that ignores them);
   - allev P c    : every event c emits satisfies P;
   all compositional under bind: a handler's footprint follows the syntax of its definition
   (the fourth such notion, `keeps I c` for invariants of the world, opens SessionC04L);
   - X_nf: the closed form of handler X - what send_msg does once its gates are passed, disconnect, ... *)
From Coq Require Import ZArith NArith List Bool Lia ZifyBool.
From AF Require Import Base.Sx Py.Str Fix.Session Lemmas.StrB.
Import ListNotations.
Open Scope Z_scope.

Ltac stlia :=
  unfold ST_DISC_WCONN, ST_DISC_BROKEN, ST_NCE, ST_LOGON_SENT, ST_LOGON_RECV, ST_HANDLING, ST_TOO_HIGH,
    ST_AWAITING, ST_ACTIVE, ROLE_INITIATOR, ROLE_ACCEPTOR in *; lia.

Lemma kind_eq_dec (a b : kind) : {a = b} + {a <> b}.
Proof. decide equality. Qed.

Lemma get_int_inv t m n : get_int t m = inl n ->
  exists v, get t (mtags m) = Some v /\ py_int v = Some n.
Proof.
  unfold get_int. destruct (get t (mtags m)) as [v|]; [|discriminate].
  destruct (py_int v) eqn:E; [|discriminate]. intros H. inversion H. subst. eauto.
Qed.

Fixpoint apps (l : list event) : list msg :=
  match l with [] => [] | App m :: l' => m :: apps l' | _ :: l' => apps l' end.
Fixpoint wires (l : list event) : list msg :=
  match l with [] => [] | Wire m :: l' => m :: wires l' | _ :: l' => wires l' end.
Fixpoint discs (l : list event) : list unit :=
  match l with [] => [] | OnDisconnect :: l' => tt :: discs l' | _ :: l' => discs l' end.
Fixpoint logons (l : list event) : list bool :=
  match l with [] => [] | OnLogon b :: l' => b :: logons l' | _ :: l' => logons l' end.
Fixpoint states (l : list event) : list Z :=
  match l with [] => [] | State s :: l' => s :: states l' | _ :: l' => states l' end.

Definition is_resend (m : msg) : bool := match mkind m with KResend => true | _ => false end.
Definition resends (l : list event) : list msg := filter is_resend (wires l).

Lemma apps_app a b : apps (a ++ b) = apps a ++ apps b.
Proof. induction a as [|[] a IH]; cbn; congruence. Qed.
Lemma wires_app a b : wires (a ++ b) = wires a ++ wires b.
Proof. induction a as [|[] a IH]; cbn; congruence. Qed.
Lemma discs_app a b : discs (a ++ b) = discs a ++ discs b.
Proof. induction a as [|[] a IH]; cbn; congruence. Qed.
Lemma logons_app a b : logons (a ++ b) = logons a ++ logons b.
Proof. induction a as [|[] a IH]; cbn; congruence. Qed.
Lemma states_app a b : states (a ++ b) = states a ++ states b.
Proof. induction a as [|[] a IH]; cbn; congruence. Qed.
Lemma resends_app a b : resends (a ++ b) = resends a ++ resends b.
Proof. unfold resends. now rewrite wires_app, filter_app. Qed.

Definition not_app (e : event) : Prop := match e with App _ => False | _ => True end.
Definition not_wire (e : event) : Prop := match e with Wire _ => False | _ => True end.
Definition not_disc (e : event) : Prop := match e with OnDisconnect => False | _ => True end.
Definition not_logon (e : event) : Prop := match e with OnLogon _ => False | _ => True end.
Definition not_state (e : event) : Prop := match e with State _ => False | _ => True end.
Definition not_resend (e : event) : Prop := match e with Wire m => is_resend m = false | _ => True end.

Lemma apps_nil l : Forall not_app l -> apps l = [].
Proof. induction 1 as [|[] l H _ IH]; cbn in *; auto; contradiction. Qed.
Lemma wires_nil l : Forall not_wire l -> wires l = [].
Proof. induction 1 as [|[] l H _ IH]; cbn in *; auto; contradiction. Qed.
Lemma discs_nil l : Forall not_disc l -> discs l = [].
Proof. induction 1 as [|[] l H _ IH]; cbn in *; auto; contradiction. Qed.
Lemma logons_nil l : Forall not_logon l -> logons l = [].
Proof. induction 1 as [|[] l H _ IH]; cbn in *; auto; contradiction. Qed.
Lemma states_nil l : Forall not_state l -> states l = [].
Proof. induction 1 as [|[] l H _ IH]; cbn in *; auto; contradiction. Qed.
Lemma resends_nil l : Forall not_resend l -> resends l = [].
Proof.
  unfold resends. induction 1 as [|[] l H _ IH]; cbn in *; auto. now rewrite H.
Qed.
Lemma res_eta {A} (r : res A) : mkR (rv r) (rw r) (re r) = r.
Proof. destruct r; reflexivity. Qed.

Lemma bind_unfold {A B} (c : M A) (k : A -> M B) w :
  bind c k w =
  match rv (c w) with
  | inl a => mkR (rv (k a (rw (c w)))) (rw (k a (rw (c w)))) (re (c w) ++ re (k a (rw (c w))))
  | inr x => mkR (inr x) (rw (c w)) (re (c w))
  end.
Proof. reflexivity. Qed.

(* a first part whose result is known *)
Lemma bind_eq {A B} (c : M A) (k : A -> M B) w a w' es :
  c w = mkR (inl a) w' es -> bind c k w = mkR (rv (k a w')) (rw (k a w')) (es ++ re (k a w')).
Proof. intros E. rewrite bind_unfold, E. reflexivity. Qed.

Lemma bind_getw {B} (k : world -> M B) w : bind getw k w = k w w.
Proof. rewrite (bind_eq getw k w w w []); [apply res_eta|reflexivity]. Qed.
Lemma bind_ret {A B} (a : A) (k : A -> M B) w : bind (ret a) k w = k a w.
Proof. rewrite (bind_eq (ret a) k w a w []); [apply res_eta|reflexivity]. Qed.
Lemma bind_modw {B} g (k : unit -> M B) w : bind (modw g) k w = k tt (g w).
Proof. rewrite (bind_eq (modw g) k w tt (g w) []); [apply res_eta|reflexivity]. Qed.
Lemma bind_lift {A B} (v : A + exn) (k : A -> M B) w :
  bind (lift v) k w = match v with inl a => k a w | inr x => mkR (inr x) w [] end.
Proof. destruct v; [apply bind_ret|reflexivity]. Qed.

(* try: ... except: pass -- what follows runs in any case, and sees at most whether the block raised *)
Lemma bind_try {A B} (c : M A) (k : option A -> M B) w :
  bind (try_ c) k w =
  let a := match rv (c w) with inl a => Some a | inr _ => None end in
  mkR (rv (k a (rw (c w)))) (rw (k a (rw (c w)))) (re (c w) ++ re (k a (rw (c w)))).
Proof. rewrite bind_unfold. unfold try_. destruct (rv (c w)); reflexivity. Qed.

Definition pres {X A} (f : world -> X) (c : M A) : Prop := forall w, f (rw (c w)) = f w.

Lemma pres_ret {X A} (f : world -> X) (a : A) : pres f (ret a).
Proof. intro; reflexivity. Qed.
Lemma pres_raise {X A} (f : world -> X) x : pres f (@raise A x).
Proof. intro; reflexivity. Qed.
Lemma pres_getw {X} (f : world -> X) : pres f getw.
Proof. intro; reflexivity. Qed.
Lemma pres_emit {X} (f : world -> X) e : pres f (emit e).
Proof. intro; reflexivity. Qed.
Lemma pres_lift {X A} (f : world -> X) (v : A + exn) : pres f (lift v).
Proof. destruct v; intro; reflexivity. Qed.
Lemma pres_modw {X} (f : world -> X) g : (forall w, f (g w) = f w) -> pres f (modw g).
Proof. intros H w. apply H. Qed.
(* the continuation may use the value the first part returned *)
Lemma pres_bind_post {X A B} (f : world -> X) (Q : A -> Prop) (c : M A) (k : A -> M B) :
  pres f c -> (forall w a, rv (c w) = inl a -> Q a) -> (forall a, Q a -> pres f (k a)) ->
  pres f (bind c k).
Proof.
  intros Hc HQ Hk w. rewrite bind_unfold. destruct (rv (c w)) eqn:E; cbn [rw]; [|apply Hc].
  rewrite Hk; [apply Hc | eapply HQ; eauto].
Qed.
Lemma pres_bind {X A B} (f : world -> X) (c : M A) (k : A -> M B) :
  pres f c -> (forall a, pres f (k a)) -> pres f (bind c k).
Proof. intros Hc Hk. apply (pres_bind_post f (fun _ => True)); auto. Qed.
Lemma pres_bind_lift {X A B} (f : world -> X) (v : A + exn) (k : A -> M B) :
  (forall a, v = inl a -> pres f (k a)) -> pres f (bind (lift v) k).
Proof.
  intros H. apply (pres_bind_post f (fun a => v = inl a)); [apply pres_lift| |exact H].
  destruct v; cbn; congruence.
Qed.
Lemma pres_finally {X A} (f : world -> X) (c : M A) (g : M unit) : pres f c -> pres f g -> pres f (finally_ c g).
Proof. intros Hc Hg w. unfold finally_. destruct (rv (g (rw (c w)))); cbn [rw]; rewrite Hg; apply Hc. Qed.
Lemma pres_try {X A} (f : world -> X) (c : M A) : pres f c -> pres f (try_ c).
Proof. intros H w. unfold try_. destruct (rv (c w)); cbn [rw]; apply H. Qed.
Definition allev {A} (P : event -> Prop) (c : M A) : Prop := forall w, Forall P (re (c w)).

Lemma allev_ret {A} P (a : A) : allev P (ret a).
Proof. intro; constructor. Qed.
Lemma allev_raise {A} P x : allev P (@raise A x).
Proof. intro; constructor. Qed.
Lemma allev_getw P : allev P getw.
Proof. intro; constructor. Qed.
Lemma allev_modw P g : allev P (modw g).
Proof. intro; constructor. Qed.
Lemma allev_emit (P : event -> Prop) e : P e -> allev P (emit e).
Proof. intros H w. cbn. auto. Qed.
Lemma allev_lift {A} P (v : A + exn) : allev P (lift v).
Proof. destruct v; intro; constructor. Qed.
Lemma allev_bind_post {A B} P (Q : A -> Prop) (c : M A) (k : A -> M B) :
  allev P c -> (forall w a, rv (c w) = inl a -> Q a) -> (forall a, Q a -> allev P (k a)) ->
  allev P (bind c k).
Proof.
  intros Hc HQ Hk w. rewrite bind_unfold. destruct (rv (c w)) eqn:E; cbn [re]; [apply Forall_app; split|]; auto.
  apply Hk. eapply HQ; eauto.
Qed.
Lemma allev_bind {A B} P (c : M A) (k : A -> M B) :
  allev P c -> (forall a, allev P (k a)) -> allev P (bind c k).
Proof. intros Hc Hk. apply (allev_bind_post P (fun _ => True)); auto. Qed.
Lemma allev_bind_lift {A B} P (v : A + exn) (k : A -> M B) :
  (forall a, v = inl a -> allev P (k a)) -> allev P (bind (lift v) k).
Proof.
  intros H. apply (allev_bind_post P (fun a => v = inl a)); [apply allev_lift| |exact H].
  destruct v; cbn; congruence.
Qed.
Lemma allev_finally {A} P (c : M A) (g : M unit) : allev P c -> allev P g -> allev P (finally_ c g).
Proof.
  intros Hc Hg w. unfold finally_. destruct (rv (g (rw (c w)))); cbn [re]; apply Forall_app; split; auto.
Qed.
Lemma allev_try {A} P (c : M A) : allev P c -> allev P (try_ c).
Proof. intros H w. unfold try_. destruct (rv (c w)); cbn [re]; apply H. Qed.
Lemma allev_weaken {A} (P Q : event -> Prop) (c : M A) :
  (forall e, P e -> Q e) -> allev P c -> allev Q c.
Proof. intros H Hc w. eapply Forall_impl; [apply H | apply Hc]. Qed.
Inductive fld := FSt | FRole | FNin | FNout | FMaxres | FTreq | FWasact | FLastt | FWr
               | FJsout | FJsin | FJout | FJin.

Definition ignores {X} (f : world -> X) (d : fld) : Prop :=
  match d with
  | FSt => forall v w, f (set_st v w) = f w
  | FRole => forall v w, f (set_role v w) = f w
  | FNin => forall v w, f (set_nin v w) = f w
  | FNout => forall v w, f (set_nout v w) = f w
  | FMaxres => forall v w, f (set_maxres v w) = f w
  | FTreq => forall v w, f (set_treq v w) = f w
  | FWasact => forall v w, f (set_wasact v w) = f w
  | FLastt => forall v w, f (set_lastt v w) = f w
  | FWr => forall v w, f (set_wr v w) = f w
  | FJsout => forall v w, f (set_jsout v w) = f w
  | FJsin => forall v w, f (set_jsin v w) = f w
  | FJout => forall v w, f (set_jout v w) = f w
  | FJin => forall v w, f (set_jin v w) = f w
  end.

Fixpoint ignores_all {X} (f : world -> X) (ds : list fld) : Prop :=
  match ds with [] => True | d :: ds' => ignores f d /\ ignores_all f ds' end.

Lemma ignores_all_incl {X} (f : world -> X) ds ds' : incl ds ds' -> ignores_all f ds' -> ignores_all f ds.
Proof.
  intros Hi H. assert (Hin : forall d, In d ds' -> ignores f d).
  { clear Hi. induction ds' as [|d' ds' IH]; intros d Hd; [destruct Hd|]. destruct H as [H1 H2].
    destruct Hd as [<-|Hd]; [exact H1|apply IH; assumption]. }
  induction ds as [|d ds IH]; cbn; [exact I|]. split; [apply Hin, Hi; left; reflexivity|].
  apply IH. intros x Hx. apply Hi. right. exact Hx.
Qed.

Definition writes {A} (ds : list fld) (c : M A) : Prop :=
  forall X (f : world -> X), ignores_all f ds -> pres f c.

Lemma writes_incl {A} ds ds' (c : M A) : writes ds c -> incl ds ds' -> writes ds' c.
Proof. intros H Hi X f Hf. apply H. apply (ignores_all_incl f ds ds' Hi Hf). Qed.

Lemma ignores_all_but {X} (f : world -> X) d0 ds : (forall d, d <> d0 -> ignores f d) -> ~ In d0 ds -> ignores_all f ds.
Proof.
  intros Hf Hn. induction ds as [|d ds IH]; cbn; [exact I|].
  split; [apply Hf; intros ->; apply Hn; left; reflexivity|apply IH; intros Hi; apply Hn; right; exact Hi].
Qed.
(* a computation that does not write the state (the role) preserves it *)
Lemma writes_st {A} ds (c : M A) : writes ds c -> ~ In FSt ds -> pres st c.
Proof. intros H Hn. apply H, (ignores_all_but st FSt); [|exact Hn]. intros [] Hd; cbn; intros; try reflexivity. now elim Hd. Qed.
Lemma writes_role {A} ds (c : M A) : writes ds c -> ~ In FRole ds -> pres role c.
Proof. intros H Hn. apply H, (ignores_all_but role FRole); [|exact Hn]. intros [] Hd; cbn; intros; try reflexivity. now elim Hd. Qed.

Lemma writes_ret {A} ds (a : A) : writes ds (ret a).
Proof. intros X f _. apply pres_ret. Qed.
Lemma writes_raise {A} ds x : writes ds (@raise A x).
Proof. intros X f _. apply pres_raise. Qed.
Lemma writes_getw ds : writes ds getw.
Proof. intros X f _. apply pres_getw. Qed.
Lemma writes_emit ds e : writes ds (emit e).
Proof. intros X f _. apply pres_emit. Qed.
Lemma writes_lift {A} ds (v : A + exn) : writes ds (lift v).
Proof. intros X f _. apply pres_lift. Qed.
Lemma writes_bind {A B} ds (c : M A) (k : A -> M B) :
  writes ds c -> (forall a, writes ds (k a)) -> writes ds (bind c k).
Proof. intros Hc Hk X f Hf. apply pres_bind; [apply Hc|intros a; apply Hk]; exact Hf. Qed.
Lemma writes_try {A} ds (c : M A) : writes ds c -> writes ds (try_ c).
Proof. intros H X f Hf. apply pres_try, H, Hf. Qed.
Lemma writes_finally {A} ds (c : M A) (g : M unit) : writes ds c -> writes ds g -> writes ds (finally_ c g).
Proof. intros Hc Hg X f Hf. apply pres_finally; [apply Hc|apply Hg]; exact Hf. Qed.

(* the side conditions: a concrete projection ignores the listed fields; one concrete list lies within another *)
Ltac ignores_solve := cbn [ignores_all ignores]; repeat split; intros; reflexivity.
Ltac incl_solve := unfold incl; cbn [In app]; tauto.

(* a world built by setters of listed fields (the goal is  f (... setters ... w) = f w) *)
Ltac ignores_rewrite H :=
  cbn [ignores_all ignores] in H; decompose [and] H;
  repeat match goal with E : forall v w, ?f (_ v w) = ?f w |- _ => rewrite E end;
  reflexivity.

Create HintDb writes discriminated.
Create HintDb allev discriminated.

(* syntax-directed: the rules above along the shape of the definition, the footprints proved so far at the calls *)
Ltac writes_step :=
  match goal with
  | |- writes _ (bind _ _) => apply writes_bind; [|intros ?]
  | |- writes _ (ret _) => apply writes_ret
  | |- writes _ (raise _) => apply writes_raise
  | |- writes _ getw => apply writes_getw
  | |- writes _ (emit _) => apply writes_emit
  | |- writes _ (lift _) => apply writes_lift
  | |- writes _ (try_ _) => apply writes_try
  | |- writes _ (finally_ _ _) => apply writes_finally
  | |- writes _ (modw _) => let H := fresh in intros ? ? H ?; cbn [modw rw]; ignores_rewrite H
  | |- writes _ (if ?c then _ else _) => destruct c
  | |- writes _ (match ?x with _ => _ end) => destruct x
  | |- writes _ _ => eapply writes_incl; [solve [eauto with writes]|incl_solve]
  end.
Ltac writes_tac := repeat writes_step.

Ltac allev_step :=
  match goal with
  | |- allev _ (bind _ _) => apply allev_bind; [|intros ?]
  | |- allev _ (ret _) => apply allev_ret
  | |- allev _ (raise _) => apply allev_raise
  | |- allev _ getw => apply allev_getw
  | |- allev _ (modw _) => apply allev_modw
  | |- allev _ (emit _) => apply allev_emit; cbn; auto
  | |- allev _ (lift _) => apply allev_lift
  | |- allev _ (try_ _) => apply allev_try
  | |- allev _ (finally_ _ _) => apply allev_finally
  | |- allev _ (if ?c then _ else _) => destruct c
  | |- allev _ (match ?x with _ => _ end) => destruct x
  | |- allev _ _ => solve [eauto with allev]
  end.
Ltac allev_tac := repeat allev_step.

(* Parts of handlers that the model does not name, named here so that lemmas can speak of them:
   the first line of pre_handlers - the first message on a fresh connection makes it the acceptor *)
Definition accept_first (w0 : world) : M unit :=
  if st w0 =? ST_NCE then state_set ST_LOGON_RECV ;;; modw (set_role ROLE_ACCEPTOR) else ret tt.

(* the rest of send_write after encode: journal the frame (unless it is a retransmission or a gap fill), then write it *)
Definition journal_write (m : msg) (n : Z) (wm : msg) : M unit :=
  (if skip_journal m then ret tt else persist_out n wm) ;;;
  w1 <- getw ;;
  (if wr w1 then ret tt else raise XAttribute) ;;;
  emit (Wire wm).

Lemma send_write_unfold c m : send_write c m = (sm <- encode c m ;; journal_write m (fst sm) (snd sm)).
Proof. reflexivity. Qed.
Section Footprints.
  Context (c : cfg).

  Lemma state_set_writes s : writes [FSt; FWasact] (state_set s).
  Proof.
    unfold state_set. writes_step; [|writes_tac].
    intros X f H w. cbn [modw rw]. destruct (s =? ST_ACTIVE); ignores_rewrite H.
  Qed.

  Lemma persist_out_writes seq m : writes [FJsout; FJout] (persist_out seq m).
  Proof.
    intros X f H w. unfold persist_out.
    destruct (negb (in_i64 seq)); [reflexivity|]. destruct (has_key _ _); [reflexivity|].
    cbn [rw]. ignores_rewrite H.
  Qed.

  Lemma persist_in_writes m : writes [FJsin; FJin] (persist_in m).
  Proof.
    intros X f H w. unfold persist_in.
    destruct (get T34 (mtags m)) as [v|]; [|reflexivity]. destruct (py_int_bytes v) as [z|]; [|reflexivity].
    destruct (negb (in_i64 z)); [reflexivity|]. destruct (existsb _ _); [reflexivity|].
    cbn [rw]. ignores_rewrite H.
  Qed.

  Lemma recover_out_writes lo hi : writes [] (recover_out lo hi).
  Proof. intros X f _ w. unfold recover_out. destruct (negb _); reflexivity. Qed.

  Hint Resolve state_set_writes persist_out_writes persist_in_writes recover_out_writes : writes.

  (* Journaler.set_seq_num rewrites both stored counters and prunes both journals; the live counters only when given *)
  Lemma set_seq_num_writes (o i : option Z) :
    writes (match o with Some _ => [FNout] | None => [] end ++ match i with Some _ => [FNin] | None => [] end
            ++ [FJsout; FJsin; FJout; FJin])
           (set_seq_num o i).
  Proof. unfold set_seq_num. destruct o, i; cbn [app]; writes_tac. Qed.

  Lemma encode_writes m : writes [FNout] (encode c m).
  Proof. unfold encode. writes_tac. Qed.
  Hint Resolve encode_writes : writes.

  Lemma journal_write_writes m n wm : writes [FJsout; FJout] (journal_write m n wm).
  Proof. unfold journal_write. writes_tac. Qed.
  Hint Resolve journal_write_writes : writes.

  Lemma send_write_writes m : writes [FNout; FJsout; FJout] (send_write c m).
  Proof. rewrite send_write_unfold. writes_tac. Qed.
  Hint Resolve send_write_writes : writes.

  Lemma send_tail_writes m w0 : writes [FNout; FJsout; FJout] (send_tail c m w0).
  Proof. unfold send_tail. writes_tac. Qed.

  (* only ACTIVE is remembered in _connection_was_active *)
  Lemma state_set_writes_st s : s <> ST_ACTIVE -> writes [FSt] (state_set s).
  Proof.
    intros Hs. unfold state_set. writes_step; [|writes_tac].
    intros X f H w. cbn [modw rw]. destruct (s =? ST_ACTIVE) eqn:E; [lia|]. ignores_rewrite H.
  Qed.

  Lemma accept_first_writes w0 : writes [FSt; FRole] (accept_first w0).
  Proof.
    assert (Hs : writes [FSt] (state_set ST_LOGON_RECV)) by (apply state_set_writes_st; discriminate).
    unfold accept_first. writes_tac.
  Qed.

  Lemma send_gate_writes m w0 : writes [FSt; FRole] (send_gate m w0).
  Proof.
    assert (Hs : writes [FSt] (state_set ST_LOGON_SENT)) by (apply state_set_writes_st; discriminate).
    unfold send_gate. writes_tac.
  Qed.
  Hint Resolve send_tail_writes send_gate_writes : writes.

  Lemma send_msg_writes m : writes [FSt; FRole; FNout; FJsout; FJout] (send_msg c m).
  Proof. unfold send_msg. writes_tac. Qed.
  Hint Resolve send_msg_writes : writes.

  Lemma send_test_req_writes now : writes [FSt; FRole; FNout; FJsout; FJout; FTreq] (send_test_req c now).
  Proof. unfold send_test_req. writes_tac. Qed.

  (* without a Logout to send, disconnect leaves the role, the counters and the journal alone *)
  Lemma disconnect_writes ds (lm : option str) :
    writes ([FSt; FTreq; FLastt; FMaxres; FWr; FWasact]
            ++ match lm with Some _ => [FRole; FNout; FJsout; FJout] | None => [] end)
           (disconnect c ds lm).
  Proof. unfold disconnect. destruct lm; cbn [app]; writes_tac. Qed.
  Hint Resolve disconnect_writes : writes.

  Lemma process_logon_writes m : writes [FSt; FRole; FNout; FJsout; FJout; FWasact] (process_logon c m).
  Proof. unfold process_logon. writes_tac. Qed.

  Lemma check_gaps_writes n : writes [FSt; FRole; FNout; FJsout; FJout; FWasact; FMaxres] (check_gaps c n).
  Proof. unfold check_gaps. writes_tac. Qed.

  Lemma gap_check_writes m : writes [FSt; FRole; FNout; FJsout; FJout; FWasact; FMaxres] (gap_check c m).
  Proof. pose proof check_gaps_writes. unfold gap_check. writes_tac. Qed.

  Lemma process_logout_writes m : writes [FSt; FTreq; FLastt; FMaxres; FWr; FWasact] (process_logout c m).
  Proof. unfold process_logout. writes_tac. Qed.

  Lemma process_seqreset_writes m : writes [FNin; FJsout; FJsin; FJout; FJin] (process_seqreset c m).
  Proof.
    assert (Hq : forall i, writes [FNin; FJsout; FJsin; FJout; FJin] (set_seq_num None (Some i))).
    { intros i. apply (set_seq_num_writes None (Some i)). }
    unfold process_seqreset. writes_tac.
  Qed.

  Lemma process_testrequest_writes m : writes [FSt; FRole; FNout; FJsout; FJout] (process_testrequest c m).
  Proof. apply send_msg_writes. Qed.

  Lemma process_heartbeat_writes m :
    writes [FSt; FRole; FNout; FJsout; FJout; FTreq; FLastt; FMaxres; FWr; FWasact] (process_heartbeat c m).
  Proof. unfold process_heartbeat. writes_tac. Qed.

  Lemma replay_loop_writes rows : forall gfb gfe,
    writes [FSt; FRole; FNout; FJsout; FJout] (replay_loop c rows gfb gfe).
  Proof. induction rows as [|r rows IH]; intros gfb gfe; cbn [replay_loop]; cbv zeta; writes_tac. Qed.
  Hint Resolve replay_loop_writes : writes.

  Lemma process_resend_writes m : writes [FSt; FRole; FNout; FJsout; FJout; FWasact] (process_resend c m).
  Proof. unfold process_resend. writes_tac. Qed.

  Lemma restore_handling_writes : writes [FSt; FWasact] restore_handling.
  Proof. unfold restore_handling. writes_tac. Qed.

  Lemma set_next_num_in_writes m : writes [FNin] (set_next_num_in m).
  Proof. unfold set_next_num_in. writes_tac. Qed.
  Hint Resolve process_logout_writes set_next_num_in_writes : writes.

  Lemma finalize_tail_writes m now r : writes [FSt; FWasact; FMaxres; FLastt; FJsin; FJin] (finalize_tail m now r).
  Proof. unfold finalize_tail. writes_tac. Qed.
  Hint Resolve finalize_tail_writes : writes.

  Hint Resolve process_resend_writes restore_handling_writes process_testrequest_writes process_heartbeat_writes
    : writes.

  (* the dispatcher never touches next_num_in *)
  Lemma dispatch_writes m valid :
    writes [FSt; FRole; FNout; FJsout; FJout; FWasact; FTreq; FLastt; FMaxres; FWr] (dispatch c m valid).
  Proof. unfold dispatch. writes_tac. Qed.
End Footprints.
Lemma del_tags_mtype ts : forall (x y : msg), del_tags ts x = inl y -> mtype y = mtype x.
Proof.
  induction ts as [|t ts IHt]; intros x y Hx; cbn in Hx; [now inversion Hx|].
  unfold del_tag in Hx. destruct (has t (mtags x)); [|discriminate].
  apply IHt in Hx. exact Hx.
Qed.

Lemma set_tag_mtype t v (x y : msg) : set_tag t v x = inl y -> mtype y = mtype x.
Proof. unfold set_tag. destruct (has t (mtags x)); [discriminate|]. now inversion 1. Qed.

Lemma persist_out_events seq m w : re (persist_out seq m w) = [].
Proof. unfold persist_out. destruct (negb _); [reflexivity|]. destruct (has_key _ _); reflexivity. Qed.

Lemma persist_in_events m w : re (persist_in m w) = [].
Proof.
  unfold persist_in. destruct (get T34 (mtags m)) as [v|]; [|reflexivity].
  destruct (py_int_bytes v); [|reflexivity]. destruct (negb _); [reflexivity|]. destruct (existsb _ _); reflexivity.
Qed.

(* Codec.encode: a number (the message's own or the next one), the frame built from it, no event; it never raises
   FIXConnectionError *)
Lemma encode_cases c m w :
  (exists x, encode c m w = mkR (inr x) w [] /\ x <> XConn) \/
  (exists n, encode c m w = mkR (inl (n, mkMsg (mtype m) (wire_tags c n m)))
                                (if raw_seq m then w else set_nout (nout w + 1) w) []
             /\ (raw_seq m = false -> n = nout w)).
Proof.
  unfold encode. destruct (raw_seq m).
  - destruct (get T34 (mtags m)) as [v|]; [|left; eexists; split; [reflexivity|discriminate]].
    destruct (py_int v) as [n|]; [|left; eexists; split; [reflexivity|discriminate]].
    right. exists n. split; [reflexivity|discriminate].
  - right. exists (nout w). split; [reflexivity|reflexivity].
Qed.

(* every predicate used on events lets the state changes through; what a handler may emit besides them is listed
   as its hypotheses: frames by message type, and the application callbacks *)
Section Events.
  Context (P : event -> Prop) (c : cfg).
  Hypothesis PS : forall s, P (State s).

  Lemma state_set_allev s : allev P (state_set s).
  Proof. unfold state_set. allev_tac. Qed.

  Lemma persist_out_allev seq m : allev P (persist_out seq m).
  Proof. intros w. rewrite persist_out_events. constructor. Qed.

  Lemma persist_in_allev m : allev P (persist_in m).
  Proof. intros w. rewrite persist_in_events. constructor. Qed.

  Lemma set_seq_num_allev o i : allev P (set_seq_num o i).
  Proof. unfold set_seq_num. allev_tac. Qed.

  Lemma recover_out_allev lo hi : allev P (recover_out lo hi).
  Proof. intros w. unfold recover_out. destruct (negb _); constructor. Qed.

  Lemma encode_allev m : allev P (encode c m).
  Proof. unfold encode. allev_tac. Qed.

  Lemma set_next_num_in_allev m : allev P (set_next_num_in m).
  Proof. unfold set_next_num_in. allev_tac. Qed.

  Hint Resolve state_set_allev persist_out_allev persist_in_allev set_seq_num_allev recover_out_allev encode_allev
    set_next_num_in_allev : allev.

  Lemma send_gate_allev m w0 : allev P (send_gate m w0).
  Proof. unfold send_gate. allev_tac. Qed.

  Lemma journal_write_allev m n wm : P (Wire wm) -> allev P (journal_write m n wm).
  Proof. intros H. unfold journal_write. allev_tac. Qed.

  (* a frame that goes out has the type of the message it encodes *)
  Lemma send_write_allev m : (forall tags, P (Wire (mkMsg (mtype m) tags))) -> allev P (send_write c m).
  Proof.
    intros H w. rewrite send_write_unfold, bind_unfold.
    destruct (encode_cases c m w) as [[x [E _]]|[n [E _]]]; rewrite E; cbn [rv rw re app fst snd]; [constructor|].
    apply journal_write_allev, H.
  Qed.
  Hint Resolve send_gate_allev send_write_allev : allev.

  Lemma send_tail_allev m w0 : (forall tags, P (Wire (mkMsg (mtype m) tags))) -> allev P (send_tail c m w0).
  Proof. intros H. unfold send_tail. allev_tac. Qed.
  Hint Resolve send_tail_allev : allev.

  Lemma send_msg_allev m : (forall tags, P (Wire (mkMsg (mtype m) tags))) -> allev P (send_msg c m).
  Proof. intros H. unfold send_msg. allev_tac. Qed.
  Hint Resolve send_msg_allev : allev.

  Lemma send_test_req_allev now : (forall tags, P (Wire (mkMsg MT_TESTREQUEST tags))) -> allev P (send_test_req c now).
  Proof. intros H. unfold send_test_req. allev_tac. Qed.

  Lemma disconnect_allev ds lm :
    (lm <> None -> forall tags, P (Wire (mkMsg MT_LOGOUT tags))) -> P OnDisconnect -> allev P (disconnect c ds lm).
  Proof.
    intros H1 H2. unfold disconnect. destruct lm; [specialize (H1 ltac:(discriminate))|]; allev_tac.
  Qed.

  Lemma process_logon_allev m :
    (forall tags, P (Wire (mkMsg MT_LOGON tags))) -> (forall b, P (OnLogon b)) -> allev P (process_logon c m).
  Proof. intros H1 H2. unfold process_logon. allev_tac. Qed.

  Lemma check_gaps_allev n : (forall tags, P (Wire (mkMsg MT_RESENDREQUEST tags))) -> allev P (check_gaps c n).
  Proof. intros H. unfold check_gaps. allev_tac. Qed.

  Lemma process_logout_allev m : P OnLogout -> P OnDisconnect -> allev P (process_logout c m).
  Proof.
    intros H1 H2. unfold process_logout. allev_step; [allev_tac|]. allev_step; [allev_tac|].
    apply disconnect_allev; [congruence|exact H2].
  Qed.
  Hint Resolve process_logout_allev : allev.

  Lemma logout_counted_allev m : P OnLogout -> P OnDisconnect -> allev P (logout_counted c m).
  Proof. intros H1 H2. unfold logout_counted. allev_tac. Qed.

  Lemma process_seqreset_allev m : allev P (process_seqreset c m).
  Proof. unfold process_seqreset. allev_tac. Qed.

  Lemma process_testrequest_allev m : (forall tags, P (Wire (mkMsg MT_HEARTBEAT tags))) -> allev P (process_testrequest c m).
  Proof. intros H. unfold process_testrequest. allev_tac. Qed.

  Lemma process_heartbeat_allev m :
    (forall tags, P (Wire (mkMsg MT_LOGOUT tags))) -> P OnDisconnect -> allev P (process_heartbeat c m).
  Proof.
    intros H1 H2. assert (Hd : forall lm, allev P (disconnect c ST_DISC_BROKEN lm)) by (intros; apply disconnect_allev; auto).
    unfold process_heartbeat. allev_tac.
  Qed.

  (* the replay loop only writes gap fills and messages whose type is not a session type *)
  Lemma replay_loop_allev rows : forall gfb gfe,
    (forall tags, P (Wire (mkMsg MT_SEQUENCERESET tags))) ->
    (forall t tags, is_noreply t = false -> P (Wire (mkMsg t tags))) ->
    allev P (replay_loop c rows gfb gfe).
  Proof.
    induction rows as [|r rows IH]; intros gfb gfe H2 H3; cbn [replay_loop]; cbv zeta; [allev_tac|].
    allev_step; [allev_tac|].
    apply allev_bind_lift. intros t Ht.
    assert (t = mtype (snd r)) as -> by (unfold get_tag in Ht; cbn in Ht; now inversion Ht).
    destruct (is_noreply (mtype (snd r)) || negb (c_replay c (decode_row c r))) eqn:E; [apply IH; auto|].
    apply orb_false_iff in E. destruct E as [E _].
    allev_step; [allev_tac|]. allev_step; [allev_tac|].
    apply allev_bind_lift. intros m3 Hm3.
    allev_step; [|apply IH; auto].
    apply send_msg_allev. intros tags. apply H3.
    apply del_tags_mtype in Hm3. rewrite Hm3. exact E.
  Qed.
  Hint Resolve replay_loop_allev : allev.

  Lemma process_resend_allev m :
    (forall tags, P (Wire (mkMsg MT_SEQUENCERESET tags))) ->
    (forall t tags, is_noreply t = false -> P (Wire (mkMsg t tags))) ->
    allev P (process_resend c m).
  Proof. intros H2 H3. unfold process_resend. allev_tac. Qed.

  Lemma restore_handling_allev : allev P restore_handling.
  Proof. unfold restore_handling. allev_tac. Qed.

  Lemma finalize_allev m now : allev P (finalize m now).
  Proof. unfold finalize, finalize_tail. allev_tac. Qed.

  Hint Resolve process_logon_allev process_seqreset_allev logout_counted_allev check_gaps_allev
    process_resend_allev restore_handling_allev process_testrequest_allev process_heartbeat_allev : allev.

  Lemma pre_handlers_allev m w0 :
    (forall tags, P (Wire (mkMsg MT_LOGON tags))) -> (forall b, P (OnLogon b)) ->
    (mkind m = KLogout -> P OnLogout /\ P OnDisconnect) -> allev P (pre_handlers c m w0).
  Proof.
    intros H1 H2 H3. unfold pre_handlers. allev_step; [allev_tac|].
    destruct (mkind m); try destruct (H3 eq_refl); allev_tac.
  Qed.

  Lemma gap_check_allev m : (forall tags, P (Wire (mkMsg MT_RESENDREQUEST tags))) -> allev P (gap_check c m).
  Proof. intros H. unfold gap_check. allev_tac. Qed.

  (* everything the dispatcher can emit, except the delivery *)
  Lemma dispatch_allev m v :
    (forall t tags, t <> MT_RESENDREQUEST -> P (Wire (mkMsg t tags))) -> P OnDisconnect -> P (App m) ->
    allev P (dispatch c m v).
  Proof.
    intros H1 H2 H3.
    assert (Hn : forall t tags, is_noreply t = false -> P (Wire (mkMsg t tags))).
    { intros t tags Ht. apply H1. intros ->. discriminate. }
    assert (Hw : forall t, t <> MT_RESENDREQUEST -> forall tags, P (Wire (mkMsg t tags))) by auto.
    pose proof (Hw MT_SEQUENCERESET ltac:(discriminate)). pose proof (Hw MT_HEARTBEAT ltac:(discriminate)).
    pose proof (Hw MT_LOGOUT ltac:(discriminate)).
    unfold dispatch. allev_tac.
  Qed.
End Events.
Lemma state_set_nf s w :
  state_set s w = mkR (inl tt) (if s =? ST_ACTIVE then set_wasact true (set_st s w) else set_st s w) [State s].
Proof. reflexivity. Qed.

Lemma state_set_st s w : st (rw (state_set s w)) = s.
Proof. rewrite state_set_nf. cbn [rw]. destruct (s =? ST_ACTIVE); reflexivity. Qed.
Definition passes {A} (r : res A) : bool := match rv r with inl _ => true | inr _ => false end.

(* send_gate lets the message through. The condition written out is gate_refuses, which Props/C11 speaks of and
   which therefore stands in SessionC11L (gate_open_spec there); likewise treq_open below and SessionC04L.treq_refuses *)
Definition gate_open (m : msg) (w : world) : bool := passes (send_gate m w w).

(* a first Logon / Logout on a fresh connection makes it the initiator *)
Definition gate_world (w : world) : world :=
  if st w =? ST_NCE then set_role ROLE_INITIATOR (set_st ST_LOGON_SENT w) else w.
Definition gate_events (w : world) : list event := if st w =? ST_NCE then [State ST_LOGON_SENT] else [].

Lemma send_gate_nf m w :
  send_gate m w w = if gate_open m w then mkR (inl tt) (gate_world w) (gate_events w) else mkR (inr XConn) w [].
Proof.
  unfold gate_open, passes, gate_world, gate_events, send_gate.
  destruct (st w <? ST_NCE); [reflexivity|]. destruct (st w =? ST_NCE).
  - destruct (mkind m); reflexivity.
  - destruct (_ && _ && _); [reflexivity|]. destruct (_ && _ && _); reflexivity.
Qed.

Lemma gate_open_first m w : gate_open m w = true -> st w = ST_NCE -> mkind m = KLogon \/ mkind m = KLogout.
Proof.
  unfold gate_open, passes, send_gate. intros H Hs. rewrite Hs in H. cbn in H.
  destruct (mkind m); auto; discriminate.
Qed.

(* the head of send_tail: the TestRequest gate (R13c in Fix/Session.v) *)
Definition treq_gate (m : msg) (w0 : world) : M unit :=
  match mkind m, treq w0 with
  | KTestReq, None => raise XConn
  | KTestReq, Some t =>
      match get T112 (mtags m) with
      | Some v => if str_eqb v (z_to_dec t) then ret tt else raise XConn
      | None => raise XConn
      end
  | _, _ => ret tt
  end.

Lemma send_tail_unfold c m w0 : send_tail c m w0 = (treq_gate m w0 ;;; send_write c m).
Proof. reflexivity. Qed.

Definition treq_open (m : msg) (w : world) : bool := passes (treq_gate m w w).

Lemma treq_gate_nf m w0 w :
  treq_gate m w0 w = if treq_open m w0 then mkR (inl tt) w [] else mkR (inr XConn) w [].
Proof.
  unfold treq_open, passes, treq_gate. destruct (mkind m), (treq w0); try reflexivity.
  destruct (get T112 (mtags m)) as [v|]; [destruct (str_eqb v _)|]; reflexivity.
Qed.

Lemma treq_open_other m w : mkind m <> KTestReq -> treq_open m w = true.
Proof. intros H. unfold treq_open, passes, treq_gate. destruct (mkind m); try reflexivity. now elim H. Qed.

Lemma send_msg_nf c m w :
  send_msg c m w =
  if gate_open m w && treq_open m w
  then mkR (rv (send_write c m (gate_world w))) (rw (send_write c m (gate_world w)))
           (gate_events w ++ re (send_write c m (gate_world w)))
  else mkR (inr XConn) w [].
Proof.
  unfold send_msg. rewrite bind_getw, bind_unfold, send_gate_nf.
  destruct (gate_open m w) eqn:G; cbn [rv rw re andb]; [|reflexivity].
  rewrite send_tail_unfold, bind_unfold, treq_gate_nf.
  destruct (treq_open m w) eqn:T; cbn [rv rw re app]; [reflexivity|].
  (* the message is a TestRequest, so the first gate has changed nothing *)
  unfold gate_world, gate_events. destruct (st w =? ST_NCE) eqn:E; [|reflexivity].
  rewrite treq_open_other in T; [discriminate|].
  destruct (gate_open_first m w G) as [H|H]; [lia|rewrite H..]; discriminate.
Qed.

(* R8a, journal first: a journal_write that raises has written nothing (and does not raise FIXConnectionError); one
   that returns has written the frame, journaled under its number unless it is of the never-journaled kinds *)
Lemma journal_write_spec m n wm w :
  match rv (journal_write m n wm w) with
  | inr x => x <> XConn /\ re (journal_write m n wm w) = []
  | inl _ => re (journal_write m n wm w) = [Wire wm]
             /\ (skip_journal m = false -> In (n, wm) (j_out (jr (rw (journal_write m n wm w)))))
  end.
Proof.
  unfold journal_write. rewrite bind_unfold.
  assert (HJ : re ((if skip_journal m then ret tt else persist_out n wm) w) = []
               /\ match rv ((if skip_journal m then ret tt else persist_out n wm) w) with
                  | inr x => x <> XConn
                  | inl _ => skip_journal m = false ->
                             In (n, wm) (j_out (jr (rw ((if skip_journal m then ret tt else persist_out n wm) w))))
                  end).
  { destruct (skip_journal m); [split; [reflexivity|discriminate]|]. split; [apply persist_out_events|].
    unfold persist_out. destruct (negb _); [discriminate|]. destruct (has_key _ _); [discriminate|].
    intros _. cbn. apply in_or_app. right. left. reflexivity. }
  destruct HJ as [HJ1 HJ2]. rewrite HJ1.
  destruct (rv ((if skip_journal m then ret tt else persist_out n wm) w)); cbn [rv rw re app]; [|auto].
  rewrite bind_getw, bind_unfold. destruct (wr _); cbn [ret raise rv rw re app emit]; [auto|].
  split; [discriminate|reflexivity].
Qed.

Lemma send_write_spec c m w :
  match rv (send_write c m w) with
  | inr x => x <> XConn /\ re (send_write c m w) = []
  | inl _ => exists n, re (send_write c m w) = [Wire (mkMsg (mtype m) (wire_tags c n m))]
                       /\ (skip_journal m = false ->
                           In (n, mkMsg (mtype m) (wire_tags c n m)) (j_out (jr (rw (send_write c m w)))))
  end.
Proof.
  rewrite send_write_unfold, bind_unfold.
  destruct (encode_cases c m w) as [[x [E Hx]]|[n [E _]]]; rewrite E; cbn [rv rw re app fst snd]; [auto|].
  pose proof (journal_write_spec m n (mkMsg (mtype m) (wire_tags c n m)) (if raw_seq m then w else set_nout (nout w + 1) w)) as H.
  destruct (rv (journal_write _ _ _ _)); [exists n|]; exact H.
Qed.

Lemma send_write_not_conn c m w : rv (send_write c m w) <> inr XConn.
Proof. pose proof (send_write_spec c m w) as H. destruct (rv (send_write c m w)); [discriminate|]. intros E. inversion E. subst. tauto. Qed.

(* a new message (the codec allocates next_num_out) always consumes that number *)
Lemma encode_new c m w :
  raw_seq m = false ->
  encode c m w = mkR (inl (nout w, mkMsg (mtype m) (wire_tags c (nout w) m))) (set_nout (nout w + 1) w) [].
Proof. intros Hr. unfold encode. rewrite Hr. reflexivity. Qed.

Lemma send_write_new_nout c m w : raw_seq m = false -> nout (rw (send_write c m w)) = nout w + 1.
Proof.
  intros Hr. rewrite send_write_unfold, (bind_eq _ _ _ _ _ _ (encode_new c m w Hr)). cbn [rw fst snd].
  rewrite (journal_write_writes _ _ _ _ nout); [reflexivity|ignores_solve].
Qed.

(* a new message is never one of the unjournaled kinds *)
Lemma raw_false_skip_false m : raw_seq m = false -> skip_journal m = false.
Proof.
  unfold raw_seq, skip_journal. destruct (mkind m); try discriminate;
    destruct (get T43 (mtags m)); intros H; rewrite ?H; reflexivity.
Qed.

Definition sent_world (c : cfg) (m : msg) (w : world) : world :=
  set_jsout (nout w)
    (set_jout (j_out (jr w) ++ [(nout w, mkMsg (mtype m) (wire_tags c (nout w) m))]) (set_nout (nout w + 1) w)).

Lemma persist_out_new n wm w :
  in_i64 n = true -> has_key n (j_out (jr w)) = false ->
  persist_out n wm w = mkR (inl tt) (set_jsout n (set_jout (j_out (jr w) ++ [(n, wm)]) w)) [].
Proof. intros Hi Hk. unfold persist_out. rewrite Hi, Hk. reflexivity. Qed.

Lemma send_write_new c m w :
  raw_seq m = false -> wr w = true -> in_i64 (nout w) = true -> has_key (nout w) (j_out (jr w)) = false ->
  send_write c m w = mkR (inl tt) (sent_world c m w) [Wire (mkMsg (mtype m) (wire_tags c (nout w) m))].
Proof.
  intros Hr Hw Hi Hk. rewrite send_write_unfold, (bind_eq _ _ _ _ _ _ (encode_new c m w Hr)).
  unfold journal_write. rewrite (raw_false_skip_false m Hr). cbn [rv rw re fst snd].
  rewrite (bind_eq _ _ _ _ _ _ (persist_out_new _ _ (set_nout (nout w + 1) w) Hi Hk)), bind_getw.
  cbn [wr set_jsout set_jout set_jr set_nout]. rewrite Hw. reflexivity.
Qed.

(* a PossDupFlag=Y message / a SequenceReset-GapFill is written (or fails to encode) and nothing else happens *)
Lemma send_write_skip_world c m w : skip_journal m = true -> rw (send_write c m w) = w.
Proof.
  intros Hs. rewrite send_write_unfold, bind_unfold.
  assert (Hr : raw_seq m = true) by (destruct (raw_seq m) eqn:E; [reflexivity|]; rewrite (raw_false_skip_false m E) in Hs; discriminate).
  destruct (encode_cases c m w) as [[x [E _]]|[n [E _]]]; rewrite E; cbn [rv rw re fst snd]; [reflexivity|].
  rewrite Hr. unfold journal_write. rewrite Hs, bind_ret, bind_getw, bind_unfold.
  destruct (wr w); reflexivity.
Qed.
(* every refusal with FIXConnectionError leaves the whole world and the trace untouched *)
Lemma send_msg_conn_free c m w :
  rv (send_msg c m w) = inr XConn -> send_msg c m w = mkR (inr XConn) w [].
Proof.
  rewrite send_msg_nf. destruct (_ && _); [|reflexivity]. cbn [rv]. intros H. now apply send_write_not_conn in H.
Qed.

Lemma send_msg_conn_open c m w : rv (send_msg c m w) = inr XConn <-> gate_open m w && treq_open m w = false.
Proof.
  rewrite send_msg_nf. destruct (_ && _); cbn [rv]; split; try reflexivity; [|discriminate].
  intros H. now apply send_write_not_conn in H.
Qed.

(* send_msg changes the state only from NETWORK_CONN_ESTABLISHED (to LOGON_INITIAL_SENT) *)
Lemma send_msg_st c m w :
  st (rw (send_msg c m w)) = st w \/ (st w = ST_NCE /\ st (rw (send_msg c m w)) = ST_LOGON_SENT).
Proof.
  rewrite send_msg_nf. destruct (_ && _); cbn [rw]; [|left; reflexivity].
  rewrite (send_write_writes c m _ st); [|ignores_solve]. unfold gate_world.
  destruct (st w =? ST_NCE) eqn:E; [right; split; [lia|reflexivity]|left; reflexivity].
Qed.

(* the Wire events of send_msg: none, or exactly the encoded message *)
Lemma send_msg_wires c m w :
  wires (re (send_msg c m w)) = [] \/
  exists seq, wires (re (send_msg c m w)) = [mkMsg (mtype m) (wire_tags c seq m)].
Proof.
  rewrite send_msg_nf. destruct (_ && _); cbn [re]; [|left; reflexivity].
  rewrite wires_app. replace (wires (gate_events w)) with (@nil msg) by (unfold gate_events; destruct (_ =? _); reflexivity).
  pose proof (send_write_spec c m (gate_world w)) as H. destruct (rv (send_write c m (gate_world w))).
  - destruct H as [n [H _]]. right. exists n. rewrite H. reflexivity.
  - destruct H as [_ H]. left. rewrite H. reflexivity.
Qed.
Lemma pre_handlers_unfold c m w0 :
  pre_handlers c m w0 =
  (accept_first w0 ;;;
   match mkind m with
   | KLogon => process_logon c m
   | KSeqReset => process_seqreset c m
   | KLogout => logout_counted c m
   | _ => ret tt
   end).
Proof. reflexivity. Qed.

Lemma accept_first_nf w0 w :
  accept_first w0 w =
  if st w0 =? ST_NCE then mkR (inl tt) (set_role ROLE_ACCEPTOR (set_st ST_LOGON_RECV w)) [State ST_LOGON_RECV]
  else mkR (inl tt) w [].
Proof. unfold accept_first. destruct (st w0 =? ST_NCE); reflexivity. Qed.

(* FIXSession.set_next_num_in for a message that is not a SequenceReset: count it exactly when it carries the
   expected number *)
Lemma set_next_num_in_nf m n w :
  mkind m <> KSeqReset -> get_int T34 m = inl n ->
  set_next_num_in m w = if n =? nin w then mkR (inl n) (set_nin (n + 1) w) [] else mkR (inl (-1)) w [].
Proof.
  intros Hk Hn. apply get_int_inv in Hn. destruct Hn as [v [Hg Hp]].
  assert (E : set_next_num_in m w =
              (w0 <- getw ;; if negb (n =? nin w0) then ret (-1) else modw (set_nin (n + 1)) ;;; ret n) w).
  { unfold set_next_num_in. destruct (mkind m); rewrite ?Hg, ?Hp; try reflexivity. now elim Hk. }
  rewrite E, bind_getw. destruct (n =? nin w); reflexivity.
Qed.

(* disconnect(): nothing on a disconnected connection; else the timers are reset, the Logout (if any) is sent, and
   only when that did not raise the writer is dropped and the state set *)
Lemma disconnect_nf c ds lm w :
  disconnect c ds lm w =
  if st w <=? ST_DISC_BROKEN then mkR (inl tt) w []
  else if ds <=? ST_DISC_BROKEN then
    let r := match lm with
             | Some s => send_msg c (mkMsg MT_LOGOUT (match s with [] => [] | _ => [(T58, s)] end))
             | None => ret tt
             end (set_maxres 0 (set_lastt 0 (set_treq None w))) in
    match rv r with
    | inl _ => mkR (inl tt) (set_st ds (set_wr false (rw r))) (re r ++ [State ds; OnDisconnect])
    | inr x => mkR (inr x) (rw r) (re r)
    end
  else mkR (inr XAssertion) w [].
Proof.
  unfold disconnect. rewrite bind_getw. destruct (st w <=? ST_DISC_BROKEN); [reflexivity|].
  destruct (ds <=? ST_DISC_BROKEN) eqn:E; [|reflexivity].
  rewrite bind_ret, bind_modw, bind_unfold. cbv zeta.
  match goal with |- context [match rv ?r with _ => _ end] => destruct (rv r) end; [|reflexivity].
  rewrite bind_modw, (bind_eq _ _ _ _ _ _ (state_set_nf ds _)).
  destruct (ds =? ST_ACTIVE) eqn:E2; [stlia|reflexivity].
Qed.

(* _finalize_message leaves the state alone, except that it closes an awaited resend *)
Lemma finalize_st m now w :
  st (rw (finalize m now w)) = st w
  \/ (st w = ST_AWAITING /\ st (rw (finalize m now w)) = ST_ACTIVE /\ maxres (rw (finalize m now w)) = 0).
Proof.
  unfold finalize. rewrite bind_unfold.
  pose proof (set_next_num_in_writes m _ st ltac:(ignores_solve) w) as Hn.
  destruct (rv (set_next_num_in m w)) as [r|x]; cbn [rw]; [|left; exact Hn].
  destruct (r <=? 0); [left; exact Hn|]. rewrite <- Hn.
  generalize (rw (set_next_num_in m w)). intros w1.
  assert (Hs : pres st (modw (set_lastt now) ;;; persist_in m)).
  { apply pres_bind; [apply pres_modw; reflexivity|intros _; apply persist_in_writes; ignores_solve]. }
  assert (Hm : pres maxres (modw (set_lastt now) ;;; persist_in m)).
  { apply pres_bind; [apply pres_modw; reflexivity|intros _; apply persist_in_writes; ignores_solve]. }
  unfold finalize_tail. rewrite bind_getw, bind_unfold.
  destruct (st w1 =? ST_AWAITING) eqn:Es; [|left; apply Hs].
  destruct (negb (0 <? maxres w1)); [left; reflexivity|].
  destruct (maxres w1 <=? r); [|left; apply Hs].
  right. rewrite bind_modw, state_set_nf. cbn [rv rw]. rewrite Hs, Hm. split; [lia|]. split; reflexivity.
Qed.

Lemma validate_cases c m w :
  match validate_integrity c m w with
  | VExc x => get T8 (mtags m) = None /\ x = XTagNotFound
  | VTrue => get T49 (mtags m) = None \/ get T56 (mtags m) = None
  | VStr code =>
      code <> [] /\
      ((exists b, get T8 (mtags m) = Some b /\ b <> c_begin c)
       \/ (exists s t, get T49 (mtags m) = Some s /\ get T56 (mtags m) = Some t
                       /\ (~ (c_sender c = t /\ c_target c = s)
                           \/ get T34 (mtags m) = None
                           \/ (exists v, get T34 (mtags m) = Some v /\ py_int v = None)
                           \/ exists n, get_int T34 m = inl n /\ n < nin w
                                        /\ mkind m <> KSeqReset /\ st w <> ST_AWAITING)))
  | VOk => exists s t n, get T49 (mtags m) = Some s /\ get T56 (mtags m) = Some t
                         /\ c_sender c = t /\ c_target c = s /\ get_int T34 m = inl n
                         /\ (nin w <= n \/ mkind m = KSeqReset \/ st w = ST_AWAITING)
  end.
Proof.
  unfold validate_integrity, get_int.
  destruct (get T8 (mtags m)) as [b|]; [|auto].
  destruct (str_eqb b (c_begin c)) eqn:Eb; cbn [negb].
  2:{ split; [discriminate|]. left. exists b. split; auto. now apply str_eqb_neq. }
  destruct (get T49 (mtags m)) as [s|]; [|left; reflexivity].
  destruct (get T56 (mtags m)) as [t|]; [|right; reflexivity].
  destruct (str_eqb (c_sender c) t && str_eqb (c_target c) s) eqn:Ec; cbn [negb].
  2:{ split; [discriminate|]. right. exists s, t. repeat split; auto. left. intros [H1 H2].
      apply andb_false_iff in Ec. destruct Ec as [Ec|Ec]; apply str_eqb_neq in Ec; congruence. }
  apply andb_true_iff in Ec. destruct Ec as [E1 E2]. apply str_eqb_eq in E1, E2.
  destruct (get T34 (mtags m)) as [v|].
  2:{ split; [discriminate|]. right. exists s, t. repeat split; auto. }
  destruct (py_int v) as [n|] eqn:Ep.
  2:{ split; [discriminate|]. right. exists s, t. repeat split; auto. right. right. left. exists v. auto. }
  destruct ((n <? nin w) && negb match mkind m with KSeqReset => true | _ => false end && negb (st w =? ST_AWAITING)) eqn:El.
  - split; [discriminate|]. right. exists s, t. repeat split; auto. right. right. right. exists n.
    apply andb_true_iff in El. destruct El as [El E3]. apply andb_true_iff in El. destruct El as [E4 E5].
    repeat split; auto; try lia. destruct (mkind m); cbn in E5; congruence.
  - exists s, t, n. repeat split; auto.
    destruct (mkind m) eqn:Ek; auto; cbn in El; lia.
Qed.

(* the try body emits what its parts emit (SessionC04L.part1_keeps is the same rule for invariants) *)
Lemma part1_allev P c m :
  allev P (disconnect c ST_DISC_BROKEN None) -> (forall w0, allev P (pre_handlers c m w0)) ->
  allev P (gap_check c m) -> allev P (part1 c m).
Proof. intros H1 H2 H3. unfold part1. allev_tac. Qed.
(* a fact about every step holds along every history: with an invariant of the world threaded through, for
   histories of admitted operations *)
Lemma run_Forall_ops c (O : op -> Prop) (I : world -> Prop) (P : srec -> Prop) :
  (forall o w, O o -> I w -> I (rw (step c o w)) /\ P (mkS w o (step c o w))) ->
  forall h w, Forall O h -> I w -> Forall P (run c w h).
Proof.
  intros H. induction h as [|o h IH]; intros w Ho Hw; cbn [run]; constructor; inversion Ho; subst;
    [apply H|apply IH; [|apply H]]; assumption.
Qed.

Lemma run_Forall_inv c (I : world -> Prop) (P : srec -> Prop) :
  (forall o w, I w -> I (rw (step c o w)) /\ P (mkS w o (step c o w))) ->
  forall h w, I w -> Forall P (run c w h).
Proof.
  intros H h w. apply (run_Forall_ops c (fun _ => True) I P); [auto|]. apply Forall_forall. auto.
Qed.

Lemma run_Forall c (P : srec -> Prop) : (forall o w, P (mkS w o (step c o w))) -> forall h w, Forall P (run c w h).
Proof. intros H h w. apply (run_Forall_inv c (fun _ => True) P); auto. Qed.

Lemma trace_cons c w o h :
  trace (run c w (o :: h)) = re (step c o w) ++ trace (run c (rw (step c o w)) h).
Proof. reflexivity. Qed.


Lemma final_cons c w o h : final c w (o :: h) = final c (rw (step c o w)) h.
Proof. reflexivity. Qed.
