(* Proofs about the resend model Fix/Resend.v (C06).
   Each part of the model is walked once: the replay loop in loop_run, the handler after the request
   was read in body_run, the handler and the call site in process_run and serve_run; the theorems of
   Props/C06.v about one request are projections of serve_run. *)
From Coq Require Import ZArith List Bool Lia ZifyBool.
From AF Require Import Base.Sx Py.Str Fix.Resend Lemmas.StrB.
From AFGen Require Import GenEnums.
Import ListNotations.
Open Scope Z_scope.

(* the application message r is retransmitted: not session level, and the application agrees *)
Definition replayable (f : row -> bool) (r : row) : bool := negb (is_sess_type (r_type r)) && f r.

(* a frame as the encoder writes it: the four tags it skips never occur in a body *)
Definition codec_row (r : row) : bool := forallb (fun fd => negb (header_skipped (fst fd))) (r_body r).

(* number n must be gap-filled: no journaled message with that number is retransmitted *)
Definition skipped (J : list row) (f : row -> bool) (n : Z) : Prop :=
  forall r, In r J -> r_seq r = n -> replayable f r = false.

(* the body of the retransmission of r - "otherwise identical body": the journaled body with
   PossDupFlag := Y and then OrigSendingTime := the journaled SendingTime, where := overwrites the
   value of a tag the message already carries (position kept) and appends a new tag at the end.
   For a message that carries neither tag this is  body ++ [43=Y; 122=SendingTime]  (C06_copy_of_plain_row). *)
Definition copy_body (r : row) : list field :=
  upsert T_OrigSendingTime (r_time r) (upsert T_PossDupFlag V_Y (r_body r)).

Definition is_copy_of (r fr : row) : Prop :=
  r_seq fr = r_seq r /\ r_type fr = r_type r /\ r_body fr = copy_body r.

Definition is_gap_fill (fr : row) (a h : Z) : Prop :=
  r_seq fr = a /\ r_type fr = MT_SEQUENCERESET
  /\ r_body fr = [(T_GapFillFlag, V_Y); (T_NewSeqNo, z_to_dec h)].

(* chain J f lim a c W: the frames W cover exactly the numbers [a, c), in order: a retransmission
   (number kept, PossDupFlag=Y, OrigSendingTime = original SendingTime, body otherwise identical)
   for every number whose journaled message is replayable, one GapFill(seq = first, NewSeqNo = next)
   per maximal run of other numbers (a run ends at lim or right before a replayable number). *)
Inductive chain (J : list row) (f : row -> bool) (lim : Z) : Z -> Z -> list row -> Prop :=
| chain_nil : forall a, chain J f lim a a []
| chain_replay : forall a c r fr rest,
    In r J -> r_seq r = a -> replayable f r = true -> is_copy_of r fr ->
    chain J f lim (a + 1) c rest -> chain J f lim a c (fr :: rest)
| chain_gap : forall a h c fr rest,
    a < h -> (forall n, a <= n < h -> skipped J f n) -> (h = lim \/ ~ skipped J f h) ->
    is_gap_fill fr a h -> chain J f lim h c rest -> chain J f lim a c (fr :: rest).

Lemma has_tag_app t a b : has_tag t (a ++ b) = has_tag t a || has_tag t b.
Proof. apply existsb_app. Qed.

Lemma get_tag_app_notin t a b : has_tag t a = false -> get_tag t (a ++ b) = get_tag t b.
Proof.
  unfold has_tag, get_tag. induction a as [|x a IH]; cbn; auto.
  intros H. apply orb_false_iff in H as [H1 H2]. rewrite H1. auto.
Qed.

Lemma upsert_notin t v l : has_tag t l = false -> upsert t v l = l ++ [(t, v)].
Proof.
  unfold has_tag. induction l as [|x l IH]; cbn [existsb upsert app]; [reflexivity|]. intros H.
  apply orb_false_iff in H as [H1 H2]. rewrite H1, IH by exact H2. reflexivity.
Qed.

Lemma get_tag_upsert_same t v l : get_tag t (upsert t v l) = Some v.
Proof.
  unfold get_tag. induction l as [|x l IH]; cbn [upsert].
  - cbn. rewrite str_eqb_refl. reflexivity.
  - destruct (str_eqb (fst x) t) eqn:E; cbn [find fst]; [rewrite str_eqb_refl; reflexivity|]. rewrite E. exact IH.
Qed.

Lemma get_tag_upsert_other t u v l : str_eqb u t = false -> get_tag t (upsert u v l) = get_tag t l.
Proof.
  intros Hne. unfold get_tag. induction l as [|x l IH]; cbn [upsert find fst].
  - rewrite Hne. reflexivity.
  - destruct (str_eqb (fst x) u) eqn:E; cbn [find fst].
    + apply str_eqb_eq in E. rewrite E, Hne. reflexivity.
    + destruct (str_eqb (fst x) t); [reflexivity|exact IH].
Qed.

Lemma forallb_upsert (q : str -> bool) t v l :
  q t = true -> forallb (fun fd => q (fst fd)) l = true -> forallb (fun fd : field => q (fst fd)) (upsert t v l) = true.
Proof.
  intros Hq. induction l as [|x l IH]; cbn [upsert forallb fst].
  - intros _. rewrite Hq. reflexivity.
  - intros H. apply andb_true_iff in H as [H1 H2].
    destruct (str_eqb (fst x) t); cbn [forallb fst].
    + rewrite Hq. exact H2.
    + rewrite H1. exact (IH H2).
Qed.

(* the encoder's filter leaves the copy of an encoder-shaped row as it is *)
Lemma copy_body_codec r : codec_row r = true ->
  filter (fun fd => negb (header_skipped (fst fd))) (copy_body r) = copy_body r.
Proof.
  intros H. apply filter_all, (forallb_Forall _ _ (fun c => iff_refl _)).
  apply (forallb_upsert (fun t => negb (header_skipped t))); [reflexivity|].
  apply (forallb_upsert (fun t => negb (header_skipped t))); [reflexivity|exact H].
Qed.

Definition sending_ok (s : st) : Prop := cstate s = ST_HANDLING \/ cstate s = ST_AWAITING.

Lemma gates_ok m s : sending_ok s -> send_gates m s = Ok s.
Proof.
  unfold send_gates. intros [H|H]; rewrite H; cbn; rewrite ?andb_false_r; destruct (initiator s); reflexivity.
Qed.

(* the state after a reply frame fr was written: the journal and the counters are not touched *)
Definition sent (fr : row) (s : st) : st :=
  mkSt (cstate s) (initiator s) (testreq_id s) (nout s) (sout s) (clock s + 1)
       (rows s) (wire s ++ [fr]) (calls s) (states s).

Definition gap_frame (a h k : Z) : row :=
  mkRow a MT_SEQUENCERESET (time_str k) [(T_GapFillFlag, V_Y); (T_NewSeqNo, z_to_dec h)].

Lemma gap_is_gap a h k : is_gap_fill (gap_frame a h k) a h.
Proof. repeat split. Qed.

Lemma send_gap_fill a h s :
  sending_ok s -> send_msg (gap_fill_msg a h) s = Ok (sent (gap_frame a h (clock s + 1)) s).
Proof. intros Hs. unfold send_msg. rewrite gates_ok by assumption. reflexivity. Qed.

(* the retransmission of r as the encoder writes it *)
Definition copy_frame (r : row) (k : Z) : row :=
  mkRow (r_seq r) (r_type r) (time_str k) (filter (fun fd => negb (header_skipped (fst fd))) (copy_body r)).

Lemma copy_is_copy r k : codec_row r = true -> is_copy_of r (copy_frame r k).
Proof. intros H. repeat split. exact (copy_body_codec r H). Qed.

Lemma app_type_not_testreq_seqreset t : is_sess_type t = false ->
  str_eqb t MT_TESTREQUEST = false /\ str_eqb t MT_SEQUENCERESET = false.
Proof.
  unfold is_sess_type, mem_str, noreply_msgs. cbn [existsb]. intros H.
  repeat (apply orb_false_iff in H as [? H]). auto.
Qed.

(* a retransmission built by mk_replay is written under its own number and not journaled *)
Lemma send_replay r s :
  sending_ok s -> is_sess_type (r_type r) = false ->
  send_msg (mk_replay r) s = Ok (sent (copy_frame r (clock s + 1)) s).
Proof.
  intros Hs Ht. unfold send_msg, mk_replay. rewrite gates_ok by assumption.
  destruct (app_type_not_testreq_seqreset _ Ht) as [Ht1 Ht4]. unfold testreq_refused. cbn [m_type m_seq m_fields].
  rewrite Ht1. cbn [andb]. unfold select_seq, is_resend_reply, tag_is_Y. cbn [m_type m_seq m_fields]. rewrite Ht4.
  rewrite (get_tag_upsert_other T_PossDupFlag T_OrigSendingTime) by reflexivity.
  rewrite get_tag_upsert_same.
  cbv iota beta. change (str_eqb V_Y V_Y) with true. cbv iota beta. cbn [orb]. reflexivity.
Qed.

Lemma chain_le J f lim a c W : chain J f lim a c W -> a <= c.
Proof. induction 1; lia. Qed.

Lemma chain_app J f lim a b c W1 W2 :
  chain J f lim a b W1 -> chain J f lim b c W2 -> chain J f lim a c (W1 ++ W2).
Proof.
  induction 1; intros Hbc; cbn; [exact Hbc| |].
  - eapply chain_replay; eauto.
  - eapply chain_gap; eauto.
Qed.

Lemma chain_seqs J f lim a c W : chain J f lim a c W -> forall fr, In fr W -> a <= r_seq fr < c.
Proof.
  induction 1 as [|a c r fr rest Hin Hseq Hrep Hcp Hch IH|a h c fr rest Hlt Hsk Hmax Hgf Hch IH]; intros x Hx.
  - destruct Hx.
  - pose proof (chain_le _ _ _ _ _ _ Hch). destruct Hx as [<-|Hx].
    + destruct Hcp as (E & _). lia.
    + specialize (IH _ Hx). lia.
  - pose proof (chain_le _ _ _ _ _ _ Hch). destruct Hx as [<-|Hx].
    + destruct Hgf as (E & _). lia.
    + specialize (IH _ Hx). lia.
Qed.

Lemma chain_empty J f lim a W : chain J f lim a a W -> W = [].
Proof. inversion 1 as [|? ? ? ? ? ? ? ? ? Hch|? ? ? ? ? ? ? ? ? Hch]; [reflexivity| |]; apply chain_le in Hch; lia. Qed.

(* the optional gap fill [a, h) in front of a retransmission and at the end of the reply *)
Definition gap_opt (a h : Z) (s : st) : st := if a <? h then sent (gap_frame a h (clock s + 1)) s else s.
Definition gap_w (a h k : Z) : list row := if a <? h then [gap_frame a h k] else [].

Lemma send_gap_opt a h s : sending_ok s ->
  (if a <? h then send_msg (gap_fill_msg a h) s else Ok s) = Ok (gap_opt a h s).
Proof. intros Hs. unfold gap_opt. destruct (a <? h); [apply send_gap_fill; exact Hs|reflexivity]. Qed.

Lemma gap_opt_cstate a h s : cstate (gap_opt a h s) = cstate s.
Proof. unfold gap_opt. destruct (a <? h); reflexivity. Qed.

Lemma gap_w_lb lo a h k : lo <= a -> Forall (fun fr => lo <= r_seq fr) (gap_w a h k).
Proof. intros H. unfold gap_w. destruct (a <? h); repeat constructor. exact H. Qed.

Lemma chain_gap_w J f lim a h c k :
  c = Z.max a h -> (forall n, a <= n < h -> skipped J f n) -> (a < h -> h = lim \/ ~ skipped J f h) ->
  chain J f lim a c (gap_w a h k).
Proof.
  intros -> Hsk Hend. unfold gap_w. destruct (a <? h) eqn:E.
  - replace (Z.max a h) with h by lia.
    apply chain_gap with (h := h); [lia|exact Hsk|apply Hend; lia|apply gap_is_gap|constructor].
  - replace (Z.max a h) with a by lia. constructor.
Qed.

(* s' differs from s only by the frames W written (and by the state, the clock and the hook records):
   the journal and both counters are the same *)
Definition same_but (s s' : st) (W : list row) : Prop :=
  rows s' = rows s /\ nout s' = nout s /\ sout s' = sout s /\ wire s' = wire s ++ W.

Lemma same_but_refl s : same_but s s [].
Proof. unfold same_but. rewrite app_nil_r. auto. Qed.

Lemma same_but_trans s s1 s2 W1 W2 : same_but s s1 W1 -> same_but s1 s2 W2 -> same_but s s2 (W1 ++ W2).
Proof.
  unfold same_but. intros (a1 & a2 & a3 & a4) (b1 & b2 & b3 & b4).
  rewrite b1, b2, b3, b4, a1, a2, a3, a4, app_assoc. auto.
Qed.

Lemma same_but_sent fr s : same_but s (sent fr s) [fr].
Proof. repeat split. Qed.

Lemma same_but_gap a h s : same_but s (gap_opt a h s) (gap_w a h (clock s + 1)).
Proof. unfold gap_opt, gap_w. destruct (a <? h); [apply same_but_sent|apply same_but_refl]. Qed.

(* strictly ascending from p *)
Fixpoint asc (p : Z) (rs : list row) : Prop :=
  match rs with
  | [] => True
  | r :: rest => p <= r_seq r /\ asc (r_seq r + 1) rest
  end.

Lemma asc_lb : forall rs p, asc p rs -> forall r, In r rs -> p <= r_seq r.
Proof.
  induction rs as [|x rs IH]; cbn; intros p Ha r Hin; [tauto|].
  destruct Ha as [H1 H2]. destruct Hin as [<-|Hin]; [lia|]. specialize (IH _ H2 _ Hin). lia.
Qed.

(* invariant of the replay loop.  J = the journal, hi = one past the last requested already-sent number,
   rs = the recovered rows not yet visited, p = max gfb gfe = lower bound of their numbers:
   [gfb, p) are numbers to be gap-filled, rs holds exactly the journaled rows numbered in [p, hi) *)
Definition loop_inv (J : list row) (f : row -> bool) (hi : Z) (rs : list row) (gfb gfe : Z) : Prop :=
  asc (Z.max gfb gfe) rs
  /\ (forall r, In r rs <-> In r J /\ Z.max gfb gfe <= r_seq r < hi)
  /\ (forall n, gfb <= n < Z.max gfb gfe -> skipped J f n).

(* the row the loop visits is the only journaled row numbered from p up to its number *)
Lemma loop_inv_head J f hi r rest gfb gfe : loop_inv J f hi (r :: rest) gfb gfe ->
  In r J /\ Z.max gfb gfe <= r_seq r < hi
  /\ forall n, gfb <= n <= r_seq r -> (n = r_seq r -> replayable f r = false) -> skipped J f n.
Proof.
  intros (Ha & Hin & Hsk). destruct (proj1 (Hin r) (or_introl eq_refl)) as [HJ Hr].
  split; [exact HJ|]. split; [exact Hr|]. intros n Hn Hrep x Hx Hsx.
  destruct (Z.ltb_spec n (Z.max gfb gfe)) as [Hlt|Hge]; [exact (Hsk n ltac:(lia) x Hx Hsx)|].
  assert (Hxr : Z.max gfb gfe <= r_seq x < hi) by lia.
  destruct (proj2 (Hin x) (conj Hx Hxr)) as [<-|Hrest]; [auto|].
  pose proof (asc_lb _ _ (proj2 Ha) _ Hrest). lia.
Qed.

Lemma loop_inv_step J f hi r rest gfb gfe gfb' gfe' : loop_inv J f hi (r :: rest) gfb gfe ->
  Z.max gfb' gfe' = r_seq r + 1 -> (forall n, gfb' <= n <= r_seq r -> skipped J f n) ->
  loop_inv J f hi rest gfb' gfe'.
Proof.
  intros (Ha & Hin & _) Hmax Hsk. unfold loop_inv. rewrite Hmax. destruct Ha as [Hp Ha].
  split; [exact Ha|]. split; [|intros n Hn; apply Hsk; lia].
  intros x. split.
  - intros Hx. pose proof (asc_lb _ _ Ha _ Hx). destruct (proj1 (Hin x) (or_intror Hx)). split; [assumption|lia].
  - intros [Hx Hr]. assert (Hxr : Z.max gfb gfe <= r_seq x < hi) by lia.
    destruct (proj2 (Hin x) (conj Hx Hxr)) as [<-|Hrest]; [lia|exact Hrest].
Qed.

(* What a run of the loop from s has done: it did not fail and touched nothing but the wire; a lower
   bound lo of gfb and of the numbers of the rows is a lower bound of the final gfb and of the numbers
   of the frames; over the rows of an encoder-shaped journal (loop_inv) the frames are the chain from
   gfb to the final gfb, and nothing replayable is left below hi. *)
Definition loop_post (f : row -> bool) (lo : Z) (rs : list row) (gfb gfe : Z) (s : st) (res : loop_res) : Prop :=
  exists g1 g2 s' W,
    res = LOk g1 g2 s' /\ cstate s' = cstate s /\ same_but s s' W
    /\ (lo <= gfb -> Forall (fun r => lo <= r_seq r) rs -> lo <= g1 /\ Forall (fun fr => lo <= r_seq fr) W)
    /\ (forall J lim hi, (forall r, In r J -> codec_row r = true) -> loop_inv J f hi rs gfb gfe ->
          chain J f lim gfb g1 W /\ (forall n, g1 <= n < hi -> skipped J f n)
          /\ gfb <= g1 <= Z.max gfb hi /\ g2 <= Z.max gfe hi).

(* a row that is not retransmitted: its number joins the pending gap *)
Lemma loop_post_skip f lo r rest gfb gfe s s0 res :
  same_but s s0 [] -> cstate s0 = cstate s -> replayable f r = false ->
  loop_post f lo rest gfb (r_seq r + 1) s0 res -> loop_post f lo (r :: rest) gfb gfe s res.
Proof.
  intros Hsb0 Hc0 Hr (g1 & g2 & s' & W & E & Hc & Hsb & Hlb & Hch).
  exists g1, g2, s', W. split; [exact E|]. split; [congruence|].
  split; [exact (same_but_trans _ _ _ _ _ Hsb0 Hsb)|].
  split; [intros Hlo Hrs; apply Hlb; [exact Hlo|exact (Forall_inv_tail Hrs)]|].
  intros J lim hi Hcr Hinv. destruct (loop_inv_head _ _ _ _ _ _ _ Hinv) as (_ & Hr' & Hsk).
  destruct (Hch J lim hi Hcr) as (H1 & H2 & H3 & H4).
  - apply (loop_inv_step _ _ _ _ _ _ _ _ _ Hinv); [lia|]. intros n Hn. apply Hsk; auto.
  - split; [exact H1|]. split; [exact H2|]. lia.
Qed.

Lemma loop_run f lo : forall rs gfb gfe s, sending_ok s -> loop_post f lo rs gfb gfe s (replay_loop f rs gfb gfe s).
Proof.
  induction rs as [|r rest IH]; intros gfb gfe s Hs.
  - exists gfb, gfe, s, []. split; [reflexivity|]. split; [reflexivity|]. split; [apply same_but_refl|].
    split; [auto|]. intros J lim hi _ (_ & Hin & Hsk). split; [constructor|]. split; [|lia].
    intros n Hn x Hx Hsx. destruct (Z.ltb_spec n (Z.max gfb gfe)) as [Hlt|Hge]; [exact (Hsk n ltac:(lia) x Hx Hsx)|].
    assert (Hxr : Z.max gfb gfe <= r_seq x < hi) by lia. destruct (proj2 (Hin x) (conj Hx Hxr)).
  - cbn [replay_loop]. destruct (is_sess_type (r_type r)) eqn:Hst.
    { apply (loop_post_skip f lo r rest gfb gfe s s _ (same_but_refl s) eq_refl); [|exact (IH _ _ s Hs)].
      unfold replayable. rewrite Hst. reflexivity. }
    set (s0 := note_call (r_seq r) s).
    destruct (f r) eqn:Hf; cbn [negb].
    2:{ apply (loop_post_skip f lo r rest gfb gfe s s0 _ (same_but_refl s) eq_refl); [|exact (IH _ _ s0 Hs)].
        unfold replayable. rewrite Hf. apply andb_false_r. }
    cbv zeta. set (g := if gfb <? r_seq r then r_seq r else gfe).
    rewrite (send_gap_opt gfb g s0 Hs). set (s1 := gap_opt gfb g s0).
    assert (Hs1 : sending_ok s1) by (unfold sending_ok, s1; rewrite gap_opt_cstate; exact Hs).
    rewrite (send_replay r s1 Hs1 Hst). set (cp := copy_frame r (clock s1 + 1)).
    destruct (IH (r_seq r + 1) g (sent cp s1) Hs1) as (g1 & g2 & s' & W & E & Hc & Hsb & Hlb & Hch).
    exists g1, g2, s', (gap_w gfb g (clock s0 + 1) ++ cp :: W).
    split; [exact E|]. split; [exact (eq_trans Hc (gap_opt_cstate gfb g s0))|].
    split; [exact (same_but_trans _ _ _ _ _ (same_but_gap gfb g s0)
                     (same_but_trans _ _ _ [cp] W (same_but_sent cp s1) Hsb))|].
    split.
    + intros Hlo Hrs. pose proof (Forall_inv Hrs) as Hr. cbv beta in Hr.
      destruct (Hlb ltac:(lia) (Forall_inv_tail Hrs)) as [Hg1 HW].
      split; [exact Hg1|]. apply Forall_app. split; [apply gap_w_lb; exact Hlo|]. constructor; [exact Hr|exact HW].
    + intros J lim hi Hcr Hinv. destruct (loop_inv_head _ _ _ _ _ _ _ Hinv) as (HJ & Hr & Hsk).
      assert (Hrep : replayable f r = true) by (unfold replayable; rewrite Hst, Hf; reflexivity).
      (* under loop_inv the gap in front of r runs up to r's number *)
      assert (Eg : gap_w gfb g (clock s0 + 1) = gap_w gfb (r_seq r) (clock s0 + 1)).
      { unfold gap_w, g. destruct (gfb <? r_seq r) eqn:E1; cbv iota; rewrite ?E1; [reflexivity|].
        replace (gfb <? gfe) with false by lia. reflexivity. }
      destruct (Hch J lim hi Hcr) as (H1 & H2 & H3 & H4).
      * apply (loop_inv_step _ _ _ _ _ _ _ _ _ Hinv); [unfold g; destruct (gfb <? r_seq r); lia|]. intros n Hn. lia.
      * split; [|split; [exact H2|unfold g in H4; destruct (gfb <? r_seq r); lia]].
        rewrite Eg. apply chain_app with (b := r_seq r).
        -- apply chain_gap_w; [lia|intros n Hn; apply Hsk; lia|].
           intros _. right. intros Hskip. specialize (Hskip r HJ eq_refl). congruence.
        -- apply chain_replay with (r := r); auto. apply copy_is_copy, Hcr, HJ.
Qed.

Lemma in_insert_by_seq r x l : In x (insert_by_seq r l) <-> x = r \/ In x l.
Proof.
  induction l as [|y l IH]; cbn; [intuition|].
  destruct (r_seq r <=? r_seq y); cbn; rewrite ?IH; intuition.
Qed.

Lemma in_sort x l : In x (sort_by_seq l) <-> In x l.
Proof.
  induction l as [|y l IH]; cbn; [tauto|]. rewrite in_insert_by_seq, IH. intuition.
Qed.

Lemma in_recover x lo hi l : In x (recover lo hi l) <-> In x l /\ lo <= r_seq x <= hi.
Proof.
  unfold recover. rewrite in_sort, filter_In. intuition; lia.
Qed.

Lemma insert_asc y : forall l p, asc p l -> p <= r_seq y -> (forall x, In x l -> r_seq x <> r_seq y) ->
  asc p (insert_by_seq y l).
Proof.
  induction l as [|x l IH]; intros p Ha Hp Hne; cbn; [auto|].
  destruct Ha as [Hx Ha]. pose proof (Hne x (or_introl eq_refl)) as Hxy.
  destruct (r_seq y <=? r_seq x) eqn:E; cbn.
  - repeat split; try lia. exact Ha.
  - split; [exact Hx|]. apply IH; [exact Ha|lia|]. intros z Hz. apply Hne. right; exact Hz.
Qed.

Lemma recover_asc b e : forall J, NoDup (map r_seq J) -> asc b (recover b e J).
Proof.
  unfold recover. induction J as [|y J IH]; intros Hnd; [exact I|].
  inversion Hnd as [|? ? Hnotin Hnd']; subst. cbn [filter].
  destruct ((b <=? r_seq y) && (r_seq y <=? e)) eqn:E; [|exact (IH Hnd')].
  apply insert_asc; [exact (IH Hnd')|lia|].
  intros x Hx Heq. apply in_sort, filter_In in Hx. apply Hnotin. rewrite <- Heq. apply in_map, Hx.
Qed.

(* the numbers [lo, hi) a ResendRequest asks for, None for a request that must not be answered
   (unreadable, EndSeqNo below BeginSeqNo) *)
Definition requested_range (s : st) (bs es : option str) : option (Z * Z) :=
  match bs, es with
  | Some bs, Some es =>
      match py_int bs, py_int es with
      | Some b0, Some e0 =>
          let b := clamp1 b0 in          (* BeginSeqNo below 1 means "from the first message" *)
          if (1 <=? b) && ((e0 =? 0) || (b <=? e0))
          then Some (b, Z.max b (if e0 =? 0 then nout s else Z.min (e0 + 1) (nout s)))
          else None
      | _, _ => None
      end
  | _, _ => None
  end.

Definition journal_ok (s : st) : Prop :=
  Forall (fun r => r_seq r < nout s /\ codec_row r = true) (rows s)   (* rows as send_msg writes them, numbered below the counter *)
  /\ nout s <= INT64_MAX.

Definition allowed_exc (x : option exc) : Prop :=
  match x with
  | Some EDuplicateSeqNo | Some EConnection | Some EEncoding | Some EDuplicatedTag => False
  | _ => True
  end.

(* W answers the request: the chain over the requested range, nothing when there is none *)
Definition reply_ok (f : row -> bool) (s : st) (bs es : option str) (W : list row) : Prop :=
  match requested_range s bs es with
  | Some (lo, hi) => chain (rows s) f hi lo hi W
  | None => W = []
  end.

(* C06 for one request in one state, as the dispatcher serves it: the frames written form the chain
   over the requested range of already-sent numbers (nothing is written for a request that must not
   be answered or that asks for nothing that was sent); the whole outbound journal - inside and
   outside the range -, the next outbound number (live and stored) and the connection state are what
   they were. *)
Definition resend_correct (f : row -> bool) (s : st) (bs es : option str) : Prop :=
  let s' := fst (serve_resend f bs es s) in
  exists W, wire s' = wire s ++ W
    /\ match requested_range s bs es with
       | Some (lo, hi) => chain (rows s) f hi lo hi W
       | None => W = []
       end
    /\ rows s' = rows s /\ nout s' = nout s /\ sout s' = sout s /\ cstate s' = cstate s.

(* the request as the handler reads it: (max(1, int(tag 7)), int(tag 16)); None when unreadable *)
Definition parse_req (bs es : option str) : option (Z * Z) :=
  match bs, es with
  | Some bs, Some es =>
      match py_int bs, py_int es with
      | Some b0, Some e0 => Some (clamp1 b0, e0)
      | _, _ => None
      end
  | _, _ => None
  end.

(* the state in which the handler reads the request *)
Definition enter (s : st) : st := if cstate s =? ST_AWAITING then s else state_set ST_HANDLING s.

Lemma enter_spec s :
  sending_ok (enter s) /\ same_but s (enter s) []
  /\ cstate (enter s) = (if cstate s =? ST_AWAITING then ST_AWAITING else ST_HANDLING).
Proof.
  unfold enter, sending_ok. destruct (cstate s =? ST_AWAITING) eqn:E.
  - split; [right; lia|]. split; [apply same_but_refl|lia].
  - split; [left; reflexivity|]. split; [exact (same_but_refl s)|reflexivity].
Qed.

Lemma clamp1_lb b : 1 <= clamp1 b.
Proof. unfold clamp1. destruct (b <? 1) eqn:E; lia. Qed.

Lemma clamp1_low b : b < 1 -> clamp1 b = 1.
Proof. intros H. unfold clamp1. destruct (b <? 1) eqn:E; [reflexivity|lia]. Qed.

(* the handler and the requested range, in terms of the request as read *)
Lemma parse_cases f s bs es :
  match parse_req bs es with
  | Some (b, e0) =>
      1 <= b /\ process_resend f bs es s = resend_body f b e0 (enter s)
      /\ requested_range s bs es
         = (if (1 <=? b) && ((e0 =? 0) || (b <=? e0))
            then Some (b, Z.max b (if e0 =? 0 then nout s else Z.min (e0 + 1) (nout s))) else None)
  | None =>
      requested_range s bs es = None
      /\ exists x, process_resend f bs es s = (enter s, Some x) /\ allowed_exc (Some x)
  end.
Proof.
  unfold parse_req, process_resend, requested_range. fold (enter s).
  destruct bs as [bs|]; [destruct (py_int bs) as [b0|]|]; (destruct es as [es|]; [destruct (py_int es) as [e0|]|]);
    try (split; [reflexivity|eexists; split; [reflexivity|exact I]]).
  split; [apply clamp1_lb|split; reflexivity].
Qed.

(* EndSeqNo as the range query gets it, and one past the last number the handler serves *)
Definition eff_end (e0 : Z) : Z := if (e0 =? 0) || (sys_maxsize <? e0) then sys_maxsize else e0.
Definition eff_hi (c b e0 : Z) : Z := Z.max b (Z.min c (eff_end e0 + 1)).

Lemma int64_order : INT64_MIN < 0 < INT64_MAX.
Proof. split; reflexivity. Qed.

Lemma eff_end_cases e0 :
  (e0 = 0 \/ INT64_MAX < e0) /\ eff_end e0 = INT64_MAX \/ e0 <> 0 /\ e0 <= INT64_MAX /\ eff_end e0 = e0.
Proof.
  unfold eff_end. change sys_maxsize with INT64_MAX.
  destruct (e0 =? 0) eqn:E0; destruct (INT64_MAX <? e0) eqn:E1; cbn [orb]; lia.
Qed.

(* a request the range query cannot bind asks for nothing that was sent *)
Lemma overflow_hi c b e0 :
  c <= INT64_MAX -> 1 <= b -> fits_int64 b && fits_int64 (eff_end e0) = false -> eff_hi c b e0 = b.
Proof.
  intros Hc Hb H. pose proof int64_order as Hio. unfold eff_hi, fits_int64 in *.
  destruct (eff_end_cases e0) as [[H0 E]|(H0 & H1 & E)]; rewrite E in *; lia.
Qed.

(* the range the handler serves is the requested range *)
Lemma range_chain J f c b e0 W :
  c <= INT64_MAX -> 1 <= b -> chain J f (eff_hi c b e0) b (eff_hi c b e0) W ->
  match (if (1 <=? b) && ((e0 =? 0) || (b <=? e0))
         then Some (b, Z.max b (if e0 =? 0 then c else Z.min (e0 + 1) c)) else None) with
  | Some (lo, hi) => chain J f hi lo hi W
  | None => W = []
  end.
Proof.
  intros Hc Hb Hch. destruct ((1 <=? b) && ((e0 =? 0) || (b <=? e0))) eqn:Hv.
  - replace (Z.max b (if e0 =? 0 then c else Z.min (e0 + 1) c)) with (eff_hi c b e0); [exact Hch|].
    unfold eff_hi. destruct (eff_end_cases e0) as [[H0 ->]|(H0 & H1 & ->)]; destruct (e0 =? 0) eqn:E0; lia.
  - replace (eff_hi c b e0) with b in Hch; [exact (chain_empty _ _ _ _ _ Hch)|].
    unfold eff_hi. destruct (eff_end_cases e0) as [[H0 ->]|(H0 & H1 & ->)]; lia.
Qed.

(* The handler after the request was read, from any state in which it can send: which exceptions
   can leave it, the state it ends in, the journal and the counters untouched, frames numbered from
   1 on; and over a journal with unique, encoder-shaped rows below the counter the frames are the
   chain over [b, eff_hi) - whether or not the assertion after the loop lets the handler finish. *)
Lemma body_run f b e0 s : sending_ok s -> 1 <= b ->
  let (s', x) := resend_body f b e0 s in
  allowed_exc x
  /\ cstate s' = match x with
                 | None => if cstate s =? ST_AWAITING then ST_AWAITING else ST_ACTIVE
                 | Some _ => cstate s
                 end
  /\ exists W, same_but s s' W /\ Forall (fun fr => 1 <= r_seq fr) W
     /\ (journal_ok s -> NoDup (map r_seq (rows s)) ->
         chain (rows s) f (eff_hi (nout s) b e0) b (eff_hi (nout s) b e0) W).
Proof.
  intros Hs Hb. unfold resend_body. fold (eff_end e0). cbv zeta.
  destruct (fits_int64 b && fits_int64 (eff_end e0)) eqn:Hfit; cbn [negb].
  2:{ split; [exact I|]. split; [reflexivity|]. exists []. split; [apply same_but_refl|]. split; [constructor|].
      intros [_ Hmax] _. rewrite (overflow_hi _ b e0 Hmax Hb Hfit). constructor. }
  destruct (loop_run f 1 (recover b (eff_end e0) (rows s)) b b s Hs) as (g1 & g2 & s2 & W & -> & Hc & Hsb & Hlb & Hch).
  destruct (Hlb Hb) as [Hg1 HW]; [apply Forall_forall; intros r Hr; apply in_recover in Hr; lia|].
  set (last := Z.min (nout s) (eff_end e0 + 1)).
  assert (Hj : journal_ok s -> NoDup (map r_seq (rows s)) ->
               chain (rows s) f (eff_hi (nout s) b e0) b g1 W
               /\ (forall n, g1 <= n < last -> skipped (rows s) f n)
               /\ b <= g1 <= Z.max b last /\ g2 <= Z.max b last).
  { intros [HJ _] Hnd. rewrite Forall_forall in HJ. apply Hch; [intros r Hr; apply HJ, Hr|].
    unfold loop_inv. rewrite Z.max_id. split; [apply recover_asc, Hnd|]. split; [|intros n Hn; lia].
    intros r. rewrite in_recover. unfold last. split; intros [Hr Hrg]; (split; [exact Hr|]); [destruct (HJ _ Hr)|]; lia. }
  destruct (g2 <=? nout s) eqn:Ha; cbn [negb].
  - assert (Hs2 : sending_ok s2) by (unfold sending_ok; rewrite Hc; exact Hs).
    rewrite (send_gap_opt g1 last s2 Hs2). split; [exact I|]. split.
    { rewrite <- Hc, <- (gap_opt_cstate g1 last s2).
      destruct (cstate (gap_opt g1 last s2) =? ST_AWAITING) eqn:E; [lia|reflexivity]. }
    exists (W ++ gap_w g1 last (clock s2 + 1)). split.
    { apply (same_but_trans _ _ _ _ _ Hsb). destruct (cstate (gap_opt g1 last s2) =? ST_AWAITING); exact (same_but_gap g1 last s2). }
    split; [apply Forall_app; split; [exact HW|apply gap_w_lb, Hg1]|].
    intros Hjo Hnd. destruct (Hj Hjo Hnd) as (H1 & H2 & H3 & H4). apply (chain_app _ _ _ _ _ _ _ _ H1).
    apply chain_gap_w; [unfold eff_hi; fold last; lia|exact H2|].
    intros Hlt. left. unfold eff_hi. fold last. lia.
  - split; [exact I|]. split; [exact Hc|]. exists W. split; [exact Hsb|]. split; [exact HW|].
    intros Hjo Hnd. destruct (Hj Hjo Hnd) as (H1 & _ & H3 & H4).
    (* the assertion fails only when BeginSeqNo is beyond the counter: nothing was sent, nothing is asked *)
    assert (Eg : g1 = eff_hi (nout s) b e0) by (unfold eff_hi; fold last; lia).
    rewrite Eg in H1. exact H1.
Qed.

(* the handler as a whole: for EVERY state, journal, request and filter *)
Lemma process_run f bs es s :
  let (s', x) := process_resend f bs es s in
  allowed_exc x
  /\ cstate s' = (if cstate s =? ST_AWAITING then ST_AWAITING
                  else match x with None => ST_ACTIVE | Some _ => ST_HANDLING end)
  /\ exists W, same_but s s' W /\ Forall (fun fr => 1 <= r_seq fr) W
     /\ ((parse_req bs es <> None -> journal_ok s /\ NoDup (map r_seq (rows s))) -> reply_ok f s bs es W).
Proof.
  unfold reply_ok. destruct (enter_spec s) as (Hs & Hsb & Hc). pose proof (parse_cases f s bs es) as Hp.
  destruct (parse_req bs es) as [[b e0]|].
  - destruct Hp as (Hb & -> & ->). pose proof (body_run f b e0 (enter s) Hs Hb) as H.
    destruct (resend_body f b e0 (enter s)) as [s' x]. destruct H as (Hx & Hc' & W & Hsb' & HW & Hch).
    split; [exact Hx|]. split.
    { rewrite Hc', Hc. destruct (cstate s =? ST_AWAITING), x; reflexivity. }
    exists W. split; [exact (same_but_trans _ _ _ _ _ Hsb Hsb')|]. split; [exact HW|].
    intros Hj. destruct Hj as [Hj Hnd]; [discriminate|]. destruct Hsb as (Er & En & _).
    rewrite Er, En in Hch. apply range_chain; [apply Hj|exact Hb|].
    apply Hch; [|exact Hnd]. unfold journal_ok. rewrite Er, En. exact Hj.
  - destruct Hp as (-> & x & -> & Hx). split; [exact Hx|]. split; [exact Hc|].
    exists []. split; [exact Hsb|]. split; [constructor|reflexivity].
Qed.

(* Everything C06 says about one request, for EVERY state, journal, request and filter: serving a
   ResendRequest never changes the outbound journal, next_num_out or the stored counter; the only
   exceptions that can reach the dispatcher are AssertionError, TagNotFoundError, ValueError,
   OverflowError; the state afterwards is ACTIVE (RESENDREQ_AWAITING if it was), with or without an
   exception; every frame written carries a MsgSeqNum of at least 1; and the frames are the chain
   over the requested range if the request is unreadable or the journal has unique, encoder-shaped
   rows below the counter. *)
Lemma serve_run f bs es s :
  let (s', x) := serve_resend f bs es s in
  rows s' = rows s /\ nout s' = nout s /\ sout s' = sout s
  /\ allowed_exc x
  /\ cstate s' = (if cstate s =? ST_AWAITING then ST_AWAITING else ST_ACTIVE)
  /\ exists W, wire s' = wire s ++ W /\ Forall (fun fr => 1 <= r_seq fr) W
     /\ ((parse_req bs es <> None -> journal_ok s /\ NoDup (map r_seq (rows s))) -> reply_ok f s bs es W).
Proof.
  pose proof (process_run f bs es s) as H. unfold serve_resend.
  destruct (process_resend f bs es s) as [s0 x]. destruct H as (Hx & Hc & W & (Hr & Hn & Hso & Hw) & HW).
  assert (Hc' : cstate (if cstate s0 =? ST_HANDLING then state_set ST_ACTIVE s0 else s0)
                = (if cstate s =? ST_AWAITING then ST_AWAITING else ST_ACTIVE)).
  { destruct (cstate s0 =? ST_HANDLING) eqn:E; cbn [cstate state_set]; rewrite Hc in *;
      destruct (cstate s =? ST_AWAITING), x; (reflexivity || discriminate E). }
  destruct (cstate s0 =? ST_HANDLING); (repeat split; [exact Hr|exact Hn|exact Hso|exact Hx|exact Hc'|exists W; exact (conj Hw HW)]).
Qed.

(* in the two states in which a ResendRequest is served the state afterwards is the state before *)
Lemma serve_state_restored f s bs es :
  (cstate s = ST_ACTIVE \/ cstate s = ST_AWAITING) -> cstate (fst (serve_resend f bs es s)) = cstate s.
Proof.
  intros Hst. pose proof (serve_run f bs es s) as H.
  destruct (serve_resend f bs es s) as [s' x]. cbn [fst]. destruct H as (_ & _ & _ & _ & Hc & _).
  rewrite Hc. destruct Hst as [-> | ->]; reflexivity.
Qed.

(* the property for one request: an unreadable request needs no hypothesis on the journal *)
Lemma serve_correct f s bs es :
  (cstate s = ST_ACTIVE \/ cstate s = ST_AWAITING) ->
  (parse_req bs es <> None -> journal_ok s /\ NoDup (map r_seq (rows s))) ->
  resend_correct f s bs es.
Proof.
  intros Hst Hj. pose proof (serve_state_restored f s bs es Hst) as Hc. pose proof (serve_run f bs es s) as H.
  unfold resend_correct. destruct (serve_resend f bs es s) as [s' x]. cbn [fst] in *.
  destruct H as (Hr & Hn & Hso & _ & _ & W & Hw & _ & Hch). exists W. split; [exact Hw|]. split; [exact (Hch Hj)|]. auto.
Qed.

(* answering a request leaves a state in which the hypotheses still hold: any sequence of requests is
   answered correctly *)
Lemma serve_keeps f s bs es :
  (cstate s = ST_ACTIVE \/ cstate s = ST_AWAITING) -> journal_ok s -> NoDup (map r_seq (rows s)) ->
  let s' := fst (serve_resend f bs es s) in
  (cstate s' = ST_ACTIVE \/ cstate s' = ST_AWAITING) /\ journal_ok s' /\ NoDup (map r_seq (rows s')).
Proof.
  intros Hst Hj Hnd. pose proof (serve_state_restored f s bs es Hst) as Hc.
  pose proof (serve_run f bs es s) as H. destruct (serve_resend f bs es s) as [s' x]. cbn [fst] in *.
  destruct H as (Hr & Hn & _). unfold journal_ok. rewrite Hc, Hr, Hn. auto.
Qed.

(* numbers k, k+1, ... in rowid order: nothing missing *)
Fixpoint contig (k : Z) (l : list row) : Prop :=
  match l with
  | [] => True
  | r :: t => r_seq r = k /\ contig (k + 1) t
  end.

(* an original send that does not itself carry PossDupFlag / OrigSendingTime in its body *)
Definition clean (r : row) : bool :=
  negb (has_tag T_PossDupFlag (r_body r)) && negb (has_tag T_OrigSendingTime (r_body r)).

(* a journal of original sends: numbers 1..n contiguous (a suffix below next_num_out may be
   missing), no PossDup tags in a body, rows as the encoder writes them *)
Definition pristine (s : st) : Prop :=
  contig 1 (rows s)
  /\ Forall (fun r => clean r = true /\ codec_row r = true) (rows s)
  /\ Z.of_nat (length (rows s)) < nout s /\ nout s <= INT64_MAX.

Lemma contig_seqs : forall l k, contig k l -> forall r, In r l -> k <= r_seq r < k + Z.of_nat (length l).
Proof.
  induction l as [|x l IH]; intros k H r Hin; [destruct Hin|].
  destruct H as [E H]. cbn [length]. destruct Hin as [<-|Hin]; [lia|]. specialize (IH _ H _ Hin). lia.
Qed.

Lemma contig_has : forall l k, contig k l -> forall n, k <= n < k + Z.of_nat (length l) -> has_key n l = true.
Proof.
  induction l as [|x l IH]; intros k H n Hn; cbn [length] in Hn; [lia|].
  destruct H as [E H]. unfold has_key. cbn [existsb]. destruct (r_seq x =? n) eqn:Ex; [reflexivity|].
  apply (IH _ H). lia.
Qed.

Lemma contig_nodup : forall l k, contig k l -> NoDup (map r_seq l).
Proof.
  induction l as [|x l IH]; intros k H; cbn; [constructor|]. destruct H as [E H].
  constructor; [|exact (IH _ H)]. intros Hin. apply in_map_iff in Hin as (y & Ey & Hy).
  pose proof (contig_seqs _ _ H _ Hy). lia.
Qed.

Lemma existsb_all_false {A} (p : A -> bool) l : (forall x, In x l -> p x = false) -> existsb p l = false.
Proof.
  intros H. apply not_true_is_false. intros Hx. apply existsb_exists in Hx as (x & Hin & Hp).
  rewrite (H _ Hin) in Hp. discriminate.
Qed.

(* pristine journals satisfy the hypotheses *)
Lemma pristine_ok s : pristine s -> journal_ok s /\ NoDup (map r_seq (rows s)).
Proof.
  intros (Hc & Hcl & Hlen & Hmax). rewrite Forall_forall in Hcl. split; [|exact (contig_nodup _ _ Hc)].
  split; [|assumption]. apply Forall_forall. intros r Hr.
  pose proof (contig_seqs _ _ Hc _ Hr). destruct (Hcl _ Hr). split; [lia|assumption].
Qed.

Definition dec (z : Z) : option str := Some (z_to_dec z).

Lemma forallb_filter {A} (p : A -> bool) l : forallb p (filter p l) = true.
Proof. induction l as [|x l IH]; cbn; auto. destruct (p x) eqn:E; cbn; rewrite ?E; auto. Qed.

(* every branch of the gates returns s or set_initiator (state_set ST_LOGON_SENT s) *)
Lemma gates_fields m s :
  let s1 := match send_gates m s with Ok s1 => s1 | Exc _ s1 => s1 end in rows s1 = rows s /\ wire s1 = wire s.
Proof.
  unfold send_gates.
  repeat match goal with |- context [if ?c then _ else _] => destruct c end; split; reflexivity.
Qed.

(* rows written by send_msg are rows as the encoder writes them (the hypothesis codec_row of
   journal_ok / pristine is an invariant), and a frame with PossDupFlag=Y never reaches the journal.
   The other half of journal_ok, r_seq r < nout s, is an invariant only of sends that allocate their
   number: a SequenceReset without GapFillFlag is journaled under its own 34, whatever the counter. *)
Lemma send_msg_frame_codec_row m s s' :
  send_msg m s = Ok s' ->
  rows s' = rows s \/ exists fr, rows s' = rows s ++ [fr] /\ codec_row fr = true.
Proof.
  unfold send_msg. pose proof (gates_fields m s) as [Hg _].
  destruct (send_gates m s) as [s1|]; [|discriminate].
  destruct (testreq_refused m s1); [discriminate|].
  destruct (select_seq m s1) as [[n no]|]; [|discriminate].
  destruct (is_resend_reply m).
  - intros [= <-]. left. exact Hg.
  - unfold persist. cbn [r_seq rows]. destruct (has_key n (rows s1)) eqn:Hk; [discriminate|].
    intros [= <-]. cbn [rows]. rewrite Hg. right. eexists. split; [reflexivity|].
    unfold codec_row. cbn [r_body]. apply forallb_filter.
Qed.

(* send_msg journals before it writes: a send that fails (state gate, TestRequest gate, encoder,
   journal error) leaves nothing on the wire *)
Lemma failed_send_writes_nothing m s e s' : send_msg m s = Exc e s' -> wire s' = wire s.
Proof.
  unfold send_msg. pose proof (gates_fields m s) as [_ Hg].
  destruct (send_gates m s) as [s1|e1 s1]; [|intros [= _ <-]; exact Hg].
  destruct (testreq_refused m s1); [intros [= _ <-]; exact Hg|].
  destruct (select_seq m s1) as [[n no]|]; [|intros [= _ <-]; exact Hg].
  destruct (is_resend_reply m); [discriminate|].
  unfold persist. cbn [r_seq rows]. destruct (has_key n (rows s1)); [|discriminate].
  intros [= _ <-]. exact Hg.
Qed.

(* the journals, filters and requests of the examples of Props/C06.v *)

Definition w_logon : row := mkRow 1 [65%N] (time_str 1) [([57; 56]%N, [48%N]); ([49; 48; 56]%N, [51; 48]%N)].
Definition w_app (n : Z) : row := mkRow n [68%N] (time_str n) [([49; 49]%N, 99%N :: z_to_dec n); ([53; 53]%N, [83; 89; 77]%N)].
Definition w_hb (n : Z) : row := mkRow n [48%N] (time_str n) [].
Definition w_state (st0 nxt : Z) (rs : list row) : st := mkSt st0 false None nxt (nxt - 1) (nxt - 1) rs [] [] [].
Definition w_all (r : row) : bool := true.

(* bounded EndSeqNo: [Logon, D2, D3, D4], next 5, ResendRequest(2, 2) -> D2 only;
   ResendRequest(2, 3) over [Logon, D2, HB3, D4] -> D2, GapFill(3 -> 4) *)
Definition w_bounded := w_state ST_ACTIVE 5 [w_logon; w_app 2; w_app 3; w_app 4].
Definition w_bounded2 := w_state ST_ACTIVE 5 [w_logon; w_app 2; w_hb 3; w_app 4].

(* holes (D21): rows {1, 2, 4, 5}, next 6, ResendRequest(2, 0) -> D2, GapFill(3 -> 4), D4, D5 *)
Definition w_hole := w_state ST_ACTIVE 6 [w_logon; w_app 2; w_app 4; w_app 5].

(* holes, session rows, a declining filter and a bounded EndSeqNo together *)
Definition w_filter9 (r : row) : bool := negb (r_seq r =? 9).
Definition w_gappy := w_state ST_ACTIVE 13 [w_logon; w_app 2; w_app 5; w_hb 6; w_app 9; w_app 10].

(* a second request over an already replayed range is answered like the first *)
Definition w_first := w_state ST_ACTIVE 4 [w_logon; w_app 2; w_app 3].
Definition w_second := fst (serve_resend w_all (dec 2) (dec 0) w_first).

(* requests that ask for nothing that was sent, or cannot be read; BeginSeqNo <= 0; EndSeqNo = 2^63 *)
Definition w_small := w_state ST_ACTIVE 3 [w_logon; w_app 2].
Definition two63 : Z := 9223372036854775808.

(* journaled application messages that themselves carry tag 43 / 122:
   row 2 = [11=c2; 43=N; 55=SYM] is retransmitted as [11=c2; 43=Y; 55=SYM; 122=T2] (43 overwritten in
   place, 122 appended); row 3 = [122=X; 11=c3] as [122=T3; 11=c3; 43=Y] (122 overwritten in place with
   the journaled SendingTime, 43 appended) *)
Definition w_tagged := w_state ST_ACTIVE 4
  [w_logon;
   mkRow 2 [68%N] (time_str 2) [([49; 49]%N, [99; 50]%N); (T_PossDupFlag, V_N); ([53; 53]%N, [83; 89; 77]%N)];
   mkRow 3 [68%N] (time_str 3) [(T_OrigSendingTime, [88%N]); ([49; 49]%N, [99; 51]%N)]].

(* non-vacuity of the theorem's hypotheses: a journal with every kind of row in RESENDREQ_AWAITING *)
Definition w_filter (r : row) : bool := negb (r_seq r =? 6).
Definition w_rich := w_state ST_AWAITING 9 [w_logon; w_app 2; w_hb 3; mkRow 4 MT_SEQUENCERESET (time_str 4) [(T_NewSeqNo, [53%N])]; w_app 5; w_app 6; w_hb 7].

(* application types of which a session-level value is a proper prefix (AE, AB, A1, 0Q, 1A, 2Z, 4B, 5X) *)
Definition w_prefix_types : list str :=
  [[65; 69]; [65; 66]; [65; 49]; [48; 81]; [49; 65]; [50; 90]; [52; 66]; [53; 88]]%N.
Definition w_typed (n : Z) (t : str) : row := mkRow n t (time_str n) [([49; 49]%N, 99%N :: z_to_dec n)].
Definition w_prefixed := w_state ST_ACTIVE 6
  [w_logon; w_typed 2 [65; 69]%N; w_typed 3 [53; 88]%N; w_hb 4; w_typed 5 [49; 65]%N].

(* the hypotheses of C06_reply_chain, decided: for concrete states *)
Fixpoint distinct (l : list Z) : bool :=
  match l with [] => true | x :: t => negb (existsb (Z.eqb x) t) && distinct t end.

Lemma distinct_nodup l : distinct l = true -> NoDup l.
Proof.
  induction l as [|x l IH]; cbn; intros H; constructor; apply andb_true_iff in H as [H1 H2]; [|auto].
  intros Hin. apply negb_true_iff in H1.
  assert (E : existsb (Z.eqb x) l = true) by (apply existsb_exists; exists x; split; [exact Hin|apply Z.eqb_refl]).
  congruence.
Qed.

Definition servable (s : st) : bool :=
  ((cstate s =? ST_ACTIVE) || (cstate s =? ST_AWAITING))
  && forallb (fun r => (r_seq r <? nout s) && codec_row r) (rows s)
  && (nout s <=? INT64_MAX) && distinct (map r_seq (rows s)).

Lemma servable_ok s : servable s = true ->
  (cstate s = ST_ACTIVE \/ cstate s = ST_AWAITING) /\ journal_ok s /\ NoDup (map r_seq (rows s)).
Proof.
  unfold servable. intros H. apply andb_true_iff in H as [H Hd]. apply andb_true_iff in H as [H Hm].
  apply andb_true_iff in H as [Hc Hr].
  split; [lia|]. split; [|apply distinct_nodup, Hd]. split; [|lia].
  apply Forall_forall. intros r Hin. rewrite forallb_forall in Hr. specialize (Hr _ Hin).
  apply andb_true_iff in Hr as [H1 H2]. split; [lia|exact H2].
Qed.

Lemma servable_total f s bs es : servable s = true -> resend_correct f s bs es.
Proof. intros H. destruct (servable_ok s H) as (H1 & H2 & H3). apply serve_correct; auto. Qed.
