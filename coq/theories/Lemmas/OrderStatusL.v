(* Laws of the order status transition function, decided on the regenerated graph of the
   real change_status (AFGen.GenChangeStatus.graph) by computation inside the kernel, and the
   tie between that graph and the hand model AF.Fix.OrderStatus.change_status. *)
From Coq Require Import NArith List Bool.
From AF Require Import Fix.OrderStatus.
From AFGen Require Import GenChangeStatus GenEnums.
Import ListNotations.
Open Scope N_scope.

(* one cell of the graph: status, kind, exec type, reported status, result with and without raising *)
Record cell := mkCell { c_st : N; c_kind : N; c_ex : N; c_ms : N; c_raise : N; c_soft : N }.

Fixpoint zip3 (ms a b : list N) (st kind ex : N) : list cell :=
  match ms, a, b with
  | m :: ms', x :: a', y :: b' => mkCell st kind ex m x y :: zip3 ms' a' b' st kind ex
  | _, _, _ => []
  end.

Definition cells_of_row (r : N * N * N * list N * list N) : list cell :=
  let '(st, kind, ex, a, b) := r in zip3 reported a b st kind ex.

Definition cells : list cell := flat_map cells_of_row graph.

(* the domain really is the one the property names *)
Definition domain_ok : bool :=
  Nat.eqb (length graph) (length statuses * length kinds * length execs)
  && Nat.eqb (length cells) (length graph * length reported)
  && Nat.eqb (length reported) 15 && Nat.eqb (length statuses) 16
  && Nat.eqb (length kinds) 5 && Nat.eqb (length execs) 18
  && forallb (fun s => mem s statuses) all_statuses
  && forallb (fun s => mem s reported) all_statuses.

(* enum values in the code are the ones the model's constants name *)
Definition str1 (c : N) : list N := [c].
Definition enum_ok : bool :=
  forallb (fun p => existsb (fun q => (Nat.eqb (length (snd q)) 1) && N.eqb (hd 0 (snd q)) p) ord_status)
          all_statuses
  && Nat.eqb (length ord_status) 15.

Definition supported (k : N) : bool :=
  mem k [K_EXECUTIONREPORT; K_ORDERCANCELREJECT; K_ORDERCANCELREQUEST; K_ORDERCANCELREPLACEREQUEST].

(* known-finding class D16 (what is left of it after the repair of the cancel-reject table): a cancel reject
   reporting PENDING_NEW moves an acknowledged, unfinished order back to PENDING_NEW (pinned by the test suite) *)
Definition kf_cancel_reject (c : cell) : bool :=
  (c_kind c =? K_ORDERCANCELREJECT) && (c_ms c =? PENDING_NEW)
  && negb (mem (c_st c) [CREATED; PENDING_NEW]) && negb (is_finished (c_st c)).

(* L1  total and closed *)
Definition law_closed (c : cell) : bool :=
  mem (c_raise c) [0; 1; 2] && mem (c_soft c) [0; 1]
  && (c_soft c =? (if c_raise c =? 2 then 0 else c_raise c)).
(* L2  finished statuses are absorbing *)
Definition law_absorbing (c : cell) : bool :=
  if is_finished (c_st c) then negb (c_raise c =? 1) && negb (c_soft c =? 1) else true.
(* L3-L5 speak about reports (ExecutionReport, OrderCancelReject); for the two request kinds the
   "reported status" argument is the status the caller asks permission for (L6). *)
Definition is_report (c : cell) : bool := mem (c_kind c) [K_EXECUTIONREPORT; K_ORDERCANCELREJECT].
(* L3  no report moves an order back to CREATED *)
Definition law_no_created (c : cell) : bool :=
  if is_report c && (c_ms c =? CREATED) then negb (c_raise c =? 1) else true.
(* L4  never from an acknowledged status back to PENDING_NEW *)
Definition law_no_pending_new (c : cell) : bool :=
  if is_report c && (c_ms c =? PENDING_NEW) && negb (mem (c_st c) [CREATED; PENDING_NEW]) then negb (c_raise c =? 1) else true.
(* L5  a just-created order accepts only PENDING_NEW or REJECTED *)
Definition law_created_accepts (c : cell) : bool :=
  if is_report c && (c_st c =? CREATED) && (c_raise c =? 1) then mem (c_ms c) [PENDING_NEW; REJECTED] else true.
(* L6  cancel / replace requests *)
Definition law_requests (c : cell) : bool :=
  if mem (c_kind c) [K_ORDERCANCELREQUEST; K_ORDERCANCELREPLACEREQUEST] then
    c_raise c =? (if mem (c_st c) [NEW; PARTIALLY_FILLED; SUSPENDED] then 1
                  else if mem (c_st c) [PENDING_CANCEL; PENDING_REPLACE] then 0 else 2)
  else true.

Definition all_laws (c : cell) : bool :=
  law_closed c && law_absorbing c && law_no_created c && law_no_pending_new c
  && law_created_accepts c && law_requests c.

Definition model_agrees (c : cell) : bool :=
  (change_status (c_st c) (c_kind c) (c_ex c) (c_ms c) true =? c_raise c)
  && (change_status (c_st c) (c_kind c) (c_ex c) (c_ms c) false =? c_soft c).

(* in the model the non-raising mode is the raising one with ERR turned into IGN *)
Lemma soft_of_raise st kind ex ms :
  change_status st kind ex ms false
  = if change_status st kind ex ms true =? ERR then IGN else change_status st kind ex ms true.
Proof.
  unfold change_status. cbn [negb]. rewrite !andb_true_r, !andb_false_r.
  destruct (kind =? K_EXECUTIONREPORT); [|destruct (kind =? K_ORDERCANCELREJECT); [|destruct (_ || _)]]; reflexivity.
Qed.

(* The one check per cell, evaluated once over `cells` in table_ok: the raising half of model_agrees
   (the code's other half is fixed by L1, the model's by soft_of_raise), then the laws in the order of
   all_laws, L4 in the form that also says where it fails. *)
Definition cell_ok (c : cell) : bool :=
  (change_status (c_st c) (c_kind c) (c_ex c) (c_ms c) true =? c_raise c)
  && law_closed c && law_absorbing c && law_no_created c
  && eqb (law_no_pending_new c) (negb (kf_cancel_reject c)) && law_created_accepts c && law_requests c.

Lemma table_ok :
  domain_ok = true /\ forallb cell_ok cells = true /\ existsb kf_cancel_reject cells = true
  /\ N.eqb (N.of_nat (length (filter (fun c => negb (kf_cancel_reject c)) cells))) 21420 = true.
Proof. vm_compute. repeat split. Qed.

(* L4 holds of a cell exactly when the cell is outside the known class *)
Lemma cell_laws c : In c cells ->
  model_agrees c = true /\ law_closed c = true /\ law_absorbing c = true /\ law_no_created c = true
  /\ law_no_pending_new c = negb (kf_cancel_reject c) /\ law_created_accepts c = true
  /\ law_requests c = true.
Proof.
  intro Hin. destruct table_ok as (_ & H & _). rewrite forallb_forall in H. specialize (H c Hin).
  unfold cell_ok in H. rewrite !andb_true_iff, eqb_true_iff in H.
  destruct H as ((((((Hr & Hc) & H2) & H3) & H4) & H5) & H6). repeat split; try assumption.
  unfold model_agrees. rewrite Hr, soft_of_raise. apply N.eqb_eq in Hr. rewrite Hr.
  unfold law_closed in Hc. rewrite !andb_true_iff in Hc. rewrite N.eqb_sym. apply Hc.
Qed.

Lemma model_matches_graph : forall c, In c cells -> model_agrees c = true.
Proof. intros c H. apply (cell_laws c H). Qed.

(* the class is exactly where a law fails: every cell of the class violates L4 *)
Lemma class_is_exact : forall c, In c cells -> kf_cancel_reject c = true -> law_no_pending_new c = false.
Proof. intros c Hin Hk. destruct (cell_laws c Hin) as (_ & _ & _ & _ & H & _). rewrite H, Hk. reflexivity. Qed.

