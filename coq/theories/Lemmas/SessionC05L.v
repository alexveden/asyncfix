(* C05 - outbound messages are numbered consecutively and journaled under that number.
   At the end: the C04 theorem that a detected gap is requested, which needs the outbound invariant of this file. *)
From Coq Require Import ZArith NArith List Bool Lia ZifyBool.
From AF Require Import Base.Sx Py.Str Fix.Session Lemmas.StrB Lemmas.SessionL Lemmas.SessionC04L Lemmas.SessionC11L.
From Coq Require String.
Import String.StringSyntax.
Import ListNotations.
Open Scope Z_scope.
Definition alive (w : world) : Prop := ST_DISC_BROKEN < st w.

(* stored outbound counter = next number - 1; every journaled outbound number is below the next number;
   a connection that is up has its writer *)
Definition Out_inv (w : world) : Prop :=
  j_sout (jr w) + 1 = nout w
  /\ Forall (fun r => fst r < nout w) (j_out (jr w))
  /\ (alive w -> wr w = true).

Fixpoint number_from (n : Z) (l : list msg) : list (Z * msg) :=
  match l with [] => [] | m :: l' => (n, m) :: number_from (n + 1) l' end.

Lemma number_from_app n a b :
  number_from n (a ++ b) = number_from n a ++ number_from (n + Z.of_nat (length a)) b.
Proof.
  revert n. induction a as [|x a IH]; intros n; cbn [app number_from length].
  - now rewrite Z.add_0_r.
  - rewrite IH. do 3 f_equal. lia.
Qed.

Definition numbered (p : Z * msg) : Prop := get T34 (mtags (snd p)) = Some (z_to_dec (fst p)).

(* the NEW frames among the written ones: everything but the replies to a ResendRequest (PossDupFlag = Y
   retransmissions and SequenceReset-GapFill), which are numbered by themselves and not journaled *)
Definition news (l : list event) : list msg := filter (fun wm => negb (skip_journal wm)) (wires l).

Lemma news_app a b : news (a ++ b) = news a ++ news b.
Proof. unfold news. now rewrite wires_app, filter_app. Qed.

Lemma news_nil l : wires l = [] -> news l = [].
Proof. unfold news. now intros ->. Qed.

(* what one computation did to the outbound side: the new frames it wrote carry next_num_out, +1, ... and are
   exactly the rows appended to the journal, under those numbers; the invariant holds again *)
Record OutStep (w : world) {A} (r : res A) : Prop := mkOS {
  os_inv : Out_inv (rw r);
  os_rows : j_out (jr (rw r)) = j_out (jr w) ++ number_from (nout w) (news (re r));
  os_nout : nout (rw r) = nout w + Z.of_nat (length (news (re r)));
  os_num : Forall numbered (number_from (nout w) (news (re r)))
}.

Definition in_range (w : world) {A} (r : res A) : Prop := I64MIN <= nout w /\ nout (rw r) <= I64MAX + 1.

Definition outok {A} (c : M A) : Prop := forall w, Out_inv w -> in_range w (c w) -> OutStep w (c w).
Definition mono {A} (c : M A) : Prop := forall w, nout w <= nout (rw (c w)).

(* the value a computation returns does not matter *)
Lemma outstep_rv {A B} w (r : res A) (v : B + exn) : OutStep w r -> OutStep w (mkR v (rw r) (re r)).
Proof. intros [A1 A2 A3 A4]. constructor; cbn [rv rw re]; auto. Qed.

(* no new frame: nothing to number, nothing to journal *)
Lemma outstep_quiet w {A} (r : res A) :
  Out_inv (rw r) -> nout (rw r) = nout w -> j_out (jr (rw r)) = j_out (jr w) -> news (re r) = [] -> OutStep w r.
Proof.
  intros H1 H2 H3 H4. constructor; rewrite ?H4; cbn [number_from length Z.of_nat]; rewrite ?app_nil_r, ?Z.add_0_r; auto.
Qed.

Lemma outstep_id w {A} (v : A + exn) : Out_inv w -> OutStep w (mkR v w []).
Proof. intros H. apply outstep_quiet; auto. Qed.

Lemma outstep_compose {A B} w (r1 : res A) (r2 : res B) :
  OutStep w r1 -> OutStep (rw r1) r2 ->
  OutStep w (mkR (rv r2) (rw r2) (re r1 ++ re r2)).
Proof.
  intros [A1 A2 A3 A4] [B1 B2 B3 B4]. constructor; cbn [rv rw re].
  - exact B1.
  - rewrite B2, A2, news_app, number_from_app, <- app_assoc, A3. reflexivity.
  - rewrite B3, A3, news_app, app_length, Nat2Z.inj_add. lia.
  - rewrite news_app, number_from_app. apply Forall_app. split; [exact A4|]. rewrite <- A3. exact B4.
Qed.

(* sequencing: the second part starts where the first one stopped; since neither lowers next_num_out, the range
   assumed for the whole holds for each part *)
Lemma outstep_bind {A B} (c : M A) (k : A -> M B) w :
  (forall a, mono (k a)) -> in_range w (bind c k w) ->
  (in_range w (c w) -> OutStep w (c w)) ->
  (forall a, Out_inv (rw (c w)) -> in_range (rw (c w)) (k a (rw (c w))) -> OutStep (rw (c w)) (k a (rw (c w)))) ->
  OutStep w (bind c k w).
Proof.
  intros Hm [Hlo Hhi] Hc Hk. rewrite bind_unfold in *.
  destruct (rv (c w)) as [a|x] eqn:E; cbn [rw] in Hhi.
  - assert (S1 : OutStep w (c w)).
    { apply Hc. split; [exact Hlo|]. specialize (Hm a (rw (c w))). lia. }
    apply (outstep_compose w (c w) (k a (rw (c w))) S1). apply Hk; [apply S1|].
    split; [|exact Hhi]. rewrite (os_nout _ _ S1). lia.
  - apply outstep_rv, Hc. split; assumption.
Qed.

(* try: c  finally: g *)
Lemma outstep_finally {A} (c : M A) (g : M unit) w :
  mono g -> in_range w (finally_ c g w) ->
  (in_range w (c w) -> OutStep w (c w)) ->
  (Out_inv (rw (c w)) -> in_range (rw (c w)) (g (rw (c w))) -> OutStep (rw (c w)) (g (rw (c w)))) ->
  OutStep w (finally_ c g w).
Proof.
  intros Hm [Hlo Hhi] Hc Hg. unfold finally_ in *.
  assert (Hhi' : nout (rw (g (rw (c w)))) <= I64MAX + 1) by (destruct (rv (g (rw (c w)))); exact Hhi).
  assert (S1 : OutStep w (c w)) by (apply Hc; split; [exact Hlo|specialize (Hm (rw (c w))); lia]).
  assert (S2 : OutStep (rw (c w)) (g (rw (c w)))).
  { apply Hg; [apply S1|]. split; [|exact Hhi']. rewrite (os_nout _ _ S1). lia. }
  pose proof (outstep_compose w _ _ S1 S2) as S. destruct (rv (g (rw (c w)))); exact (outstep_rv w _ _ S).
Qed.

Lemma mono_pres {A} (c : M A) : pres nout c -> mono c.
Proof. intros H w. rewrite (H w). lia. Qed.
Lemma mono_bind {A B} (c : M A) (k : A -> M B) : mono c -> (forall a, mono (k a)) -> mono (bind c k).
Proof.
  intros Hc Hk w. rewrite bind_unfold. destruct (rv (c w)); cbn [rw]; [|apply Hc].
  specialize (Hc w). specialize (Hk a (rw (c w))). lia.
Qed.
Lemma mono_try {A} (c : M A) : mono c -> mono (try_ c).
Proof. intros H w. unfold try_. destruct (rv (c w)); cbn [rw]; apply H. Qed.
Lemma mono_finally {A} (c : M A) (g : M unit) : mono c -> mono g -> mono (finally_ c g).
Proof.
  intros Hc Hg w. unfold finally_. specialize (Hc w). specialize (Hg (rw (c w))).
  destruct (rv (g (rw (c w)))); cbn [rw]; lia.
Qed.
Definition om {A} (c : M A) : Prop := outok c /\ mono c.

Lemma om_bind {A B} (c : M A) (k : A -> M B) : om c -> (forall a, om (k a)) -> om (bind c k).
Proof.
  intros [Hc Hm] Hk. split; [|apply mono_bind; [exact Hm|intros a; apply Hk]].
  intros w Hi Hr. apply outstep_bind; [intros a; apply Hk|exact Hr|apply Hc, Hi|]. intros a. apply Hk.
Qed.

(* a computation that writes nothing and touches neither the counters, the journal, the state nor the writer *)
Lemma om_quiet {A} (c : M A) :
  pres nout c -> pres (fun w => j_sout (jr w)) c -> pres (fun w => j_out (jr w)) c ->
  pres st c -> pres wr c -> allev not_wire c -> om c.
Proof.
  intros H1 H2 H3 H4 H5 H6. split; [|apply mono_pres, H1]. intros w Hi _.
  apply outstep_quiet; [|apply H1|apply H3|apply news_nil, wires_nil, H6].
  unfold Out_inv, alive. rewrite (H1 w), (H2 w), (H3 w), (H4 w), (H5 w). exact Hi.
Qed.

Lemma om_ret {A} (a : A) : om (ret a).
Proof. apply om_quiet; try (intro; reflexivity). intro; constructor. Qed.
Lemma om_raise {A} x : om (@raise A x).
Proof. apply om_quiet; try (intro; reflexivity). intro; constructor. Qed.
Lemma om_getw : om getw.
Proof. apply om_quiet; try (intro; reflexivity). intro; constructor. Qed.
Lemma om_lift {A} (v : A + exn) : om (lift v).
Proof. destruct v; [apply om_ret|apply om_raise]. Qed.
Lemma om_emit e : not_wire e -> om (emit e).
Proof. intros H. apply om_quiet; try (intro; reflexivity). intro; cbn. auto. Qed.
(* modw of fields the invariant does not mention *)
Lemma om_modw g :
  (forall w, nout (g w) = nout w) -> (forall w, jr (g w) = jr w) -> (forall w, st (g w) = st w) ->
  (forall w, wr (g w) = wr w) -> om (modw g).
Proof.
  intros H1 H2 H3 H4. apply om_quiet; try (apply pres_modw; intros w; rewrite ?H2; auto). apply allev_modw.
Qed.
Lemma om_try {A} (c : M A) : om c -> om (try_ c).
Proof.
  intros [H Hm]. split; [|apply mono_try, Hm]. intros w Hi Hr. unfold try_ in *.
  assert (S : OutStep w (c w)) by (apply H; [exact Hi|destruct (rv (c w)); exact Hr]).
  destruct (rv (c w)); exact (outstep_rv w _ _ S).
Qed.
(* binding a pure value: the continuation may use that it was the value *)
Lemma om_bind_lift {A B} (v : A + exn) (k : A -> M B) :
  (forall a, v = inl a -> om (k a)) -> om (bind (lift v) k).
Proof.
  intros H. destruct v as [a|x].
  - destruct (H a eq_refl) as [Ho Hm]. split; intros w; rewrite bind_lift; [apply Ho|apply Hm].
  - split; intros w; rewrite bind_lift; [intros Hi _; apply outstep_id, Hi|cbn [rw]; lia].
Qed.
(* setting a state on a connection without writer would break the invariant; a live connection has its writer, and
   only disconnect() drops it *)
Definition omW {A} (c : M A) : Prop :=
  (forall w, Out_inv w -> wr w = true -> in_range w (c w) -> OutStep w (c w)) /\ mono c /\ pres wr c.

Lemma om_W {A} (c : M A) : om c -> pres wr c -> omW c.
Proof. intros [H Hm] Hw. split; [|split; assumption]. intros w Hi _. apply H, Hi. Qed.

Lemma omW_bind {A B} (c : M A) (k : A -> M B) : omW c -> (forall a, omW (k a)) -> omW (bind c k).
Proof.
  intros [Hc [Hm Hw]] Hk. split; [|split].
  - intros w Hi Hwr Hr. apply outstep_bind; [intros a; apply Hk|exact Hr|apply Hc; assumption|].
    intros a Hi'. apply Hk; [exact Hi'|]. rewrite Hw. exact Hwr.
  - apply mono_bind; [exact Hm|intros a; apply Hk].
  - apply pres_bind; [exact Hw|intros a; apply Hk].
Qed.

(* what follows may drop the writer *)
Lemma omW_bind_om {A B} (c : M A) (k : A -> M B) w :
  omW c -> (forall a, om (k a)) -> Out_inv w -> wr w = true -> in_range w (bind c k w) -> OutStep w (bind c k w).
Proof.
  intros [Hc _] Hk Hi Hwr Hr. apply outstep_bind; [intros a; apply Hk|exact Hr|apply Hc; assumption|].
  intros a. apply Hk.
Qed.

Lemma omW_ret {A} (a : A) : omW (ret a).
Proof. apply om_W; [apply om_ret|apply pres_ret]. Qed.
Lemma omW_raise {A} x : omW (@raise A x).
Proof. apply om_W; [apply om_raise|apply pres_raise]. Qed.
Lemma omW_getw : omW getw.
Proof. apply om_W; [apply om_getw|apply pres_getw]. Qed.
Lemma omW_lift {A} (v : A + exn) : omW (lift v).
Proof. apply om_W; [apply om_lift|apply pres_lift]. Qed.
Lemma omW_emit e : not_wire e -> omW (emit e).
Proof. intros H. apply om_W; [apply om_emit, H|apply pres_emit]. Qed.
Lemma omW_modw g :
  (forall w, nout (g w) = nout w) -> (forall w, jr (g w) = jr w) -> (forall w, st (g w) = st w) ->
  (forall w, wr (g w) = wr w) -> omW (modw g).
Proof. intros H1 H2 H3 H4. apply om_W; [apply om_modw; assumption|apply pres_modw, H4]. Qed.

(* a state may be set when the writer is there, or when the state is a disconnected one *)
Lemma state_set_outstep s w0 w :
  j_sout (jr w) + 1 = nout w -> Forall (fun r => fst r < nout w) (j_out (jr w)) -> (ST_DISC_BROKEN < s -> wr w = true) ->
  nout w = nout w0 -> j_out (jr w) = j_out (jr w0) -> OutStep w0 (state_set s w).
Proof.
  intros I1 I2 I3 Hn Hj. rewrite state_set_nf. apply outstep_quiet; cbn [rw re]; [|destruct (s =? ST_ACTIVE); assumption..|reflexivity].
  unfold Out_inv, alive. destruct (s =? ST_ACTIVE); cbn; auto.
Qed.

Lemma state_set_omW s : omW (state_set s).
Proof.
  split; [|split; [apply mono_pres|]; apply state_set_writes; ignores_solve].
  intros w [I1 [I2 I3]] Hw _. apply state_set_outstep; auto.
Qed.

Create HintDb om discriminated.

(* along the syntax, stopping at what a hypothesis covers; the calls are hypotheses or hints *)
Ltac om_step :=
  match goal with
  | H : om ?c |- om ?c => exact H
  | H : omW ?c |- omW ?c => exact H
  | |- om (bind (lift _) _) => apply om_bind_lift; intros ? ?
  | |- om (bind _ _) => apply om_bind; [|intros ?]
  | |- om (ret _) => apply om_ret
  | |- om (raise _) => apply om_raise
  | |- om getw => apply om_getw
  | |- om (lift _) => apply om_lift
  | |- om (try_ _) => apply om_try
  | |- om (emit _) => apply om_emit; exact I
  | |- om (modw _) => apply om_modw; intros; reflexivity
  | |- omW (bind _ _) => apply omW_bind; [|intros ?]
  | |- omW (ret _) => apply omW_ret
  | |- omW (raise _) => apply omW_raise
  | |- omW getw => apply omW_getw
  | |- omW (lift _) => apply omW_lift
  | |- omW (emit _) => apply omW_emit; exact I
  | |- omW (modw _) => apply omW_modw; intros; reflexivity
  | |- omW (state_set _) => apply state_set_omW
  | |- _ (if ?c then _ else _) => destruct c
  | |- _ (match ?x with _ => _ end) => destruct x
  | |- _ => solve [eauto with om]
  end.
Ltac om_tac := repeat om_step.
Lemma has_key_below n rows : Forall (fun r : Z * msg => fst r < n) rows -> has_key n rows = false.
Proof.
  unfold has_key. induction 1 as [|r rows Hr _ IH]; cbn [existsb]; [reflexivity|]. rewrite IH. destruct (fst r =? n) eqn:E; [lia|reflexivity].
Qed.

Lemma get_filter_keep (t : str) (p : tagv -> bool) l :
  (forall k v, str_eqb k t = true -> p (k, v) = true) -> get t (filter p l) = get t l.
Proof.
  intros Hk. induction l as [|[k v] l IH]; [reflexivity|]. cbn [filter get].
  destruct (str_eqb k t) eqn:E.
  - rewrite (Hk k v E). cbn [get]. now rewrite E.
  - destruct (p (k, v)); cbn [get]; rewrite ?E; exact IH.
Qed.

(* the frame on the wire carries the body tags of the message *)
Lemma get_wire_tags c n m t : is_hdr_skip t = false -> get t (wire_tags c n m) = get t (mtags m).
Proof.
  intros H. unfold is_hdr_skip in H. repeat (apply orb_false_iff in H; destruct H as [H ?]).
  unfold wire_tags. cbn [app get]. rewrite !(str_eqb_sym _ t), H, H0, H1, H2.
  apply get_filter_keep. intros k v E. apply str_eqb_eq in E. subst k. cbn [fst]. unfold is_hdr_skip.
  now rewrite H, H0, H1, H2.
Qed.

(* ... hence the PossDupFlag / GapFillFlag / type of the message: same journaling decision *)
Lemma skip_journal_wire c n m : skip_journal (mkMsg (mtype m) (wire_tags c n m)) = skip_journal m.
Proof.
  unfold skip_journal, mkind. cbn [mtype mtags]. rewrite !get_wire_tags by reflexivity. reflexivity.
Qed.

Lemma news_one_new c n m : raw_seq m = false -> news [Wire (mkMsg (mtype m) (wire_tags c n m))] = [mkMsg (mtype m) (wire_tags c n m)].
Proof. intros Hr. unfold news. cbn [wires filter]. rewrite skip_journal_wire, (raw_false_skip_false m Hr). reflexivity. Qed.

Lemma gate_world_inv w : Out_inv w -> Out_inv (gate_world w).
Proof.
  unfold gate_world. destruct (st w =? ST_NCE) eqn:E; [|auto]. intros [I1 [I2 I3]]. repeat split; auto.
  intros _. apply I3. unfold alive. stlia.
Qed.

(* a new message that passes the gates: written with number next_num_out, which is consumed, and journaled under it *)
Lemma sent_world_outstep c m w :
  raw_seq m = false -> Out_inv w -> wr w = true ->
  OutStep w (mkR (inl tt) (sent_world c m (gate_world w))
                 (gate_events w ++ [Wire (mkMsg (mtype m) (wire_tags c (nout w) m))])).
Proof.
  intros Hr Hi Hw. destruct (gate_world_inv w Hi) as [I1 [I2 I3]].
  assert (Hn : nout (gate_world w) = nout w) by (unfold gate_world; destruct (_ =? _); reflexivity).
  assert (Hj : jr (gate_world w) = jr w) by (unfold gate_world; destruct (_ =? _); reflexivity).
  assert (Hq : wr (gate_world w) = wr w) by (unfold gate_world; destruct (_ =? _); reflexivity).
  assert (He : news (gate_events w) = []) by (unfold gate_events; destruct (_ =? _); reflexivity).
  rewrite Hn, Hj in *.
  constructor; cbn [rv rw re]; rewrite ?news_app, ?He, ?(news_one_new c _ m Hr); unfold sent_world; rewrite ?Hn, ?Hj.
  - repeat split; cbn; [|intros _; congruence].
    apply Forall_app. split; [eapply Forall_impl; [|exact I2]; cbn; intros; lia|]. constructor; [cbn; lia|constructor].
  - reflexivity.
  - cbn. lia.
  - constructor; [reflexivity|constructor].
Qed.

Lemma send_msg_new_nf c m w :
  raw_seq m = false -> Out_inv w -> in_i64 (nout w) = true ->
  send_msg c m w =
  if gate_refuses m w || treq_refuses m w then mkR (inr XConn) w []
  else mkR (inl tt) (sent_world c m (gate_world w)) (gate_events w ++ [Wire (mkMsg (mtype m) (wire_tags c (nout w) m))]).
Proof.
  intros Hr [I1 [I2 I3]] Hrange. rewrite send_msg_spec. destruct (gate_refuses m w) eqn:G; [reflexivity|].
  destruct (treq_refuses m w); [reflexivity|]. cbn [orb].
  assert (Hw : wr w = true) by (apply I3; apply gate_passed_alive in G; unfold alive; stlia).
  assert (Hn : nout (gate_world w) = nout w) by (unfold gate_world; destruct (_ =? _); reflexivity).
  rewrite send_write_new, Hn; [reflexivity|exact Hr|unfold gate_world; destruct (_ =? _); exact Hw|rewrite Hn; exact Hrange|].
  rewrite Hn. unfold gate_world. destruct (_ =? _); apply has_key_below, I2.
Qed.

Lemma send_msg_new_om c m : raw_seq m = false -> om (send_msg c m).
Proof.
  intros Hr. split.
  - intros w Hi [Hlo Hhi].
    destruct (gate_refuses m w || treq_refuses m w) eqn:G; [rewrite send_msg_spec, G; apply outstep_id, Hi|].
    assert (Hn : nout (gate_world w) = nout w) by (unfold gate_world; destruct (_ =? _); reflexivity).
    rewrite send_msg_spec, G in Hhi. cbn [rw] in Hhi. rewrite (send_write_new_nout c m _ Hr), Hn in Hhi.
    rewrite (send_msg_new_nf c m w Hr Hi), G by (unfold in_i64; lia).
    apply orb_false_iff in G. destruct G as [G _]. apply gate_passed_alive in G.
    apply sent_world_outstep; [exact Hr|exact Hi|]. apply Hi. unfold alive. stlia.
  - intros w. rewrite send_msg_spec. destruct (_ || _); cbn [rw]; [lia|].
    rewrite (send_write_new_nout c m _ Hr). unfold gate_world. destruct (_ =? _); cbn; lia.
Qed.

Lemma lookup_app_new k rows m : has_key k rows = false -> lookup k (rows ++ [(k, m)]) = Some m.
Proof.
  unfold has_key. induction rows as [|[n x] rows IH]; cbn; intros H.
  - now rewrite Z.eqb_refl.
  - destruct (n =? k) eqn:E; cbn in H; [discriminate|]. apply IH. exact H.
Qed.

(* a new message: refused with nothing changed, or accepted: written once with MsgSeqNum = next_num_out, that
   number consumed, the frame readable from the journal under it, the stored counter = that number *)
Lemma send_msg_new_cases c m w :
  raw_seq m = false -> Out_inv w -> in_i64 (nout w) = true ->
  send_msg c m w = mkR (inr XConn) w []
  \/ exists w' pre,
       let wm := mkMsg (mtype m) (wire_tags c (nout w) m) in
       send_msg c m w = mkR (inl tt) w' (pre ++ [Wire wm]) /\ wires pre = []
       /\ get T34 (mtags wm) = Some (z_to_dec (nout w))
       /\ nout w' = nout w + 1 /\ j_sout (jr w') = nout w
       /\ lookup (nout w) (j_out (jr w')) = Some wm
       /\ j_out (jr w') = j_out (jr w) ++ [(nout w, wm)] /\ Out_inv w'.
Proof.
  intros Hr Hi Hrange. rewrite (send_msg_new_nf c m w Hr Hi Hrange).
  destruct (gate_refuses m w || treq_refuses m w) eqn:G; [left; reflexivity|right].
  apply orb_false_iff in G. destruct G as [G _]. apply gate_passed_alive in G.
  assert (Hw : wr w = true) by (apply Hi; unfold alive; stlia).
  pose proof (sent_world_outstep c m w Hr Hi Hw) as [S1 _ _ _]. cbn [rw] in S1.
  assert (Hn : nout (gate_world w) = nout w) by (unfold gate_world; destruct (_ =? _); reflexivity).
  assert (Hj : jr (gate_world w) = jr w) by (unfold gate_world; destruct (_ =? _); reflexivity).
  exists (sent_world c m (gate_world w)), (gate_events w). cbv zeta. unfold sent_world in *. rewrite Hn, Hj in *.
  split; [reflexivity|]. split; [unfold gate_events; destruct (_ =? _); reflexivity|]. split; [reflexivity|].
  split; [cbn; lia|]. split; [reflexivity|]. split; [cbn; apply lookup_app_new, has_key_below, Hi|].
  split; [reflexivity|exact S1].
Qed.
(* a PossDupFlag=Y message / a SequenceReset-GapFill is written (or not) and nothing else happens *)
Lemma send_msg_retrans_om c m : skip_journal m = true -> om (send_msg c m).
Proof.
  intros Hs.
  assert (Hw : forall w, rw (send_msg c m w) = w \/ rw (send_msg c m w) = gate_world w).
  { intros w. rewrite send_msg_spec. destruct (_ || _); cbn [rw]; [left; reflexivity|right; apply send_write_skip_world, Hs]. }
  assert (Hn : forall w, news (re (send_msg c m w)) = []).
  { intros w. unfold news. destruct (send_msg_wires c m w) as [H|[n H]]; rewrite H; [reflexivity|].
    cbn [filter]. rewrite skip_journal_wire, Hs. reflexivity. }
  split.
  - intros w Hi _.
    assert (H : Out_inv (rw (send_msg c m w)) /\ nout (rw (send_msg c m w)) = nout w
                /\ j_out (jr (rw (send_msg c m w))) = j_out (jr w)).
    { destruct (Hw w) as [E|E]; rewrite E; [auto|]. split; [apply gate_world_inv, Hi|].
      unfold gate_world. destruct (_ =? _); auto. }
    destruct H as [H1 [H2 H3]]. apply outstep_quiet; auto.
  - intros w. destruct (Hw w) as [E|E]; rewrite E; [lia|]. unfold gate_world. destruct (_ =? _); cbn; lia.
Qed.

Lemma gap_fill_skip b e : skip_journal (gap_fill b e) = true.
Proof. reflexivity. Qed.

Lemma get_app_new t v l : get t l = None -> get t (l ++ [(t, v)]) = Some v.
Proof.
  induction l as [|[k x] l IH]; cbn [app get]; intros H.
  - now rewrite str_eqb_refl.
  - destruct (str_eqb k t); [discriminate|]. apply IH. exact H.
Qed.

Lemma get_app_keep t (l l' : list tagv) v : get t l = Some v -> get t (l ++ l') = Some v.
Proof.
  induction l as [|[k x] l IH]; cbn [app get]; intros H; [discriminate|].
  destruct (str_eqb k t); [exact H|]. apply IH. exact H.
Qed.

Lemma get_del_other t t' l : t' <> t -> get t (del t' l) = get t l.
Proof.
  intros Hne. induction l as [|[k x] l IH]; [reflexivity|]. cbn [del].
  destruct (str_eqb k t') eqn:E.
  - apply str_eqb_eq in E. subst k. cbn [get]. destruct (str_eqb t' t) eqn:E2; [apply str_eqb_eq in E2; congruence|reflexivity].
  - cbn [get]. destruct (str_eqb k t); [reflexivity|exact IH].
Qed.

Lemma get_put_same t v l : get t (put t v l) = Some v.
Proof.
  induction l as [|[k x] l IH]; cbn [put get]; [now rewrite str_eqb_refl|].
  destruct (str_eqb k t) eqn:E; cbn [get]; rewrite E; [reflexivity|exact IH].
Qed.

Lemma get_put_other t t' v l : t' <> t -> get t (put t' v l) = get t l.
Proof.
  intros Hne. induction l as [|[k x] l IH]; cbn [put get].
  - destruct (str_eqb t' t) eqn:E; [apply str_eqb_eq in E; congruence|reflexivity].
  - destruct (str_eqb k t') eqn:E; cbn [get].
    + apply str_eqb_eq in E. subst k. destruct (str_eqb t' t) eqn:E2; [apply str_eqb_eq in E2; congruence|reflexivity].
    + destruct (str_eqb k t); [reflexivity|exact IH].
Qed.

Lemma del_tags_get t ts : forall (x y : msg),
  ~ In t ts -> del_tags ts x = inl y -> get t (mtags y) = get t (mtags x).
Proof.
  induction ts as [|t' ts IH]; intros x y Hn H; cbn in H; [now inversion H|].
  unfold del_tag in H. destruct (has t' (mtags x)); [|discriminate].
  rewrite (IH _ _ (fun Hin => Hn (or_intror Hin)) H). cbn [mtags]. apply get_del_other.
  intros E. apply Hn. left. exact E.
Qed.

(* the replay loop sends gap fills and PossDupFlag=Y copies only: nothing is journaled, nothing is numbered *)
Lemma replay_loop_om c rows : forall a b, om (replay_loop c rows a b).
Proof.
  pose proof (fun b e => send_msg_retrans_om c _ (gap_fill_skip b e)) as Hg.
  induction rows as [|r rows IH]; intros a b; cbn [replay_loop]; cbv zeta; [apply om_ret|].
  apply om_bind_lift. intros n _. apply om_bind_lift. intros t _. destruct (_ || _); [apply IH|].
  apply om_bind; [destruct (_ <? _); [apply Hg|apply om_ret]|intros _].
  apply om_bind_lift. intros v52 _. apply om_bind_lift. intros m3 H3.
  apply om_bind; [|intros _; apply IH].
  apply send_msg_retrans_om. unfold skip_journal.
  assert (get T43 (mtags m3) = Some S_Y) as ->; [|reflexivity].
  rewrite (fun Hn => del_tags_get T43 _ _ m3 Hn H3); [|cbn; intros [E|[E|[E|[E|[E|[E|[E|[]]]]]]]]; discriminate].
  cbn [put_tag mtags]. rewrite get_put_other; [apply get_put_same|discriminate].
Qed.

(* set_seq_num(next_num_in = ...) rewrites the stored outbound counter with next_num_out - 1 and deletes the
   outbound rows >= next_num_out: under the invariant both are no-ops *)
Lemma set_seq_num_in_out_same i w :
  Out_inv w ->
  j_sout (jr (rw (set_seq_num None i w))) = j_sout (jr w) /\ j_out (jr (rw (set_seq_num None i w))) = j_out (jr w).
Proof.
  intros [I1 [I2 _]].
  set (K := fun w' : world => j_sout (jr w') = j_sout (jr w) /\ j_out (jr w') = j_out (jr w) /\ nout w' = nout w).
  assert (HK : keeps K (set_seq_num None i)).
  { unfold set_seq_num. keeps_step; [keeps_tac|]. keeps_step; [keeps_tac|].
    apply keeps_bind_getw. intros w1 [K1 [K2 K3]].
    destruct (negb _); [repeat split; auto|].
    match goal with |- K (rw (?k w1)) => assert (H : keeps K k); [|apply H; repeat split; auto] end.
    (* the UPDATE of the stored counters, and the DELETE of the outbound rows from next_num_out on *)
    assert (H1 : keeps K (modw (fun w0 => set_jsout (nout w1 - 1) (set_jsin (nin w1 - 1) w0)))).
    { apply keeps_modw. intros w0 [A1 [A2 A3]]. repeat split; cbn; auto. lia. }
    assert (H2 : keeps K (modw (fun w0 => set_jout (filter (fun r => fst r <? nout w1) (j_out (jr w0))) w0))).
    { apply keeps_modw. intros w0 [A1 [A2 A3]]. repeat split; cbn; auto.
      rewrite A2. apply filter_all. eapply Forall_impl; [|exact I2]. cbn. intros r Hr. lia. }
    keeps_tac. }
  destruct (HK w) as [A1 [A2 _]]; [repeat split; auto|]. auto.
Qed.

Lemma set_seq_num_in_om i : om (set_seq_num None i).
Proof.
  assert (Hp : forall X (f : world -> X), ignores_all f [FNin; FJsout; FJsin; FJout; FJin] -> pres f (set_seq_num None i)).
  { intros X f H. apply (set_seq_num_writes None i). destruct i; cbn in *; tauto. }
  assert (Hn : pres nout (set_seq_num None i)) by (apply Hp; ignores_solve).
  split; [|apply mono_pres, Hn]. intros w Hi _. destruct (set_seq_num_in_out_same i w Hi) as [J1 J2].
  apply outstep_quiet; [|apply Hn|exact J2|apply news_nil, wires_nil, set_seq_num_allev].
  unfold Out_inv, alive. rewrite !Hn, J1, J2, (Hp _ st), (Hp _ wr) by ignores_solve. exact Hi.
Qed.

Lemma persist_in_om m : om (persist_in m).
Proof. apply om_quiet; try (apply persist_in_writes; ignores_solve). apply persist_in_allev. Qed.

Lemma set_next_num_in_om m : om (set_next_num_in m).
Proof. apply om_quiet; try (apply set_next_num_in_writes; ignores_solve). apply set_next_num_in_allev. Qed.

Lemma recover_out_om a b : om (recover_out a b).
Proof. apply om_quiet; try (apply recover_out_writes; exact I). apply recover_out_allev. Qed.

#[local] Hint Resolve set_seq_num_in_om persist_in_om set_next_num_in_om recover_out_om : om.

Lemma process_seqreset_om c m : om (process_seqreset c m).
Proof. unfold process_seqreset. om_tac. Qed.

(* state_set to a dead state needs no writer *)
Lemma state_set_dead_outok s : s <= ST_DISC_BROKEN -> outok (state_set s).
Proof.
  intros Hs w [I1 [I2 I3]] _. apply state_set_outstep; auto. stlia.
Qed.

(* the messages the handlers build themselves are new ones: neither a SequenceReset nor marked PossDupFlag *)
Lemma logout_is_new s : raw_seq (mkMsg MT_LOGOUT (match s with [] => [] | _ :: _ => [(T58, s)] end)) = false.
Proof. destruct s; reflexivity. Qed.
Lemma logon_reply_is_new e h : raw_seq (mkMsg MT_LOGON [(T98, e); (T108, h)]) = false.
Proof. reflexivity. Qed.
Lemma resend_request_is_new b : raw_seq (mkMsg MT_RESENDREQUEST [(T7, b); (T16, S_0)]) = false.
Proof. reflexivity. Qed.
Lemma heartbeat_is_new v : raw_seq (mkMsg MT_HEARTBEAT [(T112, v)]) = false.
Proof. reflexivity. Qed.
Lemma test_request_is_new v : raw_seq (mkMsg MT_TESTREQUEST [(T112, v)]) = false.
Proof. reflexivity. Qed.

(* the end of disconnect(): the writer is dropped and, at once, the state is a disconnected one *)
Lemma disconnect_tail_om ds :
  ds <= ST_DISC_BROKEN -> om (modw (set_wr false) ;;; state_set ds ;;; emit OnDisconnect).
Proof.
  intros Hds. split.
  - intros w [I1 [I2 _]] _. rewrite bind_modw, (bind_eq _ _ _ _ _ _ (state_set_nf ds _)).
    apply outstep_quiet; cbn [emit rw re]; [|destruct (ds =? ST_ACTIVE); reflexivity..|reflexivity].
    unfold Out_inv, alive. destruct (ds =? ST_ACTIVE); cbn; repeat split; auto; intros; stlia.
  - apply mono_pres. apply pres_bind; [apply pres_modw; reflexivity|intros _].
    apply pres_bind; [apply state_set_writes; ignores_solve|intros _; apply pres_emit].
Qed.

Lemma disconnect_om c ds lm : om (disconnect c ds lm).
Proof.
  unfold disconnect. apply om_bind; [apply om_getw|intros w0]. destruct (st w0 <=? ST_DISC_BROKEN); [apply om_ret|].
  destruct (ds <=? ST_DISC_BROKEN) eqn:E; [|apply (om_bind_lift (inr XAssertion)); discriminate].
  pose proof (disconnect_tail_om ds ltac:(lia)) as Ht. pose proof (fun s => send_msg_new_om c _ (logout_is_new s)) as Hs.
  om_tac.
Qed.
#[local] Hint Resolve disconnect_om : om.

Lemma process_logout_om c m : om (process_logout c m).
Proof. unfold process_logout. om_tac. Qed.
#[local] Hint Resolve process_logout_om process_seqreset_om : om.

Lemma logout_counted_om c m : om (logout_counted c m).
Proof. unfold logout_counted. om_tac. Qed.

Lemma process_testrequest_om c m : om (process_testrequest c m).
Proof. apply send_msg_new_om, heartbeat_is_new. Qed.

Lemma process_heartbeat_om c m : om (process_heartbeat c m).
Proof. unfold process_heartbeat. om_tac. Qed.
Lemma send_msg_new_omW c m : raw_seq m = false -> omW (send_msg c m).
Proof. intros Hr. apply om_W; [apply send_msg_new_om, Hr|apply send_msg_writes; ignores_solve]. Qed.

Lemma accept_first_omW w0 : omW (accept_first w0).
Proof. unfold accept_first. om_tac. Qed.

Lemma process_logon_omW c m : omW (process_logon c m).
Proof. pose proof (fun e h => send_msg_new_omW c _ (logon_reply_is_new e h)) as Hs. unfold process_logon. om_tac. Qed.

Lemma check_gaps_omW c n : omW (check_gaps c n).
Proof. pose proof (fun b => send_msg_new_omW c _ (resend_request_is_new b)) as Hs. unfold check_gaps. om_tac. Qed.

(* a live connection has its writer *)
Lemma omW_alive {A} (c : M A) w : omW c -> Out_inv w -> alive w -> in_range w (c w) -> OutStep w (c w).
Proof. intros [H _] Hi Ha. apply H; [exact Hi|apply Hi, Ha]. Qed.

(* gap_check guards itself: on a dead connection it returns at once *)
Lemma gap_check_om c m : om (gap_check c m).
Proof.
  pose proof (check_gaps_omW c) as Hc.
  assert (H : omW (n <- lift (get_int T34 m) ;; b <- check_gaps c n ;; ret (Some b))) by om_tac.
  split.
  - intros w Hi. unfold gap_check. rewrite bind_getw. destruct (st w <=? ST_DISC_BROKEN) eqn:E; [intros _; apply outstep_id, Hi|].
    apply (omW_alive _ w H Hi). unfold alive. lia.
  - intros w. unfold gap_check. rewrite bind_getw. destruct (st w <=? ST_DISC_BROKEN); [cbn; lia|apply H].
Qed.

(* _process_resend (D12 repaired: no journal rewind any more): it keeps the invariant, consumes no number and journals
   nothing *)
Lemma process_resend_omW c m : omW (process_resend c m).
Proof.
  assert (Hl : forall rows a b, omW (replay_loop c rows a b)).
  { intros. apply om_W; [apply replay_loop_om|apply replay_loop_writes; ignores_solve]. }
  assert (Hr : forall a b, omW (recover_out a b)).
  { intros. apply om_W; [apply recover_out_om|apply recover_out_writes; exact I]. }
  assert (Hg : forall a b, omW (send_msg c (gap_fill a b))).
  { intros. apply om_W; [apply send_msg_retrans_om, gap_fill_skip|apply send_msg_writes; ignores_solve]. }
  unfold process_resend. om_tac.
Qed.

(* the states _finalize_message and the `finally` of the ResendRequest handler set are set from a live state *)
Lemma restore_handling_om : om restore_handling.
Proof.
  split.
  - intros w Hi. unfold restore_handling. rewrite bind_getw. destruct (st w =? ST_HANDLING) eqn:E; [|intros _; apply outstep_id, Hi].
    apply (omW_alive _ w (state_set_omW ST_ACTIVE) Hi). unfold alive. stlia.
  - apply mono_pres, restore_handling_writes. ignores_solve.
Qed.

Lemma finalize_om m now : om (finalize m now).
Proof.
  unfold finalize. apply om_bind; [apply set_next_num_in_om|intros r]. destruct (r <=? 0); [apply om_ret|].
  assert (Hrest : om (modw (set_lastt now) ;;; persist_in m)) by om_tac.
  split; [|apply mono_pres, finalize_tail_writes; ignores_solve].
  intros w Hi. unfold finalize_tail. rewrite bind_getw. destruct (st w =? ST_AWAITING) eqn:Es.
  - apply (fun H => omW_bind_om _ (fun _ => modw (set_lastt now) ;;; persist_in m) w H (fun _ => Hrest) Hi);
      [om_tac|apply Hi; unfold alive; stlia].
  - apply (om_bind (ret tt) (fun _ => modw (set_lastt now) ;;; persist_in m)); [apply om_ret|intros _; exact Hrest|exact Hi].
Qed.

(* everything dispatch does keeps the invariant on a live connection (dispatch is only reached on one) *)
Lemma dispatch_om c m v :
  (forall w, Out_inv w -> wr w = true -> in_range w (dispatch c m v w) -> OutStep w (dispatch c m v w))
  /\ mono (dispatch c m v).
Proof.
  assert (Hw : forall (k : M unit), om k -> (forall w, Out_inv w -> wr w = true -> in_range w (k w) -> OutStep w (k w)) /\ mono k).
  { intros k [H1 H2]. split; [intros w Hi _; apply H1, Hi|exact H2]. }
  unfold dispatch. destruct (mkind m); try apply Hw, om_ret.
  1,5: apply Hw; om_tac.
  - destruct (process_resend_omW c m) as [Hc [Hm _]]. destruct restore_handling_om as [Hg Hgm].
    split; [|apply mono_finally; assumption].
    intros w Hi Hwr Hr. apply outstep_finally; [exact Hgm|exact Hr|apply Hc; assumption|apply Hg].
  - apply Hw, process_testrequest_om.
  - apply Hw, process_heartbeat_om.
Qed.
Lemma pre_handlers_omW c m w0 : mkind m <> KLogout -> omW (pre_handlers c m w0).
Proof.
  intros Hk. rewrite pre_handlers_unfold. apply omW_bind; [apply accept_first_omW|intros _].
  destruct (mkind m); try apply omW_ret; [apply process_logon_omW| |now elim Hk].
  apply om_W; [apply process_seqreset_om|apply process_seqreset_writes; ignores_solve].
Qed.

Lemma part1_om c m : om (part1 c m).
Proof.
  split.
  - intros w Hi. rewrite part1_nf. destruct (st w <? ST_NCE) eqn:E6; [intros _; apply outstep_id, Hi|].
    destruct (early_drop m w) eqn:Ed; [intros Hr; apply outstep_rv, disconnect_om; assumption|].
    destruct (kind_eq_dec (mkind m) KLogout) as [Hk|Hk].
    + rewrite (part1_logout_nf c m w Hk Ed). intros Hr. apply outstep_rv, logout_counted_om; assumption.
    + apply (omW_bind_om _ _ w (pre_handlers_omW c m w Hk) (fun _ => gap_check_om c m) Hi). apply Hi. unfold alive. stlia.
  - intros w. rewrite part1_nf. destruct (st w <? ST_NCE); [cbn [rw]; lia|].
    destruct (early_drop m w) eqn:Ed; [apply disconnect_om|].
    destruct (kind_eq_dec (mkind m) KLogout) as [Hk|Hk].
    + rewrite (part1_logout_nf c m w Hk Ed). apply logout_counted_om.
    + apply mono_bind; [apply pre_handlers_omW, Hk|intros _; apply gap_check_om].
Qed.

(* when the try body reaches the dispatcher the connection is up *)
Lemma part1_some_alive c m w b : rv (part1 c m w) = inl (Some b) -> alive (rw (part1 c m w)).
Proof.
  intros H. unfold alive. destruct b.
  - destruct (part1_true c m w H) as [n [_ [_ [_ Hnd]]]]. unfold dead in Hnd. lia.
  - rewrite (part1_false c m w H). stlia.
Qed.

(* _process_message keeps the outbound invariant - for every inbound message, ResendRequests included *)
Lemma process_message_om c m now : om (process_message c m now).
Proof.
  destruct (part1_om c m) as [P Pm].
  assert (Hf : forall v : bool, om (if v then finalize m now else ret tt)) by (intros []; [apply finalize_om|apply om_ret]).
  split; intros w; pose proof (Pm w) as M0.
  - intros Hi. pattern (process_message c m now w). apply process_message_case.
    + intros lm. apply disconnect_om, Hi.
    + intros x _. apply outstep_id, Hi.
    + intros V. split; [intros v E [Hlo Hhi]|intros Hr; apply outstep_rv, P; assumption]. cbn [rw] in Hhi.
      destruct (dispatch_om c m v) as [D Dm]. destruct (Hf v) as [G Gm].
      pose proof (Dm (rw (part1 c m w))) as M1. pose proof (Gm (rw (dispatch c m v (rw (part1 c m w))))) as M2.
      assert (S1 : OutStep w (part1 c m w)) by (apply P; [exact Hi|split; lia]).
      assert (S2 : OutStep (rw (part1 c m w)) (dispatch c m v (rw (part1 c m w)))).
      { apply D; [apply S1|apply (os_inv _ _ S1), (part1_some_alive c m w v E)|split; lia]. }
      assert (S3 : OutStep (rw (dispatch c m v (rw (part1 c m w))))
                           ((if v then finalize m now else ret tt) (rw (dispatch c m v (rw (part1 c m w))))))
        by (apply G; [apply S2|split; lia]).
      exact (outstep_compose w _ _ S1 (outstep_compose _ _ _ S2 S3)).
  - pattern (process_message c m now w). apply process_message_case; cbn [rw]; [intros lm; apply disconnect_om|lia|].
    intros V. split; [intros v E|exact M0].
    pose proof (proj2 (dispatch_om c m v) (rw (part1 c m w))) as M1.
    pose proof (proj2 (Hf v) (rw (dispatch c m v (rw (part1 c m w))))) as M2. lia.
Qed.
(* D20: the application sends a SequenceReset that is not a gap fill (no GapFillFlag = Y, no PossDupFlag = Y):
   it is numbered by its own MsgSeqNum field and journaled under that number without consuming it.
   (PossDupFlag = Y messages and SequenceReset-GapFill are written but never journaled: harmless.) *)
Definition D20_step (s : srec) : Prop :=
  exists m, s_op s = OSend m /\ raw_seq m = true /\ skip_journal m = false.

Definition D20_stepb (s : srec) : bool :=
  match s_op s with OSend m => raw_seq m && negb (skip_journal m) | _ => false end.

Lemma no_D20_decided l :
  forallb (fun s => negb (D20_stepb s)) l = true -> Forall (fun s => ~ D20_step s) l.
Proof.
  intros H. rewrite forallb_forall in H. apply Forall_forall. intros s Hs. specialize (H s Hs).
  intros [m [Ho [Hr Hk]]]. unfold D20_stepb in H. rewrite Ho, Hr, Hk in H. discriminate.
Qed.

Lemma step_om c o w : ~ D20_step (mkS w o (step c o w)) -> om (step c o).
Proof.
  intros H20. destruct o as [m now|m|now|ds lm]; cbn [step].
  - apply process_message_om.
  - destruct (raw_seq m) eqn:E; [|apply send_msg_new_om, E].
    destruct (skip_journal m) eqn:Es; [apply send_msg_retrans_om, Es|]. elim H20. exists m. auto.
  - pose proof (fun v => send_msg_new_om c _ (test_request_is_new v)) as Hs. unfold send_test_req. om_tac.
  - apply disconnect_om.
Qed.

Lemma run_mono c h : forall w,
  Forall (fun s => ~ D20_step s) (run c w h) -> nout w <= nout (final c w h).
Proof.
  induction h as [|o h IH]; intros w Hc; [cbn; lia|].
  rewrite final_cons. cbn [run] in Hc. inversion Hc as [|s l H20 Hrest]; subst.
  pose proof (proj2 (step_om c o w H20) w). specialize (IH _ Hrest). lia.
Qed.

(* C05_history_partial: outside D20, with all numbers inside SQLite's INTEGER range, every step of every history
   (inbound ResendRequests included) keeps the invariant, numbers the new frames it writes consecutively from
   next_num_out, and journals exactly those *)
Lemma run_out_inv c h : forall w,
  Out_inv w -> I64MIN <= nout w -> nout (final c w h) <= I64MAX + 1 ->
  Forall (fun s => ~ D20_step s) (run c w h) ->
  Forall (fun s => OutStep (s_before s) (s_res s)) (run c w h) /\ Out_inv (final c w h).
Proof.
  induction h as [|o h IH]; intros w Hi Hlo Hhi Hc.
  { split; [constructor|exact Hi]. }
  rewrite final_cons in *. cbn [run] in *. inversion Hc as [|s l H20 Hrest]; subst.
  destruct (step_om c o w H20) as [Ho Hm]. specialize (Hm w).
  pose proof (run_mono c h _ Hrest) as Hb.
  assert (S : OutStep w (step c o w)) by (apply Ho; [exact Hi|split; [exact Hlo|lia]]).
  destruct (IH (rw (step c o w))) as [I1 I2]; [apply S|lia|exact Hhi|exact Hrest|].
  split; [constructor; [exact S|exact I1]|exact I2].
Qed.
Definition cfgS : cfg := cfg0.
Definition o_app (id : String.string) := OSend (mkMsg (S "D") [(S "11", S id); (S "55", S "SYM")]).
Arguments o_app id%string.

(* the former D12 witness (repaired in the code): Logon exchange, two application sends (2, 3); the peer asks
   twice for 2..: both requests are answered from the untouched journal, next_num_out stays 4 and the next new
   message is 4 *)
Definition h_resend_twice :=
  [i_logon 1; o_app "A"; o_app "B"; i_resend 2 2 0; i_resend 3 2 0; o_app "C"].

Definition new_numbers (l : list event) : list str :=
  flat_map (fun wm => match get T34 (mtags wm) with Some v => [v] | None => [] end) (news l).

Lemma w_acceptor_inv : Out_inv w_acceptor.
Proof. repeat split; try constructor; intros; reflexivity. Qed.

(* D20: the application sends a plain SequenceReset numbered next_num_out: it goes out and is journaled under that
   number without consuming it (the invariant breaks).  Since R8a the next new message no longer reaches the wire
   with the same number: its journal write fails BEFORE the write, send_msg raises, nothing is written, the
   application message is lost and its number is burnt (after which counter and journal agree again) *)
Definition o_seqreset (seq new : Z) :=
  OSend (mkMsg (S "4") [(T123, S "Y"); (T34, z_to_dec seq); (T36, z_to_dec new)]).
Definition o_reset (seq new : Z) :=
  OSend (mkMsg (S "4") [(T34, z_to_dec seq); (T36, z_to_dec new)]).
Definition h_app_seqreset := [i_logon 1; o_reset 2 5; o_app "A"].

(* an application-sent SequenceReset-GapFill or PossDupFlag=Y message is written but not journaled and consumes
   nothing: inside the scope of the partial theorem *)
Definition h_app_gapfill :=
  [i_logon 1; o_seqreset 2 5; OSend (mkMsg (S "D") [(S "11", S "X"); (T43, S "Y"); (T34, S "1")]); o_app "A"].
(* PossResend(97)=Y (like PossDupFlag=N, or a GapFillFlag on a message that is not a SequenceReset) does not make a
   message a retransmission: it is a NEW message - the codec allocates its number, so it must be journaled and counted
   (skip_journal is exactly "PossDupFlag=Y or SequenceReset-GapFill") - and a ResendRequest replays it *)
Definition m_possresend : msg := mkMsg (S "D") [(S "11", S "X"); (S "97", S "Y")].
(* non-vacuity: a session with sends, a served ResendRequest, a heartbeat exchange and a logout stays inside the invariant *)
Definition h_c05_good :=
  [i_logon 1; o_app "A"; i_app 2; i_resend 3 1 0; OTestReq 7; OIn (inbound (S "0") 4 [(T112, S "7")]) 0; i_app 6;
   OIn (inbound (S "1") 5 [(T112, S "X")]) 0; o_app "B"; OIn (inbound (S "5") 6 []) 0; o_app "C"].

(* R6a: a journaled application message that itself carries 43=N / 122 is replayed with 43=Y and 122 = its
   original SendingTime (the tags keep their position); the reply is not aborted *)
Definition o_app_pdn := OSend (mkMsg (S "D") [(S "11", S "X"); (T43, S "N"); (T122, S "OLD"); (S "55", S "SYM")]).
Definition rr_msg (w : world) : msg := mkMsg MT_RESENDREQUEST [(T7, z_to_dec (nin w)); (T16, S_0)].

Definition plain_kind (m : msg) : Prop :=
  mkind m = KApp \/ mkind m = KTestReq \/ mkind m = KHeartbeat \/ mkind m = KResend.

(* with the outbound invariant (no D20 damage) and an open send gate, _check_seqnum_gaps on a gap
   writes a ResendRequest and the state becomes RESENDREQ_AWAITING *)
Lemma check_gaps_requests c n w :
  Out_inv w -> in_i64 (nout w) = true -> gate_refuses (rr_msg w) w = false ->
  nin w < n -> st w <> ST_AWAITING ->
  rv (check_gaps c n w) = inl false /\ resends (re (check_gaps c n w)) <> [].
Proof.
  intros Hi Hr Hg Hn Hs. rewrite check_gaps_nf.
  destruct (nin w <? n) eqn:E; [|lia]. destruct (st w =? ST_AWAITING) eqn:Es; [lia|]. cbv zeta. fold (rr_msg w).
  rewrite (send_msg_new_nf c (rr_msg w) (set_maxres n w) eq_refl Hi Hr).
  change (gate_refuses (rr_msg w) (set_maxres n w)) with (gate_refuses (rr_msg w) w).
  change (treq_refuses (rr_msg w) (set_maxres n w)) with false. rewrite Hg. cbn [orb rv re]. split; [reflexivity|]. rewrite !resends_app. intros H.
  apply app_eq_nil in H. destruct H as [H _]. apply app_eq_nil in H. destruct H as [_ H]. discriminate.
Qed.

(* once the Logon exchange is over, the try body of a message without pre-handler is the gap check *)
Lemma part1_plain c m w : plain_kind m -> ST_LOGON_RECV < st w -> part1 c m w = gap_check c m w.
Proof.
  intros Hk Hst. rewrite part1_nf. destruct (st w <? ST_NCE) eqn:E1; [stlia|].
  assert (early_drop m w = false) as ->.
  { unfold early_drop. destruct (st w =? ST_NCE) eqn:?, (st w =? ST_LOGON_SENT) eqn:?, (st w =? ST_LOGON_RECV) eqn:?; try stlia; reflexivity. }
  rewrite bind_unfold, pre_handlers_unfold, bind_unfold, accept_first_nf. destruct (st w =? ST_NCE) eqn:E2; [stlia|].
  destruct Hk as [H|[H|[H|H]]]; rewrite H; apply res_eta.
Qed.

(* C04 (exactly one): a message of a kind without pre-handler, numbered above the expected number, received on a
   connection whose Logon exchange is complete and that is not already awaiting a resend, makes the receiver write exactly one ResendRequest
   from the expected number and wait - provided the outbound side is intact (Out_inv: no D20 damage) *)
Lemma gap_is_requested c m now w n :
  Out_inv w -> in_i64 (nout w) = true -> validate_integrity c m w = VOk -> get_int T34 m = inl n ->
  nin w < n -> st w <> ST_AWAITING -> ST_LOGON_RECV < st w -> gate_refuses (rr_msg w) w = false -> plain_kind m ->
  exists rr, resends (re (process_message c m now w)) = [rr]
             /\ get T7 (mtags rr) = Some (z_to_dec (nin w)) /\ get T16 (mtags rr) = Some S_0
             /\ apps (re (process_message c m now w)) = []
             /\ nin (rw (process_message c m now w)) = nin w
             /\ (st (rw (process_message c m now w)) = ST_AWAITING \/ dead (rw (process_message c m now w))).
Proof.
  intros Hi Hr V Hn Hlt Hs Hst Hg Hk.
  assert (Hq : mkind m <> KSeqReset) by (destruct Hk as [H|[H|[H|H]]]; rewrite H; discriminate).
  destruct (check_gaps_requests c n w Hi Hr Hg Hlt Hs) as [C1 C2].
  (* the try body is the gap check, which asks for the resend and gives the verdict "not valid" *)
  pose proof (process_message_ok c m now w V) as E. rewrite (part1_plain c m w Hk Hst), gap_check_nf, Hn in E.
  destruct (st w <=? ST_DISC_BROKEN) eqn:E3; [stlia|]. cbv zeta in E. cbn [rv rw re] in E. rewrite C1 in E.
  destruct (process_message_resend c m now w) as [R _].
  destruct (process_message_apps c m now w) as [A|[_ [_ [_ [A _]]]]]; [|rewrite Hn in A; inversion A; lia].
  destruct (process_message_nin c m now w Hq) as [N|[N _]]; [|rewrite Hn in N; inversion N; lia].
  rewrite N in R. destruct R as [R|[rr [R [H7 H16]]]].
  { rewrite E in R. cbn [re] in R. rewrite resends_app in R. apply app_eq_nil in R. destruct R as [R _]. contradiction. }
  exists rr. repeat split; auto. rewrite E. cbn [ret rw]. apply dispatch_from_awaiting, check_gaps_false, C1.
Qed.
