(* Proofs for C15: the validation algorithm of Fix/SchemaModel.v decides the declarative
   conformance relation of Fix/SchemaSpec.v, for every well-formed schema. *)
From Coq Require Import ZArith NArith List Bool Lia Sorting.Sorted.
From AF Require Import Lemmas.StrB Base.Sx Py.Str Fix.SchemaModel Fix.SchemaSpec.
From AFGen Require GenSchema.
Import ListNotations.
Local Open Scope nat_scope.

Lemma str_eqb_sym : forall a b, str_eqb a b = str_eqb b a.
Proof. exact StrB.str_eqb_sym. Qed.

Lemma NoDup_map_nth : forall (A B : Type) (g : A -> B) (l : list A) i j a b,
  NoDup (map g l) -> nth_error l i = Some a -> nth_error l j = Some b -> g a = g b -> i = j.
Proof.
  intros A B g l i j a b Hnd Ha Hb E.
  apply (proj1 (NoDup_nth_error (map g l)) Hnd).
  - rewrite map_length. apply nth_error_Some. rewrite Ha. discriminate.
  - rewrite !nth_error_map, Ha, Hb. simpl. congruence.
Qed.

(* a search finds the one element that can match *)
Lemma find_unique : forall (A B : Type) (g : A -> B) (p : A -> bool) l a,
  NoDup (map g l) -> In a l -> p a = true -> (forall b, In b l -> p b = true -> g b = g a) ->
  find p l = Some a.
Proof.
  intros A B g p l a Hnd Ha Hp Hg. destruct (find p l) as [b|] eqn:E.
  - apply find_some in E. destruct E as [Hb Hpb]. f_equal. apply (NoDup_map_inj g l); auto.
  - apply (find_none _ _ E) in Ha. congruence.
Qed.

Section Eqb.
  Variables (K : Type) (eqb : K -> K -> bool).
  Hypothesis eqb_eq : forall a b, eqb a b = true <-> a = b.

  Lemma existsb_eqb_In : forall k l, existsb (eqb k) l = true <-> In k l.
  Proof.
    intros k l. rewrite existsb_exists. split.
    - intros [y [Hy E]]. apply eqb_eq in E. subst. exact Hy.
    - intro H. exists k. split; [exact H | apply eqb_eq; reflexivity].
  Qed.

  Lemma existsb_eqb_map : forall (A : Type) (g : A -> K) k l,
    existsb (fun x => eqb (g x) k) l = true <-> In k (map g l).
  Proof.
    intros A g k l. rewrite existsb_exists, in_map_iff. split.
    - intros [x [Hx E]]. exists x. split; [apply eqb_eq; exact E | exact Hx].
    - intros [x [E Hx]]. exists x. split; [exact Hx | apply eqb_eq; exact E].
  Qed.

  (* association lists searched by first match *)
  Definition alookup {V : Type} (l : list (K * V)) (k : K) : option V :=
    option_map snd (find (fun p => eqb (fst p) k) l).

  Lemma alookup_In : forall V (l : list (K * V)) k v, alookup l k = Some v -> In (k, v) l.
  Proof.
    intros V l k v H. unfold alookup in H.
    destruct (find (fun p => eqb (fst p) k) l) as [[k' v']|] eqn:E; [|discriminate].
    apply find_some in E. destruct E as [Hin E]. apply eqb_eq in E. simpl in *. congruence.
  Qed.

  Lemma In_alookup : forall V (l : list (K * V)) k v,
    NoDup (map fst l) -> In (k, v) l -> alookup l k = Some v.
  Proof.
    intros V l k v Hnd Hin. unfold alookup. rewrite (find_unique _ _ fst _ l (k, v) Hnd Hin).
    - reflexivity.
    - apply eqb_eq. reflexivity.
    - intros b _ Hb. apply eqb_eq. exact Hb.
  Qed.

  Lemma alookup_None : forall V (l : list (K * V)) k, alookup l k = None <-> ~ In k (map fst l).
  Proof.
    intros V l k. rewrite <- existsb_eqb_map, not_true_iff_false. unfold alookup.
    induction l as [|p l IH]; simpl; [tauto|]. destruct (eqb (fst p) k); simpl; [|exact IH].
    split; discriminate.
  Qed.
  (* [nodupb] and [nodupN] are this test at two key types *)
  Lemma nodup_eqb_NoDup : forall f : list K -> bool,
    f [] = true -> (forall x l, f (x :: l) = negb (existsb (eqb x) l) && f l) ->
    forall l, f l = true <-> NoDup l.
  Proof.
    intros f Hnil Hcons. induction l as [|x l IH].
    - rewrite Hnil. split; [constructor | reflexivity].
    - rewrite Hcons, andb_true_iff, negb_true_iff, <- not_true_iff_false, existsb_eqb_In, IH, NoDup_cons_iff.
      reflexivity.
  Qed.
End Eqb.
Arguments alookup {K} eqb {V} l k.

Lemma nodupb_NoDup : forall l, nodupb l = true <-> NoDup l.
Proof. exact (nodup_eqb_NoDup _ _ str_eqb_eq nodupb eq_refl (fun _ _ => eq_refl)). Qed.

Lemma nodupN_NoDup : forall l, nodupN l = true <-> NoDup l.
Proof. exact (nodup_eqb_NoDup _ _ N.eqb_eq nodupN eq_refl (fun _ _ => eq_refl)). Qed.

Lemma skipn_cons_inv : forall (A : Type) k (l : list A) x r,
  skipn k l = x :: r -> nth_error l k = Some x /\ skipn (S k) l = r.
Proof.
  induction k as [|k IH]; destruct l as [|a l]; simpl; intros x r H; try discriminate.
  - inversion H. auto.
  - apply IH. exact H.
Qed.

Lemma sorted_lt_le : forall l, StronglySorted lt l -> StronglySorted le l.
Proof.
  induction 1 as [|a l _ IH Hlt]; constructor; [exact IH|].
  exact (Forall_impl _ (Nat.lt_le_incl a) Hlt).
Qed.

Lemma Forall2_In_l : forall (A B : Type) (P : A -> B -> Prop) l1 l2 x,
  Forall2 P l1 l2 -> In x l1 -> exists y, In y l2 /\ P x y.
Proof.
  intros A B P l1 l2 x H. induction H as [|a b l1 l2 Hab H IH]; intro Hin.
  - contradiction.
  - destruct Hin as [->|Hin].
    + exists b. split; [left; reflexivity | exact Hab].
    + destruct (IH Hin) as [y [Hy Hp]]. exists y. split; [right; exact Hy | exact Hp].
Qed.

Lemma Forall2_In_r : forall (A B : Type) (P : A -> B -> Prop) l1 l2 y,
  Forall2 P l1 l2 -> In y l2 -> exists x, In x l1 /\ P x y.
Proof.
  intros A B P l1 l2 y H. induction H as [|a b l1 l2 Hab H IH]; intro Hin.
  - contradiction.
  - destruct Hin as [->|Hin].
    + exists a. split; [left; reflexivity | exact Hab].
    + destruct (IH Hin) as [x [Hx Hp]]. exists x. split; [right; exact Hx | exact Hp].
Qed.

Lemma Forall2_impl_In : forall (A B : Type) (P Q : A -> B -> Prop) l1 l2,
  (forall x y, In x l1 -> P x y -> Q x y) -> Forall2 P l1 l2 -> Forall2 Q l1 l2.
Proof.
  intros A B P Q l1 l2 Himp H. induction H as [|a b l1 l2 Hab H IH]; constructor.
  - apply Himp; [left; reflexivity | exact Hab].
  - apply IH. intros x y Hx. apply Himp. right. exact Hx.
Qed.

Fixpoint all_ok {A : Type} (f : A -> res) (l : list A) : res :=
  match l with
  | [] => Ok
  | x :: r => match f x with Ok => all_ok f r | e => e end
  end.

Lemma all_ok_ok : forall (A : Type) (f : A -> res) l, all_ok f l = Ok <-> forall x, In x l -> f x = Ok.
Proof.
  induction l as [|a l IH]; simpl.
  - split; [intros _ x [] | reflexivity].
  - destruct (f a) eqn:E.
    + rewrite IH. split; [intros H x [<-|Hx]; auto | intros H x Hx; apply H; right; exact Hx].
    + split; [discriminate | intro H; rewrite <- E; apply H; left; reflexivity].
Qed.

Lemma all_ok_class : forall (A : Type) (C : res -> Prop) (f : A -> res) l,
  C Ok -> (forall x, In x l -> C (f x)) -> C (all_ok f l).
Proof.
  induction l as [|a l IH]; simpl; intros Hok H; [exact Hok|].
  destruct (f a) eqn:E; [apply IH; auto | rewrite <- E; apply H; left; reflexivity].
Qed.

(* the loops only add FIXMessageError to what the single-value check raises *)
Definition ok_or_fme (r : res) : Prop := r = Ok \/ r = Exc EFIXMessage.

Lemma present_keys : forall t c, present t c <-> In t (map fst c).
Proof.
  intros t c. unfold present. rewrite in_map_iff. split.
  - intros [v H]. exists (t, v). split; [reflexivity | exact H].
  - intros [[t' v] [E H]]. simpl in E. subst. exists v. exact H.
Qed.

Lemma has_tag_present : forall t c, has_tag t c = true <-> present t c.
Proof. intros t c. rewrite present_keys. apply (existsb_eqb_map _ _ str_eqb_eq). Qed.

Lemma get_tag_alookup : forall t c, get_tag t c = alookup str_eqb c t.
Proof.
  induction c as [|[t' v'] c IH]; simpl; [reflexivity|]. rewrite IH. unfold alookup. simpl.
  destruct (str_eqb t' t); reflexivity.
Qed.

Lemma get_tag_In : forall t c v, get_tag t c = Some v -> In (t, v) c.
Proof. intros t c v. rewrite get_tag_alookup. apply (alookup_In _ _ str_eqb_eq). Qed.

Lemma present_get : forall t c, present t c -> exists v, get_tag t c = Some v.
Proof.
  intros t c H. rewrite get_tag_alookup. destruct (alookup str_eqb c t) as [v|] eqn:E; [eauto|].
  apply (alookup_None _ _ str_eqb_eq) in E. apply present_keys in H. contradiction.
Qed.

Definition required_step (c : container) (m : member) : res :=
  if negb (has_tag (mtag m) c) && mreq m then Exc EFIXMessage else Ok.

Lemma check_required_eq : forall ms c, check_required ms c = all_ok (required_step c) ms.
Proof.
  induction ms as [|m ms IH]; intro c; simpl; [reflexivity|]. rewrite IH. unfold required_step.
  destruct (negb (has_tag (mtag m) c) && mreq m); reflexivity.
Qed.

Lemma check_required_ok : forall ms c,
  check_required ms c = Ok <-> (forall mem, In mem ms -> mreq mem = true -> present (mtag mem) c).
Proof.
  intros ms c. rewrite check_required_eq, all_ok_ok.
  assert (Hstep : forall m, required_step c m = Ok <-> (mreq m = true -> present (mtag m) c)).
  { intro m. unfold required_step. rewrite <- has_tag_present.
    destruct (has_tag (mtag m) c), (mreq m); simpl; split; auto; try discriminate.
    intro H. discriminate (H eq_refl). }
  split; intros H m Hin; apply Hstep, H, Hin.
Qed.

Lemma check_required_class : forall ms c, ok_or_fme (check_required ms c).
Proof.
  intros ms c. rewrite check_required_eq. apply all_ok_class; [left; reflexivity|].
  intros m _. unfold required_step. destruct (negb (has_tag (mtag m) c) && mreq m); [right | left]; reflexivity.
Qed.

Lemma find_member_from_spec : forall t ms k i mem,
  find_member_from t ms k = Some (i, mem) ->
  k <= i /\ nth_error ms (i - k) = Some mem /\ mtag mem = t.
Proof.
  induction ms as [|m ms IH]; simpl; intros k i mem H.
  - discriminate.
  - destruct (str_eqb (mtag m) t) eqn:E.
    + inversion H; subst. apply str_eqb_eq in E. rewrite Nat.sub_diag. auto.
    + apply IH in H. destruct H as [Hk [Hn Ht]]. split; [lia|]. split; [|exact Ht].
      replace (i - k) with (S (i - S k)) by lia. exact Hn.
Qed.

Lemma find_member_spec : forall t ms i mem,
  find_member t ms = Some (i, mem) -> nth_error ms i = Some mem /\ mtag mem = t.
Proof.
  intros t ms i mem H. apply find_member_from_spec in H. rewrite Nat.sub_0_r in H. apply H.
Qed.

Lemma find_member_from_none : forall t ms k,
  find_member_from t ms k = None -> forall mem, In mem ms -> mtag mem <> t.
Proof.
  induction ms as [|m ms IH]; simpl; intros k H mem Hin.
  - contradiction.
  - destruct (str_eqb (mtag m) t) eqn:E; [discriminate|].
    destruct Hin as [->|Hin]; [apply str_eqb_neq; exact E | eapply IH; eassumption].
Qed.

Lemma find_member_from_nth : forall ms k i mem,
  NoDup (map mtag ms) -> nth_error ms i = Some mem ->
  find_member_from (mtag mem) ms k = Some (k + i, mem).
Proof.
  induction ms as [|m ms IH]; intros k i mem Hnd Hn.
  - destruct i; discriminate.
  - simpl in Hnd. apply NoDup_cons_iff in Hnd. destruct Hnd as [Hni Hd]. destruct i as [|i]; simpl in *.
    + inversion Hn; subst. rewrite str_eqb_refl, Nat.add_0_r. reflexivity.
    + destruct (str_eqb (mtag m) (mtag mem)) eqn:E.
      * exfalso. apply str_eqb_eq in E. apply Hni. rewrite E. apply in_map.
        eapply nth_error_In. exact Hn.
      * rewrite (IH (S k) i mem Hd Hn), Nat.add_succ_r. reflexivity.
Qed.

Lemma find_member_nth : forall ms i mem,
  NoDup (map mtag ms) -> nth_error ms i = Some mem -> find_member (mtag mem) ms = Some (i, mem).
Proof. intros ms i mem Hnd Hn. apply (find_member_from_nth ms 0 i mem Hnd Hn). Qed.

Section ValueInd.
  Variable P : value -> Prop.
  Hypothesis Hs : forall s, P (VStr s).
  Hypothesis Hg : forall items, Forall (Forall (fun e => P (snd e))) items -> P (VGrp items).

  Fixpoint value_ind' (v : value) : P v :=
    match v with
    | VStr s => Hs s
    | VGrp items =>
        Hg items
          ((fix go (its : list (list (str * value))) : Forall (Forall (fun e => P (snd e))) its :=
              match its with
              | [] => Forall_nil _
              | it :: r =>
                  Forall_cons it
                    ((fix go2 (es : list (str * value)) : Forall (fun e => P (snd e)) es :=
                        match es with
                        | [] => Forall_nil _
                        | e :: r2 =>
                            Forall_cons e
                              (match e as e0 return P (snd e0) with (_, v') => value_ind' v' end)
                              (go2 r2)
                        end) it)
                    (go r)
              end) items)
    end.
End ValueInd.

Section GroupLoops.
  Variable rec : member -> value -> res.
  Variable ms : list member.

  (* entry e is a member of the group, at dictionary position i, and its value passes [rec] *)
  Definition found (e : str * value) (i : nat) : Prop :=
    exists mem, find_member (fst e) ms = Some (i, mem) /\ rec mem (snd e) = Ok.

  Lemma item_loop_ok : forall whole es prev first,
    item_loop rec ms whole es prev first = Ok <->
    exists idxs,
      Forall2 found es idxs /\ Forall (fun i => (prev <= Z.of_nat i)%Z) idxs /\ StronglySorted le idxs
      /\ (first = true \/ In 0 idxs) /\ check_required ms whole = Ok.
  Proof.
    intros whole es prev first. split.
    - revert prev first. induction es as [|[t v] r IH]; simpl; intros prev first H.
      + destruct first; [|discriminate]. exists [].
        split; [constructor|]. split; [constructor|]. split; [constructor|]. split; [left; reflexivity | exact H].
      + destruct (find_member t ms) as [[i mem]|] eqn:Ef; [|discriminate].
        destruct (prev >? Z.of_nat i)%Z eqn:Eg; [discriminate|].
        rewrite Z.gtb_ltb in Eg. apply Z.ltb_ge in Eg.
        destruct (rec mem v) eqn:Er; [|discriminate].
        apply IH in H. destruct H as (idxs & HF & Hp & Hs & Hf & Hq). exists (i :: idxs).
        split; [constructor; [exists mem; auto | exact HF]|].
        split; [constructor; [exact Eg|]; eapply Forall_impl; [|exact Hp]; simpl; lia|].
        split; [constructor; [exact Hs|]; eapply Forall_impl; [|exact Hp]; simpl; lia|].
        split; [|exact Hq]. destruct i; [right; left; reflexivity|].
        destruct Hf as [Hf|Hf]; [left; exact Hf | right; right; exact Hf].
    - intros (idxs & HF & Hp & Hs & Hf & Hq). revert prev first Hp Hs Hf.
      induction HF as [|[t v] i r idxs (mem & Hfm & Hr) HF IH]; simpl; intros prev first Hp Hs Hf.
      + destruct Hf as [->|[]]. exact Hq.
      + simpl in Hfm, Hr. inversion Hp as [|? ? Hpi _]; subst. apply StronglySorted_inv in Hs. destruct Hs as [Hs Hle].
        apply Z.ltb_ge in Hpi. rewrite Hfm, Z.gtb_ltb, Hpi, Hr. apply IH; [|exact Hs|].
        * eapply Forall_impl; [|exact Hle]. simpl. lia.
        * destruct i; [left; reflexivity|]. destruct Hf as [Hf|[Hf|Hf]]; [left; exact Hf | discriminate | right; exact Hf].
  Qed.

  Lemma item_loop_class : forall whole es prev first,
    (forall e mem, In e es -> ok_or_fme (rec mem (snd e))) ->
    ok_or_fme (item_loop rec ms whole es prev first).
  Proof.
    intros whole. induction es as [|[t v] r IH]; intros prev first Hrec; simpl.
    - destruct first; [apply check_required_class | right; reflexivity].
    - destruct (find_member t ms) as [[i mem]|]; [|right; reflexivity].
      destruct (prev >? Z.of_nat i)%Z; [right; reflexivity|].
      destruct (rec mem v) eqn:E.
      + apply IH. intros e0 mem0 Hin. apply Hrec. right. exact Hin.
      + rewrite <- E. apply (Hrec (t, v) mem). left. reflexivity.
  Qed.

  Lemma items_loop_eq : forall items,
    items_loop rec ms items = all_ok (fun it => item_loop rec ms it it (-1) false) items.
  Proof. induction items as [|it r IH]; simpl; [|rewrite IH]; reflexivity. Qed.

  Lemma items_loop_ok : forall items,
    items_loop rec ms items = Ok <-> forall it, In it items -> item_loop rec ms it it (-1) false = Ok.
  Proof. intro items. rewrite items_loop_eq. apply all_ok_ok. Qed.

  Lemma items_loop_class : forall items,
    (forall it e mem, In it items -> In e it -> ok_or_fme (rec mem (snd e))) ->
    ok_or_fme (items_loop rec ms items).
  Proof.
    intros items Hrec. rewrite items_loop_eq. apply all_ok_class; [left; reflexivity|].
    intros it Hit. apply item_loop_class. intros e mem He. apply (Hrec it e mem Hit He).
  Qed.
End GroupLoops.

Section Entries.
  Variable value_check : field -> str -> option exc.

  Lemma conf_entries_members : forall ms es,
    conf_entries value_check ms es ->
    forall t v, In (t, v) es -> exists mem, In mem ms /\ mtag mem = t /\ conf_member value_check mem v.
  Proof.
    intros ms es H. induction H as [|m ms es Hr H IH|m ms v es Hq H IH]; intros t v' Hin.
    - contradiction.
    - destruct (IH t v' Hin) as [mem [Hm Hx]]. exists mem. split; [right; exact Hm | exact Hx].
    - destruct Hin as [E|Hin].
      + inversion E; subst. exists m. split; [left; reflexivity | auto].
      + destruct (IH t v' Hin) as [mem [Hm Hx]]. exists mem. split; [right; exact Hm | exact Hx].
  Qed.

  Lemma conf_entries_required : forall ms es,
    conf_entries value_check ms es ->
    forall mem, In mem ms -> mreq mem = true -> In (mtag mem) (map fst es).
  Proof.
    intros ms es H. induction H as [|m ms es Hr H IH|m ms v es Hq H IH]; intros mem Hin Hreq.
    - contradiction.
    - destruct Hin as [->|Hin]; [congruence | apply IH; assumption].
    - simpl. destruct Hin as [->|Hin]; [left; reflexivity | right; apply IH; assumption].
  Qed.

  Lemma conf_item_entries : forall ms it,
    conf_item value_check ms it -> conf_entries value_check ms it.
  Proof. intros ms it H. destruct H. apply CE_take; assumption. Qed.
End Entries.

Section Align.
  Variable value_check : field -> str -> option exc.
  Variable ms : list member.
  Hypothesis Hnd : NoDup (map mtag ms).

  (* entry e holds a conforming value of the member at dictionary position i *)
  Definition at_pos (e : str * value) (i : nat) : Prop :=
    exists mem, nth_error ms i = Some mem /\ mtag mem = fst e /\ conf_member value_check mem (snd e).

  (* R is what is left of the member list from position k on *)
  Lemma align_sound : forall R k es idxs,
    skipn k ms = R -> Forall2 at_pos es idxs -> Forall (le k) idxs -> StronglySorted lt idxs ->
    (forall j mem, k <= j -> nth_error ms j = Some mem -> mreq mem = true -> In j idxs) ->
    conf_entries value_check R es.
  Proof.
    induction R as [|m R IH]; intros k es idxs HR HF Hk HS Hreq.
    - destruct HF as [|e i es idxs (mem & Hn & _) _]; [constructor|]. exfalso.
      apply Forall_inv in Hk. assert (i < length ms) by (apply nth_error_Some; congruence).
      pose proof (skipn_length k ms) as Hl. rewrite HR in Hl. simpl in Hl. lia.
    - apply skipn_cons_inv in HR. destruct HR as [Hm HR].
      (* m is passed over when every position used is behind it *)
      assert (Hskip : Forall (lt k) idxs -> conf_entries value_check (m :: R) es).
      { intro Hgt. apply CE_skip.
        - destruct (mreq m) eqn:Er; [|reflexivity]. exfalso.
          rewrite Forall_forall in Hgt. specialize (Hgt k (Hreq k m (le_n k) Hm Er)). lia.
        - apply (IH (S k) es idxs HR HF Hgt HS). intros j mem Hj. apply Hreq. lia. }
      destruct HF as [|e i es idxs (mem & Hn & Ht & Hq) HF]; [apply Hskip; constructor|].
      apply Forall_inv in Hk. apply StronglySorted_inv in HS. destruct HS as [HS Hlt].
      destruct (Nat.eq_dec i k) as [->|Hne].
      + rewrite Hm in Hn. injection Hn as <-. destruct e as [t v]. simpl in Ht, Hq. subst t.
        apply CE_take; [exact Hq|]. apply (IH (S k) es idxs HR HF Hlt HS).
        intros j mem' Hj Hn' Hr. destruct (Hreq j mem' (Nat.lt_le_incl _ _ Hj) Hn' Hr) as [E|Hin]; [lia | exact Hin].
      + apply Hskip. constructor; [lia|]. eapply Forall_impl; [|exact Hlt]. simpl. lia.
  Qed.

  Lemma align_complete : forall R es,
    conf_entries value_check R es -> forall k, skipn k ms = R ->
    exists idxs, Forall2 at_pos es idxs /\ Forall (le k) idxs /\ StronglySorted lt idxs.
  Proof.
    intros R es H. induction H as [|m R es Hr H IH|m R v es Hq H IH]; intros k HR.
    - exists []. split; [constructor|]. split; constructor.
    - apply skipn_cons_inv in HR. destruct (IH (S k) (proj2 HR)) as (idxs & HF & Hk & HS).
      exists idxs. split; [exact HF|]. split; [|exact HS]. exact (Forall_impl _ (Nat.lt_le_incl k) Hk).
    - apply skipn_cons_inv in HR. destruct HR as [Hm HR]. destruct (IH (S k) HR) as (idxs & HF & Hk & HS).
      exists (k :: idxs). split; [constructor; [exists m; auto | exact HF]|].
      split; [constructor; [apply le_n | exact (Forall_impl _ (Nat.lt_le_incl k) Hk)]|].
      constructor; [exact HS | exact Hk].
  Qed.

  (* an item conforms when its entries sit at increasing positions of the member list, the first
     member among them, and no required member is left out; the converse is
     [conf_item_positions] with [conf_entries_required] *)
  Lemma positions_conf_item : forall it idxs,
    Forall2 at_pos it idxs -> StronglySorted lt idxs -> In 0 idxs ->
    (forall mem, In mem ms -> mreq mem = true -> In (mtag mem) (map fst it)) ->
    conf_item value_check ms it.
  Proof.
    intros it idxs HF HS H0 Hreq.
    assert (He : conf_entries value_check ms it).
    { apply (align_sound ms 0 it idxs eq_refl HF); [apply Forall_forall; intros; apply Nat.le_0_l | exact HS |].
      (* a required member's tag is the key of an entry, which sits at that member's position *)
      intros j mem _ Hn Hr. specialize (Hreq mem (nth_error_In _ _ Hn) Hr). apply in_map_iff in Hreq.
      destruct Hreq as (e & Ee & Hin). destruct (Forall2_In_l _ _ _ _ _ e HF Hin) as (i & Hi & mem' & Hn' & Ht' & _).
      rewrite (NoDup_map_nth _ _ mtag ms j i mem mem' Hnd Hn Hn'); [exact Hi | congruence]. }
    (* position 0 is used: the first member is not passed over *)
    destruct (Forall2_In_r _ _ _ _ _ 0 HF H0) as ([t v] & Hin & m & Hn & Ht & _).
    destruct ms as [|m0 ms']; [discriminate|]. injection Hn as ->. simpl in Ht. subst t.
    inversion He as [|? ? ? _ He'|]; subst; [exfalso | apply CI_first; assumption].
    destruct (conf_entries_members _ _ _ He' _ v Hin) as (mem & Hm & Hmt & _).
    simpl in Hnd. apply NoDup_cons_iff in Hnd. apply (proj1 Hnd). rewrite <- Hmt. apply in_map. exact Hm.
  Qed.
End Align.

Lemma conf_item_positions : forall value_check ms it,
  conf_item value_check ms it ->
  exists idxs, Forall2 (at_pos value_check ms) it idxs /\ StronglySorted lt idxs /\ In 0 idxs.
Proof.
  intros vc ms it H. destruct H as [m ms' v es Hq He].
  destruct (align_complete vc (m :: ms') ms' es He 1 eq_refl) as (idxs & HF & Hk & HS).
  exists (0 :: idxs). split; [constructor; [exists m; auto | exact HF]|].
  split; [constructor; [exact HS | exact Hk] | left; reflexivity].
Qed.

Section Item.
  Variable value_check : field -> str -> option exc.
  Variable rec : member -> value -> res.
  Variable ms : list member.
  Hypothesis Hnd : NoDup (map mtag ms).

  (* distinct keys sit at distinct positions *)
  Lemma strictly_sorted : forall es idxs,
    Forall2 (at_pos value_check ms) es idxs -> NoDup (map fst es) -> StronglySorted le idxs ->
    StronglySorted lt idxs.
  Proof.
    intros es idxs HF. induction HF as [|e i es idxs Hat HF IH]; intros Hk Hs; [constructor|].
    simpl in Hk. apply NoDup_cons_iff in Hk. destruct Hk as [Hnotin Hk].
    apply StronglySorted_inv in Hs. destruct Hs as [Hs Hle].
    constructor; [apply IH; assumption|]. rewrite Forall_forall in *. intros j Hj.
    specialize (Hle j Hj). assert (j <> i); [|lia]. intros ->.
    destruct (Forall2_In_r _ _ _ _ _ i HF Hj) as (e' & He' & mem' & Hn' & Ht' & _).
    destruct Hat as (mem & Hn0 & Ht0 & _). rewrite Hn0 in Hn'. injection Hn' as <-.
    apply Hnotin. rewrite <- Ht0, Ht'. apply in_map. exact He'.
  Qed.

  Lemma item_sound : forall it,
    NoDup (map fst it) ->
    (forall e mem, In e it -> In mem ms -> rec mem (snd e) = Ok -> conf_member value_check mem (snd e)) ->
    item_loop rec ms it it (-1) false = Ok -> conf_item value_check ms it.
  Proof.
    intros it Hk Hrec H. apply item_loop_ok in H.
    destruct H as (idxs & HF & _ & Hle & [Hf|H0] & Hreq); [discriminate|].
    assert (HF0 : Forall2 (at_pos value_check ms) it idxs).
    { eapply Forall2_impl_In; [|exact HF]. intros e i He (mem & Hfind & Hr).
      apply find_member_spec in Hfind. destruct Hfind as [Hnth Ht].
      exists mem. split; [exact Hnth|]. split; [exact Ht|].
      apply Hrec; [exact He | eapply nth_error_In; exact Hnth | exact Hr]. }
    rewrite check_required_ok in Hreq.
    apply (positions_conf_item value_check ms Hnd it idxs HF0 (strictly_sorted it idxs HF0 Hk Hle) H0).
    intros mem Hin Hr. apply present_keys. apply Hreq; assumption.
  Qed.

  Lemma item_complete : forall it,
    (forall e mem, In e it -> In mem ms -> conf_member value_check mem (snd e) -> rec mem (snd e) = Ok) ->
    conf_item value_check ms it -> item_loop rec ms it it (-1) false = Ok.
  Proof.
    intros it Hrec H. destruct (conf_item_positions _ _ it H) as (idxs & HF & HS & H0).
    apply item_loop_ok. exists idxs.
    split.
    { eapply Forall2_impl_In; [|exact HF]. intros e i Hin (mem & Hn & Ht & Hc).
      exists mem. split; [rewrite <- Ht; apply find_member_nth; assumption|].
      apply Hrec; [exact Hin | eapply nth_error_In; exact Hn | exact Hc]. }
    split; [apply Forall_forall; intros; lia|].
    split; [apply sorted_lt_le; exact HS|].
    split; [right; exact H0|].
    apply check_required_ok. intros mem Hin Hr. apply present_keys.
    apply (conf_entries_required value_check ms it (conf_item_entries _ _ _ H) mem Hin Hr).
  Qed.
End Item.

Section Members.
  Variable value_check : field -> str -> option exc.
  Variable Sc : schema.

  Lemma wf_member_group : forall f r ms,
    wf_member Sc (MGroup f r ms) = true ->
    NoDup (map mtag ms) /\ (forall mem, In mem ms -> wf_member Sc mem = true).
  Proof.
    intros f r ms H. simpl in H. apply andb_true_iff in H. destruct H as [_ H].
    apply andb_true_iff in H. destruct H as [H1 H2]. split.
    - apply nodupb_NoDup. exact H1.
    - rewrite forallb_forall in H2. exact H2.
  Qed.

  Lemma validate_member_sound : forall v mem,
    value_keys_unique v = true -> wf_member Sc mem = true ->
    validate_member value_check mem v = Ok -> conf_member value_check mem v.
  Proof.
    induction v as [s|items IH] using value_ind'; intros mem Hu Hwf H.
    - destruct mem as [f r|f r ms]; simpl in H; [|discriminate].
      constructor. unfold check_value in H. destruct (value_check f s); [discriminate | reflexivity].
    - destruct mem as [f r|f r ms]; simpl in H; [discriminate|].
      apply wf_member_group in Hwf. destruct Hwf as [Hnd Hwf].
      constructor. rewrite items_loop_ok in H.
      simpl in Hu. rewrite forallb_forall in Hu.
      rewrite Forall_forall in *. intros it Hit.
      specialize (H it Hit). specialize (IH it Hit). specialize (Hu it Hit).
      apply andb_true_iff in Hu. destruct Hu as [Hk Hue].
      apply nodupb_NoDup in Hk. rewrite forallb_forall in Hue. rewrite Forall_forall in IH.
      apply (item_sound value_check (validate_member value_check) ms Hnd it Hk); [|exact H].
      intros e mem He Hmem Hr. apply (IH e He); [apply Hue; exact He | apply Hwf; exact Hmem | exact Hr].
  Qed.

  Lemma validate_member_complete : forall v mem,
    wf_member Sc mem = true ->
    conf_member value_check mem v -> validate_member value_check mem v = Ok.
  Proof.
    induction v as [s|items IH] using value_ind'; intros mem Hwf H.
    - inversion H as [f r s' Hv|]; subst. simpl. unfold check_value. rewrite Hv. reflexivity.
    - inversion H as [|f r ms items' Hitems]; subst. simpl.
      apply wf_member_group in Hwf. destruct Hwf as [Hnd Hwf].
      apply items_loop_ok. rewrite Forall_forall in *. intros it Hit.
      specialize (IH it Hit). specialize (Hitems it Hit). rewrite Forall_forall in IH.
      apply (item_complete value_check (validate_member value_check) ms Hnd it); [|exact Hitems].
      intros e mem He Hmem Hc. apply (IH e He); [apply Hwf; exact Hmem | exact Hc].
  Qed.

  Fixpoint value_strs (v : value) : list str :=
    match v with
    | VStr s => [s]
    | VGrp items => flat_map (fun it => flat_map (fun e => value_strs (snd e)) it) items
    end.

  Lemma validate_member_class : forall v mem,
    (forall f s e, In s (value_strs v) -> value_check f s = Some e -> e = EFIXMessage) ->
    ok_or_fme (validate_member value_check mem v).
  Proof.
    induction v as [s|items IH] using value_ind'; intros mem Hc.
    - destruct mem as [f r|f r ms]; simpl; [|right; reflexivity].
      unfold check_value. destruct (value_check f s) eqn:E; [|left; reflexivity].
      right. f_equal. apply (Hc f s); [left; reflexivity | exact E].
    - destruct mem as [f r|f r ms]; simpl; [right; reflexivity|].
      apply items_loop_class. intros it e mem Hit He. rewrite Forall_forall in IH. specialize (IH it Hit).
      rewrite Forall_forall in IH. apply (IH e He). intros f0 s0 e0 Hin. apply Hc.
      simpl. apply in_flat_map. exists it. split; [exact Hit|].
      apply in_flat_map. exists e. split; [exact He | exact Hin].
  Qed.
End Members.

Lemma field_eqb_eq : forall a b, field_eqb a b = true -> a = b.
Proof.
  intros [ta na ya ea] [tb nb yb eb] H. unfold field_eqb in H. simpl in H.
  apply andb_true_iff in H. destruct H as [H He].
  apply andb_true_iff in H. destruct H as [H Hy].
  apply andb_true_iff in H. destruct H as [Ht Hn].
  apply str_eqb_eq in Ht. apply N.eqb_eq in Hn, Hy. apply Bool.eqb_prop in He. congruence.
Qed.

Lemma wf_member_known : forall Sc mem, wf_member Sc mem = true -> In (mfield mem) (s_fields Sc).
Proof.
  intros Sc mem H. assert (Hk : known Sc (mfield mem) = true).
  { destruct mem; simpl in H; apply andb_true_iff in H; apply H. }
  apply existsb_exists in Hk. destruct Hk as [g [Hg E]]. apply field_eqb_eq in E. subst. exact Hg.
Qed.

(* SchemaSet.__contains__ followed by __getitem__, header first: one search through both sets *)
Lemma find_app_contains : forall (A : Type) (p : A -> bool) h M,
  (if existsb p h then find p h else if negb (existsb p M) then None else find p M) = find p (h ++ M).
Proof.
  intros A p h M. induction h as [|a h IH]; simpl.
  - induction M as [|a M IH]; simpl; [reflexivity|]. destruct (p a); [reflexivity | exact IH].
  - destruct (p a); [reflexivity | exact IH].
Qed.

Section Top.
  Variable value_check : field -> str -> option exc.
  Variable Sc : schema.
  Variable M : list member.
  Hypothesis Hft : NoDup (map f_tag (s_fields Sc)).
  Hypothesis Hfn : NoDup (map f_name (s_fields Sc)).
  Hypothesis Hset : wf_set Sc (s_header Sc ++ M) = true.

  Lemma set_nodup : NoDup (map mtag (s_header Sc ++ M)).
  Proof. unfold wf_set in Hset. apply andb_true_iff in Hset. apply nodupb_NoDup. apply Hset. Qed.

  Lemma set_wf_member : forall mem, In mem (s_header Sc ++ M) -> wf_member Sc mem = true.
  Proof.
    unfold wf_set in Hset. apply andb_true_iff in Hset. destruct Hset as [_ H].
    rewrite forallb_forall in H. exact H.
  Qed.

  Lemma name_determines : forall mem fld,
    In mem (s_header Sc ++ M) -> In fld (s_fields Sc) -> name_is fld mem = true -> mfield mem = fld.
  Proof.
    intros mem fld Hm Hf Hn. unfold name_is in Hn. apply N.eqb_eq in Hn.
    apply (NoDup_map_inj f_name (s_fields Sc)); [exact Hfn | | exact Hf | exact Hn].
    apply wf_member_known. apply set_wf_member. exact Hm.
  Qed.

  (* the tag names a field of the table, the field's name a member of the two sets *)
  Lemma member_for_spec : forall t mem,
    member_for Sc M t = Some mem <-> In mem (s_header Sc ++ M) /\ mtag mem = t.
  Proof.
    intros t mem. unfold member_for, tag2field, set_contains, set_get. split.
    - destruct (find (fun f => str_eqb (f_tag f) t) (s_fields Sc)) as [fld|] eqn:Ef; [|discriminate].
      rewrite find_app_contains. intro H.
      apply find_some in Ef. destruct Ef as [Hfld Et]. apply str_eqb_eq in Et.
      apply find_some in H. destruct H as [Hin Hn]. split; [exact Hin|].
      unfold mtag. rewrite (name_determines mem fld Hin Hfld Hn). exact Et.
    - intros [Hin <-].
      assert (HF : In (mfield mem) (s_fields Sc)) by (apply wf_member_known, set_wf_member; exact Hin).
      rewrite (find_unique _ _ f_tag _ _ (mfield mem) Hft HF).
      + rewrite find_app_contains. apply (find_unique _ _ mtag _ _ mem set_nodup Hin).
        * apply N.eqb_refl.
        * intros b Hb Hn. unfold mtag. rewrite (name_determines b (mfield mem) Hb HF Hn). reflexivity.
      + apply str_eqb_refl.
      + intros b _ Hb. apply str_eqb_eq. exact Hb.
  Qed.

  Definition body_step (e : str * value) : res :=
    if str_eqb (fst e) TAG10 then Ok
    else match member_for Sc M (fst e) with
         | None => Exc EFIXMessage
         | Some mem => validate_member value_check mem (snd e)
         end.

  Lemma body_loop_eq : forall es, body_loop value_check Sc M es = all_ok body_step es.
  Proof.
    induction es as [|[t v] r IH]; simpl; [reflexivity|]. rewrite IH. unfold body_step. simpl.
    destruct (str_eqb t TAG10); [reflexivity|]. destruct (member_for Sc M t); reflexivity.
  Qed.

  Lemma body_loop_ok : forall es,
    body_loop value_check Sc M es = Ok <->
    (forall t v, In (t, v) es -> t <> TAG10 ->
       exists mem, member_for Sc M t = Some mem /\ validate_member value_check mem v = Ok).
  Proof.
    intro es. rewrite body_loop_eq, all_ok_ok. unfold body_step. split.
    - intros H t v Hin Hne. specialize (H _ Hin). simpl in H.
      rewrite (proj2 (str_eqb_neq _ _) Hne) in H.
      destruct (member_for Sc M t) as [mem|]; [|discriminate]. exists mem. auto.
    - intros H [t v] Hin. simpl. destruct (str_eqb t TAG10) eqn:E; [reflexivity|].
      apply str_eqb_neq in E. destruct (H t v Hin E) as (mem & -> & Hv). exact Hv.
  Qed.

  Lemma body_loop_class : forall es,
    (forall f s e, In s (flat_map (fun e => value_strs (snd e)) es) -> value_check f s = Some e -> e = EFIXMessage) ->
    ok_or_fme (body_loop value_check Sc M es).
  Proof.
    intros es Hc. rewrite body_loop_eq. apply all_ok_class; [left; reflexivity|].
    intros [t v] Hin. unfold body_step. simpl.
    destruct (str_eqb t TAG10); [left; reflexivity|].
    destruct (member_for Sc M t) as [mem|]; [|right; reflexivity].
    apply validate_member_class. intros f s e Hs. apply Hc. apply in_flat_map. exists (t, v). auto.
  Qed.
End Top.

Section Header.
  Variable value_check : field -> str -> option exc.

  Definition header_step (c : container) (m : member) : res :=
    if mreq m then
      if negb (has_tag (mtag m) c) then Exc EFIXMessage
      else match m with
           | MField f _ =>
               match get_tag (f_tag f) c with
               | Some (VStr s) => check_value value_check f s
               | _ => Exc EFIXMessage
               end
           | MGroup _ _ _ => Ok
           end
    else Ok.

  Lemma header_loop_eq : forall hs c,
    validate_header_loop value_check hs c = all_ok (header_step c) hs.
  Proof.
    induction hs as [|m hs IH]; intro c; simpl; [reflexivity|]. rewrite IH. unfold header_step.
    destruct (mreq m); [|reflexivity]. destruct (negb (has_tag (mtag m) c)); [reflexivity|].
    destruct m as [f r|f r sub]; [|reflexivity].
    destruct (get_tag (f_tag f) c) as [[s|items]|]; reflexivity.
  Qed.

  (* a required header member is present and, if plain, holds an accepted string *)
  Definition header_member_ok (c : container) (m : member) : Prop :=
    present (mtag m) c /\
    match m with
    | MField f _ => exists s, get_tag (f_tag f) c = Some (VStr s) /\ value_check f s = None
    | MGroup _ _ _ => True
    end.

  Lemma header_loop_ok : forall hs c,
    validate_header_loop value_check hs c = Ok <->
    (forall m, In m hs -> mreq m = true -> header_member_ok c m).
  Proof.
    intros hs c. rewrite header_loop_eq, all_ok_ok.
    assert (Hstep : forall m, header_step c m = Ok <-> (mreq m = true -> header_member_ok c m)).
    { intro m. unfold header_step, header_member_ok. rewrite <- has_tag_present.
      destruct (mreq m); [|split; [discriminate | reflexivity]].
      destruct (has_tag (mtag m) c); simpl;
        [|split; [discriminate | intro H; destruct (H eq_refl) as [E _]; discriminate]].
      destruct m as [f r|f r sub]; [|split; auto].
      unfold check_value. destruct (get_tag (f_tag f) c) as [[s|items]|].
      - destruct (value_check f s) eqn:Ev.
        + split; [discriminate|]. intro H. destruct (H eq_refl) as [_ (s' & [= <-] & Hv)]. congruence.
        + split; [|reflexivity]. intros _ _. split; [reflexivity|]. exists s. auto.
      - split; [discriminate|]. intro H. destruct (H eq_refl) as [_ (s' & E & _)]. discriminate.
      - split; [discriminate|]. intro H. destruct (H eq_refl) as [_ (s' & E & _)]. discriminate. }
    split; intros H m Hin; apply Hstep, H, Hin.
  Qed.

  Lemma header_loop_class : forall hs c,
    (forall f s e t, In (t, VStr s) c -> value_check f s = Some e -> e = EFIXMessage) ->
    ok_or_fme (validate_header_loop value_check hs c).
  Proof.
    intros hs c Hc. rewrite header_loop_eq. apply all_ok_class; [left; reflexivity|].
    intros m _. unfold header_step. destruct (mreq m); [|left; reflexivity].
    destruct (negb (has_tag (mtag m) c)); [right; reflexivity|].
    destruct m as [f r|f r sub]; [|left; reflexivity].
    destruct (get_tag (f_tag f) c) as [[s|items]|] eqn:Eg; try (right; reflexivity).
    unfold check_value. destruct (value_check f s) eqn:Ev; [|left; reflexivity].
    right. f_equal. apply (Hc f s e (f_tag f)); [apply get_tag_In; exact Eg | exact Ev].
  Qed.
End Header.

Definition msg_strs (m : message) : list str := flat_map (fun e => value_strs (snd e)) (tags m).

Section Main.
  Variable value_check : field -> str -> option exc.
  Variable Sc : schema.
  Hypothesis Hwf : wf_schema Sc = true.

  Lemma wf_parts :
    NoDup (map f_tag (s_fields Sc)) /\ NoDup (map f_name (s_fields Sc))
    /\ NoDup (map fst (s_messages Sc))
    /\ (forall m, In m (s_header Sc) -> mtag m <> TAG10)
    /\ (forall mt M, In (mt, M) (s_messages Sc) -> wf_set Sc (s_header Sc ++ M) = true).
  Proof.
    unfold wf_schema in Hwf.
    rewrite !andb_true_iff, !nodupb_NoDup, nodupN_NoDup, negb_true_iff, <- not_true_iff_false,
      (existsb_eqb_map _ _ str_eqb_eq), forallb_forall in Hwf.
    destruct Hwf as [[[[H1 H2] H3] H4] H5]. repeat split; try assumption.
    - intros m Hin E. apply H4. rewrite <- E. apply in_map. exact Hin.
    - intros mt M Hin. apply (H5 (mt, M) Hin).
  Qed.

  Theorem validate_sound : forall m,
    keys_unique (tags m) = true ->
    validate value_check Sc m = Ok -> conforms value_check Sc m.
  Proof.
    intros m Hu H. destruct wf_parts as [Hft [Hfn [Hmt [H10 Hsets]]]].
    unfold validate in H.
    destruct (find_message Sc (msg_type m)) as [M|] eqn:Ef; [|discriminate].
    apply (alookup_In _ _ str_eqb_eq) in Ef. specialize (Hsets _ _ Ef).
    destruct (check_required M (tags m)) eqn:Er; [|discriminate].
    destruct (if has_tag TAG8 (tags m) then validate_header_loop value_check (s_header Sc) (tags m) else Ok)
      eqn:Eh; [|discriminate].
    exists M. split; [exact Ef|].
    split; [apply check_required_ok; exact Er|].
    split.
    - intros Hp mem Hin Hr. apply has_tag_present in Hp. rewrite Hp in Eh.
      rewrite header_loop_ok in Eh. apply (Eh mem Hin Hr).
    - intros t v Hin Hne.
      destruct (proj1 (body_loop_ok value_check Sc M (tags m)) H t v Hin Hne) as [mem [Hm Hv]].
      apply (member_for_spec Sc M Hft Hfn Hsets) in Hm. destruct Hm as [Hmem Ht].
      exists mem. split; [exact Hmem|]. split; [exact Ht|].
      apply (validate_member_sound value_check Sc); [| apply (set_wf_member Sc M Hsets); exact Hmem | exact Hv].
      unfold keys_unique in Hu. apply andb_true_iff in Hu. destruct Hu as [_ Hu].
      rewrite forallb_forall in Hu. apply (Hu (t, v) Hin).
  Qed.

  Theorem validate_complete : forall m,
    conforms value_check Sc m -> validate value_check Sc m = Ok.
  Proof.
    intros m [M [HinM [Hreq [Hhdr Hent]]]]. destruct wf_parts as [Hft [Hfn [Hmt [H10 Hsets]]]].
    specialize (Hsets _ _ HinM).
    unfold validate.
    rewrite (In_alookup _ _ str_eqb_eq _ _ _ M Hmt HinM : find_message Sc (msg_type m) = Some M).
    rewrite (proj2 (check_required_ok M (tags m)) Hreq).
    assert (Hh : (if has_tag TAG8 (tags m) then validate_header_loop value_check (s_header Sc) (tags m) else Ok) = Ok).
    { destruct (has_tag TAG8 (tags m)) eqn:E8; [|reflexivity].
      apply header_loop_ok. intros mem Hin Hr.
      assert (Hp : present (mtag mem) (tags m)).
      { apply Hhdr; [apply has_tag_present; exact E8 | exact Hin | exact Hr]. }
      split; [exact Hp|]. destruct mem as [f r|f r sub]; [|exact I].
      (* the entry under the member's tag conforms to the one member with that tag *)
      destruct (present_get _ _ Hp) as [v Hg]. unfold mtag in Hg. simpl in Hg.
      destruct (Hent (f_tag f) v (get_tag_In _ _ _ Hg) (H10 _ Hin)) as [mem' [Hin' [Ht' Hc']]].
      assert (mem' = MField f r) as ->.
      { apply (NoDup_map_inj mtag (s_header Sc ++ M));
          [apply (set_nodup Sc M Hsets) | exact Hin' | apply in_or_app; left; exact Hin | exact Ht']. }
      inversion Hc'; subst. exists s. auto. }
    rewrite Hh. apply (body_loop_ok value_check Sc M).
    intros t v Hin Hne. destruct (Hent t v Hin Hne) as [mem [Hmem [Ht Hc]]].
    exists mem. split.
    - apply (member_for_spec Sc M Hft Hfn Hsets). auto.
    - apply (validate_member_complete value_check Sc); [apply (set_wf_member Sc M Hsets); exact Hmem | exact Hc].
  Qed.
End Main.

(* no well-formedness needed for the exception class *)
Theorem validate_class : forall value_check Sc m,
  (forall f s e, In s (msg_strs m) -> value_check f s = Some e -> e = EFIXMessage) ->
  validate value_check Sc m = Ok \/ validate value_check Sc m = Exc EFIXMessage.
Proof.
  intros vc Sc m Hc. unfold validate.
  destruct (find_message Sc (msg_type m)) as [M|]; [|right; reflexivity].
  destruct (check_required_class M (tags m)) as [-> | ->]; [|right; reflexivity].
  assert (Hh : ok_or_fme (if has_tag TAG8 (tags m) then validate_header_loop vc (s_header Sc) (tags m) else Ok)).
  { destruct (has_tag TAG8 (tags m)); [|left; reflexivity]. apply header_loop_class.
    intros f s e t Hin. apply Hc. unfold msg_strs. apply in_flat_map.
    exists (t, VStr s). split; [exact Hin | left; reflexivity]. }
  destruct Hh as [-> | ->]; [|right; reflexivity].
  apply body_loop_class. exact Hc.
Qed.

Lemma not_in_remove_tag : forall t c, ~ In t (map fst (remove_tag t c)).
Proof.
  intros t c H. apply in_map_iff in H. destruct H as [[t' v] [E Hin]]. simpl in E. subst t'.
  unfold remove_tag in Hin. apply filter_In in Hin. destruct Hin as [_ Hn]. simpl in Hn.
  rewrite str_eqb_refl in Hn. discriminate.
Qed.

Lemma In_remove_tag : forall t t' (v : value) c, In (t', v) c -> t' <> t -> In (t', v) (remove_tag t c).
Proof.
  intros t t' v c Hin Hne. unfold remove_tag. apply filter_In. split; [exact Hin|]. simpl.
  apply negb_true_iff. apply str_eqb_neq. exact Hne.
Qed.

Lemma In_insert_at : forall n (e : str * value) c, In e (insert_at n e c).
Proof. intros. unfold insert_at. apply in_or_app. right. left. reflexivity. Qed.

Lemma In_set_value : forall t v c, In t (map fst c) -> In (t, v) (set_value t v c).
Proof.
  intros t v c H. apply in_map_iff in H. destruct H as [[t' v'] [E Hin]]. simpl in E. subst t'.
  unfold set_value. apply in_map_iff. exists (t, v'). split; [|exact Hin]. simpl.
  rewrite str_eqb_refl. reflexivity.
Qed.

Lemma sorted_adjacent : forall ia i1 i2 ib, StronglySorted lt (ia ++ i1 :: i2 :: ib) -> i1 < i2.
Proof.
  induction ia as [|x ia IH]; intros i1 i2 ib H; simpl in H; apply StronglySorted_inv in H.
  - apply (Forall_inv (proj2 H)).
  - apply (IH _ _ _ (proj1 H)).
Qed.

(* in a conforming item two neighbours sit at increasing positions of the member list *)
Lemma conf_item_adjacent : forall value_check ms a e1 e2 b,
  conf_item value_check ms (a ++ e1 :: e2 :: b) ->
  exists i1 i2 m1 m2, i1 < i2 /\ nth_error ms i1 = Some m1 /\ mtag m1 = fst e1
                      /\ nth_error ms i2 = Some m2 /\ mtag m2 = fst e2.
Proof.
  intros vc ms a e1 e2 b H. destruct (conf_item_positions _ _ _ H) as (idxs & HF & HS & _).
  apply Forall2_app_inv_l in HF. destruct HF as (ia & ir & _ & HF & ->).
  inversion HF as [|? i1 ? ir' (m1 & Hn1 & Ht1 & _) HF']; subst.
  inversion HF' as [|? i2 ? ib (m2 & Hn2 & Ht2 & _) _]; subst.
  exists i1, i2, m1, m2. split; [eapply sorted_adjacent; exact HS | auto].
Qed.

Lemma message_type_unique : forall Sc, wf_schema Sc = true -> forall mt M M',
  In (mt, M) (s_messages Sc) -> In (mt, M') (s_messages Sc) -> M' = M.
Proof.
  intros Sc Hwf mt M M' H1 H2. destruct (wf_parts Sc Hwf) as [_ [_ [Hmt _]]].
  apply (f_equal snd (NoDup_map_inj fst _ _ _ Hmt H2 H1 eq_refl)).
Qed.

Local Open Scope N_scope.

(* [wf_schema] looks every member's field up by a linear search through the field table and tests
   duplicate-freeness by comparing all pairs: on a dictionary of 900 fields and 12000 members that
   is millions of string comparisons.  [wf_schema_ix] is the same check with the field table held
   in a binary trie keyed by name code, and duplicates found by inserting numeric codes of the keys
   into such a trie; it implies [wf_schema] and is what gets evaluated. *)
Inductive trie (A : Type) := Leaf | Node (l : trie A) (o : option A) (r : trie A).
Arguments Leaf {A}.
Arguments Node {A}.

Fixpoint tget {A} (t : trie A) (p : positive) : option A :=
  match t with
  | Leaf => None
  | Node l o r => match p with xH => o | xO q => tget l q | xI q => tget r q end
  end.

Fixpoint tset {A} (p : positive) (a : A) (t : trie A) : trie A :=
  let '(l, o, r) := match t with Leaf => (Leaf, None, Leaf) | Node l o r => (l, o, r) end in
  match p with
  | xH => Node l (Some a) r
  | xO q => Node (tset q a l) o r
  | xI q => Node l o (tset q a r)
  end.

Lemma tget_tset : forall A p q (a : A) t,
  tget (tset p a t) q = if Pos.eqb p q then Some a else tget t q.
Proof. induction p; destruct q, t; simpl; rewrite ?IHp; reflexivity. Qed.

Section Distinct.
  Variables (A : Type) (key : A -> positive).

  Fixpoint distinct (seen : trie unit) (l : list A) : bool :=
    match l with
    | [] => true
    | a :: r => match tget seen (key a) with
                | Some _ => false
                | None => distinct (tset (key a) tt seen) r
                end
    end.

  (* [key] need not be injective: elements with different keys are different *)
  Lemma distinct_NoDup : forall l seen,
    distinct seen l = true -> NoDup l /\ forall a, In a l -> tget seen (key a) = None.
  Proof.
    induction l as [|a l IH]; intros seen H; simpl in H.
    - split; [constructor | intros a []].
    - destruct (tget seen (key a)) eqn:E; [discriminate|]. apply IH in H. destruct H as [Hnd Hs].
      split.
      + constructor; [|exact Hnd]. intro Hin. apply Hs in Hin.
        rewrite tget_tset, Pos.eqb_refl in Hin. discriminate.
      + intros b [<-|Hin]; [exact E|]. apply Hs in Hin. rewrite tget_tset in Hin.
        destruct (Pos.eqb (key a) (key b)); [discriminate | exact Hin].
  Qed.
End Distinct.

Definition ncode (n : N) : positive := N.succ_pos n.
Lemma ncode_eqb : forall a b, Pos.eqb (ncode a) (ncode b) = N.eqb a b.
Proof.
  intros a b. destruct (N.eqb_spec a b) as [->|Hne]; [apply Pos.eqb_refl|].
  apply Pos.eqb_neq. intro E. apply Hne. rewrite <- (N.pos_pred_succ a), <- (N.pos_pred_succ b).
  unfold ncode in E. rewrite E. reflexivity.
Qed.

Definition scode (s : str) : positive := ncode (fold_left (fun a c => 256 * a + c) s 0).

Lemma distinct_nodupb : forall l, distinct str scode Leaf l = true -> nodupb l = true.
Proof. intros l H. apply nodupb_NoDup. apply (distinct_NoDup _ _ _ _ H). Qed.

Section MemberInd.
  Variable P : member -> Prop.
  Hypothesis Hf : forall f r, P (MField f r).
  Hypothesis Hg : forall f r ms, Forall P ms -> P (MGroup f r ms).

  Fixpoint member_ind' (m : member) : P m :=
    match m with
    | MField f r => Hf f r
    | MGroup f r ms =>
        Hg f r ms ((fix go (l : list member) : Forall P l :=
                      match l with
                      | [] => Forall_nil _
                      | x :: l' => Forall_cons x (member_ind' x) (go l')
                      end) ms)
    end.
End MemberInd.

(* the field table by name code; of two fields with one name the later is kept *)
Definition index_from (t : trie field) (fs : list field) : trie field :=
  fold_left (fun t f => tset (ncode (f_name f)) f t) fs t.
Definition index : list field -> trie field := index_from Leaf.

Lemma index_In : forall fs p f, tget (index fs) p = Some f -> In f fs.
Proof.
  assert (H : forall fs t p f, tget (index_from t fs) p = Some f -> In f fs \/ tget t p = Some f).
  { induction fs as [|g fs IH]; simpl; intros t p f H; [right; exact H|].
    apply IH in H. rewrite tget_tset in H.
    destruct H as [H|H]; [left; right; exact H|].
    destruct (Pos.eqb (ncode (f_name g)) p); [left; left; congruence | right; exact H]. }
  intros fs p f Hf. destruct (H fs Leaf p f Hf) as [Hin|E]; [exact Hin | discriminate].
Qed.

Section WfIx.
  Variable Sc : schema.
  Variable ix : trie field.
  Hypothesis Hix : forall p f, tget ix p = Some f -> In f (s_fields Sc).

  Definition known_ix (f : field) : bool :=
    match tget ix (ncode (f_name f)) with Some g => field_eqb f g | None => false end.

  Fixpoint wf_member_ix (m : member) : bool :=
    known_ix (mfield m) &&
    match m with
    | MField _ _ => true
    | MGroup _ _ ms => distinct str scode Leaf (map mtag ms) && forallb wf_member_ix ms
    end.

  Lemma known_ix_ok : forall f, known_ix f = true -> known Sc f = true.
  Proof.
    intros f H. unfold known_ix in H. destruct (tget ix (ncode (f_name f))) as [g|] eqn:E; [|discriminate].
    apply existsb_exists. exists g. split; [apply (Hix _ _ E) | exact H].
  Qed.

  Lemma wf_member_ix_ok : forall m, wf_member_ix m = true -> wf_member Sc m = true.
  Proof.
    induction m as [f r|f r ms IH] using member_ind'; simpl; intro H;
      apply andb_true_iff in H; destruct H as [Hk H]; rewrite (known_ix_ok _ Hk); [reflexivity|].
    apply andb_true_iff in H. destruct H as [Hd Hms]. rewrite (distinct_nodupb _ Hd). simpl.
    apply forallb_forall. intros m Hm. rewrite Forall_forall in IH. apply (IH m Hm).
    rewrite forallb_forall in Hms. apply (Hms m Hm).
  Qed.
End WfIx.

Definition wf_schema_ix (Sc : schema) : bool :=
  let ix := index (s_fields Sc) in
  distinct str scode Leaf (map f_tag (s_fields Sc)) && distinct N ncode Leaf (map f_name (s_fields Sc))
  && distinct str scode Leaf (map fst (s_messages Sc))
  && negb (existsb (fun m => str_eqb (mtag m) TAG10) (s_header Sc))
  && forallb (wf_member_ix ix) (s_header Sc)
  && forallb (fun p => distinct str scode Leaf (map mtag (s_header Sc ++ snd p))
                       && forallb (wf_member_ix ix) (snd p)) (s_messages Sc).

Lemma wf_schema_ix_ok : forall Sc, wf_schema_ix Sc = true -> wf_schema Sc = true.
Proof.
  intros Sc H. unfold wf_schema_ix in H. cbv zeta in H.
  rewrite !andb_true_iff in H. destruct H as [[[[[H1 H2] H3] H4] H5] H6].
  assert (Hm : forall ms, forallb (wf_member_ix (index (s_fields Sc))) ms = true ->
                          forallb (wf_member Sc) ms = true).
  { intros ms Hms. apply forallb_forall. intros m Hin. rewrite forallb_forall in Hms.
    apply (wf_member_ix_ok Sc _ (index_In _)), Hms, Hin. }
  unfold wf_schema. rewrite (distinct_nodupb _ H1), (distinct_nodupb _ H3), H4.
  rewrite (proj2 (nodupN_NoDup _) (proj1 (distinct_NoDup _ _ _ _ H2))). simpl.
  apply forallb_forall. intros p Hp. rewrite forallb_forall in H6. specialize (H6 p Hp).
  apply andb_true_iff in H6. destruct H6 as [Hd Hms].
  unfold wf_set. rewrite (distinct_nodupb _ Hd), forallb_app, (Hm _ H5), (Hm _ Hms). reflexivity.
Qed.

Lemma fix44_wf : wf_schema GenSchema.FIX44.schema = true.
Proof. apply wf_schema_ix_ok. vm_compute. reflexivity. Qed.

Lemma tt_wf : wf_schema GenSchema.TT.schema = true.
Proof. apply wf_schema_ix_ok. vm_compute. reflexivity. Qed.

Definition T (n : N) : str := n_to_dec n.
Definition accept_all : field -> str -> option exc := fun _ _ => None.

(* NewOrderList (E) with NoOrders > NoPartyIDs > NoPartySubIDs: nesting depth 3 *)
Definition ex_item : container :=
  [(T 11, VStr [99; 49]); (T 67, VStr [49]);
   (T 453, VGrp [[(T 448, VStr [112]); (T 447, VStr [68]); (T 452, VStr [49]);
                  (T 802, VGrp [[(T 523, VStr [120]); (T 803, VStr [49])]])]]);
   (T 55, VStr [88]); (T 54, VStr [49])].
Definition ex_head : container := [(T 66, VStr [76; 49]); (T 394, VStr [49]); (T 68, VStr [49])].
Definition ex_msg : message := mkMsg [69] (ex_head ++ [(T 73, VGrp [ex_item])]).

(* [ex_item] with the depth-3 item (NoPartySubIDs) lacking its first member PartySubID *)
Definition ex_item_bad_depth3 : container :=
  [(T 11, VStr [99; 49]); (T 67, VStr [49]);
   (T 453, VGrp [[(T 448, VStr [112]); (T 447, VStr [68]); (T 452, VStr [49]);
                  (T 802, VGrp [[(T 803, VStr [49])]])]]);
   (T 55, VStr [88]); (T 54, VStr [49])].

(* an optional header member with a refused value is checked even without BeginString *)
Definition refuse_43 : field -> str -> option exc :=
  fun f _ => if str_eqb (f_tag f) (T 43) then Some EFIXMessage else None.

(* the unique-keys hypothesis of soundness is needed: on a list with a repeated key (which an
   OrderedDict cannot hold) the order test `prev_tag > ord_idx` lets the repetition through *)
Definition toy_a : field := mkField (T 1) 0 0 false.
Definition toy_g : field := mkField (T 2) 1 1 false.
Definition toy_schema : schema :=
  mkSchema [toy_a; toy_g] [] [([88], [MGroup toy_g false [MField toy_a true]])].
Definition toy_dup : message :=
  mkMsg [88] [(T 2, VGrp [[(T 1, VStr [97]); (T 1, VStr [97])]])].
Lemma ex_unique_keys_needed :
  exists Sc m, wf_schema Sc = true /\ validate accept_all Sc m = Ok /\ ~ conforms accept_all Sc m.
Proof.
  exists toy_schema, toy_dup. split; [vm_compute; reflexivity|]. split; [vm_compute; reflexivity|].
  intros [M [HinM [_ [_ Hent]]]]. simpl in HinM. destruct HinM as [E|[]]. inversion E; subst M.
  destruct (Hent (T 2) (VGrp [[(T 1, VStr [97]); (T 1, VStr [97])]]) (or_introl eq_refl))
    as [mem [Hin [_ Hc]]].
  { vm_compute. discriminate. }
  simpl in Hin. destruct Hin as [<-|[]].
  inversion Hc as [|? ? ? ? Hall]; subst. inversion Hall as [|? ? Hit _]; subst.
  inversion Hit as [? ? ? ? _ He]; subst. inversion He.
Qed.
