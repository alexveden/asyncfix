(* C02: under the forced hypotheses (BeginString a proper field value, MsgType not empty), every frame
   the encoder returns as bytes, and every byte string send_msg hands to the transport, is accepted by
   the independent reference framer of Fix/Framing.v. *)
From Coq Require Import ZArith NArith List Bool Lia.
From AF Require Import Base.Sx Py.Str Py.Utf8 Fix.Codec Fix.Framing Lemmas.StrB.
Import ListNotations.
Open Scope N_scope.

(* Framing.ascii_digit has the body of Py.Str.is_digit *)
Lemma ascii_digit_range c : ascii_digit c = true <-> 48 <= c <= 57.
Proof. exact (is_digit_range c). Qed.

Lemma dec_value_dval ds a : dec_value_from a ds = dval ds a.
Proof. revert a. induction ds as [|d ds IH]; intros a; [reflexivity|]. apply IH. Qed.

Lemma n_to_dec_value n : dec_value (n_to_dec n) = n.
Proof. unfold dec_value. rewrite dec_value_dval. apply n_to_dec_spec. Qed.

Lemma sum_codes_byte_sum s : sum_codes s = byte_sum s.
Proof. induction s as [|c s IH]; [reflexivity|]. rewrite sum_codes_cons, IH. reflexivity. Qed.

Lemma expect_app p s : expect p (p ++ s) = Some s.
Proof. induction p as [|x p IH]; [destruct s; reflexivity|]. cbn. rewrite N.eqb_refl. exact IH. Qed.

Lemma expect_inv p : forall s r, expect p s = Some r -> s = p ++ r.
Proof.
  induction p as [|x p IH]; intros s r H.
  - destruct s; cbn in H; inversion H; reflexivity.
  - destruct s as [|y s]; cbn in H; [discriminate|].
    destruct (N.eqb x y) eqn:E; [|discriminate]. apply N.eqb_eq in E. subst y.
    cbn. f_equal. now apply IH.
Qed.

Lemma take_field_app a r : ~ In 1 a -> take_field (a ++ 1 :: r) = Some (a, r).
Proof.
  induction a as [|c a IH]; intros H; [reflexivity|]. cbn [app take_field].
  destruct (N.eqb c 1) eqn:E.
  - apply N.eqb_eq in E. subst c. exfalso. apply H. now left.
  - rewrite IH; [reflexivity|]. intros F. apply H. now right.
Qed.

Lemma take_field_inv : forall s v r, take_field s = Some (v, r) -> s = v ++ 1 :: r /\ ~ In 1 v.
Proof.
  induction s as [|c s IH]; intros v r H; [discriminate|]. cbn [take_field] in H.
  destruct (N.eqb c 1) eqn:E.
  - apply N.eqb_eq in E. subst c. inversion H. subst. split; [reflexivity|]. intros [].
  - destruct (take_field s) as [[v' r']|] eqn:T; [|discriminate]. inversion H. subst.
    destruct (IH _ _ eq_refl) as [-> N1]. split; [reflexivity|].
    intros [F|F]; [subst c; discriminate|auto].
Qed.

Lemma ends_with_soh_app a : ends_with_soh (a ++ [1]) = true.
Proof.
  induction a as [|c a IH]; [reflexivity|]. cbn [app ends_with_soh].
  destruct (a ++ [1]) eqn:E; [destruct a; discriminate|]. exact IH.
Qed.

Lemma ends_with_soh_inv s : ends_with_soh s = true -> exists b0, s = b0 ++ [1].
Proof.
  induction s as [|c s IH]; [discriminate|]. cbn [ends_with_soh].
  destruct s as [|c' s].
  - intros H. apply N.eqb_eq in H. subst. now exists [].
  - intros H. destruct (IH H) as [b0 E]. exists (c :: b0). rewrite E. reflexivity.
Qed.

Lemma forallb_is_byte s : forallb is_byte s = true <-> Forall (fun c => c < 256) s.
Proof. apply forallb_Forall. intros c. apply N.ltb_lt. Qed.

Lemma forallb_digit ds : forallb ascii_digit ds = true <-> Forall (fun c => 48 <= c <= 57) ds.
Proof. apply forallb_Forall, ascii_digit_range. Qed.

Lemma nonempty_true s : nonempty s = true <-> s <> [].
Proof. destruct s; cbn; split; congruence. Qed.

Lemma body_ok_iff body : body_ok body = true <->
  (exists c rest, body = L35 ++ c :: rest /\ c <> 1) /\ exists b0, body = b0 ++ [1].
Proof.
  unfold body_ok. split.
  - destruct (expect L35 body) as [[|c rest]|] eqn:E; try discriminate. apply expect_inv in E.
    rewrite andb_true_iff, negb_true_iff, N.eqb_neq. intros [Hc He].
    split; [eauto|apply ends_with_soh_inv, He].
  - intros [(c & rest & -> & Hc) [b0 E]]. rewrite expect_app, E, ends_with_soh_app.
    apply N.eqb_neq in Hc. rewrite Hc. reflexivity.
Qed.

Lemma trailer_ok_iff cks t : trailer_ok cks t = true <->
  exists d1 d2 d3, t = [49; 48; 61; d1; d2; d3; 1]
    /\ 48 <= d1 <= 57 /\ 48 <= d2 <= 57 /\ 48 <= d3 <= 57
    /\ 100 * (d1 - 48) + 10 * (d2 - 48) + (d3 - 48) = cks.
Proof.
  unfold trailer_ok. split.
  - destruct t as [|c1 [|c0 [|ce [|d1 [|d2 [|d3 [|z [|]]]]]]]]; try discriminate.
    rewrite !andb_true_iff, !N.eqb_eq, !ascii_digit_range.
    intros [[[[[[[-> ->] ->] ->] D1] D2] D3] Hck]. eauto 10.
  - intros (d1 & d2 & d3 & -> & D1 & D2 & D3 & Hck).
    rewrite !andb_true_iff, !N.eqb_eq, !ascii_digit_range. tauto.
Qed.

Lemma well_framedb_iff s : well_framedb s = true <-> well_framed s.
Proof.
  unfold well_framedb. split.
  - rewrite andb_true_iff, forallb_is_byte. intros [Hb H].
    destruct (expect L8 s) as [s1|] eqn:E1; [|discriminate]. apply expect_inv in E1.
    destruct (take_field s1) as [[bsv s2]|] eqn:E2; [|discriminate]. apply take_field_inv in E2 as [E2 Hsoh].
    destruct (expect L9 s2) as [s3|] eqn:E3; [|now rewrite andb_false_r in H]. apply expect_inv in E3.
    destruct (take_field s3) as [[ds s4]|] eqn:E4; [|now rewrite andb_false_r in H].
    apply take_field_inv in E4 as [E4 _].
    cbv zeta in H.
    rewrite !andb_true_iff, !nonempty_true, forallb_digit, N.leb_le, body_ok_iff, trailer_ok_iff in H.
    destruct H as [Hbs [[Hds Hdig] [Hle [[Hty Hend] (d1 & d2 & d3 & Etr & D1 & D2 & D3 & Hck)]]]].
    exists bsv, ds, (firstn (N.to_nat (dec_value ds)) s4), d1, d2, d3.
    repeat (split; [try assumption|]); [| |exact Hck].
    + rewrite E1, E2, E3, E4 at 1. cbn [app]. rewrite <- Etr, firstn_skipn. reflexivity.
    + rewrite firstn_length_le by lia. lia.
  - intros (bsv & ds & body & d1 & d2 & d3 & -> & Hb & Hbs & Hsoh & Hds & Hdig & Hlen & Hty & Hend
            & D1 & D2 & D3 & Hck).
    rewrite (proj2 (forallb_is_byte _) Hb), expect_app. cbn [andb app].
    rewrite (take_field_app _ _ Hsoh), (proj2 (nonempty_true _) Hbs), expect_app.
    rewrite take_field_app by (intros F; rewrite Forall_forall in Hdig; specialize (Hdig 1 F); lia).
    rewrite (proj2 (nonempty_true _) Hds), (proj2 (forallb_digit _) Hdig), Hlen, Nat2N.id.
    rewrite firstn_exact, skipn_exact, (proj2 (body_ok_iff _) (conj Hty Hend)).
    rewrite (proj2 (trailer_ok_iff _ _)) by eauto 10.
    rewrite (proj2 (N.leb_le _ _)) by (rewrite app_length; lia). reflexivity.
Qed.

Lemma select_seq_prints_int m sess raw seq s' :
  select_seq m sess raw = Ok (seq, s') -> exists z, seq = z_to_dec z.
Proof.
  assert (A : (do z <- seq_of_msg (msg_tags m); Ok (z_to_dec z, sess)) = Ok (seq, s') ->
              exists z, seq = z_to_dec z).
  { destruct (seq_of_msg (msg_tags m)) as [z|]; [|discriminate]. intros H. inversion H. eauto. }
  unfold select_seq. destruct raw; [exact A|].
  destruct (str_eqb (msg_type m) MT_SEQRESET).
  - destruct (ct_mem T34 (msg_tags m)); [exact A|discriminate].
  - destruct (match ct_get T43 (msg_tags m) with None => Ok Nn | Some _ => ct_getitem T43 (msg_tags m) end)
      as [pd|]; [|discriminate].
    cbn [bind]. destruct (str_eqb pd Y).
    + destruct (ct_mem T34 (msg_tags m)); [exact A|discriminate].
    + intros H. inversion H. eauto.
Qed.

(* the frame is the SOH-terminated list of its fields; BodyLength counts the fields from MsgType to
   the last body field, CheckSum sums everything before it *)
Lemma encode_shape bs m sess t raw frame sess' :
  encode bs m sess t raw = Ok (frame, sess') ->
  exists seq rest, select_seq m sess raw = Ok (seq, sess') /\ render_body (msg_tags m) = Ok rest /\
    let body := field T35 (msg_type m) :: field T49 (sender sess) :: field T56 (target sess)
                :: field T34 seq :: field T52 t :: rest in
    let head := [field T8 bs; field T9 (n_to_dec (N.of_nat (length (flat body))))] in
    frame = flat (head ++ body ++ [field T10 (fmt03 (sum_codes (flat (head ++ body)) mod 256))]).
Proof.
  unfold encode. destruct (select_seq m sess raw) as [[seq s']|e]; [|discriminate]. cbn [bind].
  destruct (render_body (msg_tags m)) as [rest|e]; [|discriminate]. cbn [bind]. intros H.
  assert (s' = sess') by (inversion H; reflexivity). subst s'.
  apply (f_equal (fun r => match r with Ok (f, _) => f | Exc _ => [] end)) in H.
  cbv beta iota zeta in H. subst frame. exists seq, rest. split; [reflexivity|]. split; [reflexivity|]. cbv zeta.
  set (mt := field T35 (msg_type m)). set (fields := field T49 _ :: _).
  unfold checksum, SOHs.
  rewrite (join_flat fields) by discriminate.
  replace (length (flat fields) + length mt + 1)%nat with (length (flat (mt :: fields)))
    by (rewrite flat_cons, app_length; cbn [length]; lia).
  set (f9 := field T9 _).
  replace (join [1] [field T8 bs; f9; mt] ++ [1] ++ flat fields) with (flat ([field T8 bs; f9] ++ mt :: fields))
    by (cbn [app join]; rewrite !flat_cons; repeat (rewrite <- ?app_assoc; cbn [app]); reflexivity).
  rewrite (app_assoc _ (mt :: fields)), (flat_app (_ ++ _)), (flat_cons _ []). reflexivity.
Qed.

Definition str_bytes (s : str) : bool := forallb is_byte s.

(* a predicate on tags and one on value texts, lifted to nested containers *)
Section ValueAll.
  Variables Pt Pv : str -> bool.
  Fixpoint value_all (v : value) : bool :=
    match v with
    | VStr s => Pv s
    | VErr => true
    | VGrp items =>
        forallb (forallb (fun kv : str * value => let (k, w) := kv in Pt k && value_all w)) items
    end.
  Definition container_all (c : container) : bool :=
    forallb (fun kv : str * value => let (k, w) := kv in Pt k && value_all w) c.
End ValueAll.

Definition value_bytes : value -> bool := value_all str_bytes str_bytes.
Definition container_bytes : container -> bool := container_all str_bytes str_bytes.

Definition inputs_bytes (bs : str) (m : message) (sess : session) (t : str) : bool :=
  str_bytes bs && str_bytes (msg_type m) && str_bytes (sender sess) && str_bytes (target sess)
  && str_bytes t && container_bytes (msg_tags m).

(* the common shape of inputs_bytes and inputs_fields_ok: a predicate on tags, one on the characters of
   every other piece of text *)
Definition inputs_all (Pt : str -> bool) (pv : N -> bool) (bs : str) (m : message) (sess : session) (t : str) : bool :=
  forallb pv bs && forallb pv (msg_type m) && forallb pv (sender sess) && forallb pv (target sess)
  && forallb pv t && container_all Pt (forallb pv) (msg_tags m).

Lemma inputs_bytes_all bs m sess t : inputs_bytes bs m sess t = inputs_all str_bytes is_byte bs m sess t.
Proof. reflexivity. Qed.

Section value_ind2.
  Variable P : value -> Prop.
  Hypothesis HS : forall s, P (VStr s).
  Hypothesis HE : P VErr.
  Hypothesis HG : forall items, Forall (Forall (fun kv : str * value => P (snd kv))) items -> P (VGrp items).
  Fixpoint value_ind2 (v : value) : P v :=
    match v with
    | VStr s => HS s
    | VErr => HE
    | VGrp items =>
        HG items
          ((fix go (its : list (list (str * value))) : Forall (Forall (fun kv => P (snd kv))) its :=
              match its with
              | [] => Forall_nil _
              | it :: r =>
                  Forall_cons it
                    ((fix go2 (it : list (str * value)) : Forall (fun kv => P (snd kv)) it :=
                        match it with
                        | [] => Forall_nil _
                        | kv :: r2 => Forall_cons kv (value_ind2 (snd kv)) (go2 r2)
                        end) it)
                    (go r)
              end) items)
    end.
End value_ind2.

(* A loop `go` that renders the elements of a list one after the other and concatenates the results.
   Codec.render_value has two of them as local fixpoints (over the items of a group, over the entries of
   an item): they can only be spoken of through their two equations. *)
Lemma concat_loop_all {A} (f : A -> result (list str)) (go : list A -> result (list str)) (Pf : str -> Prop) :
  go [] = Ok [] -> (forall x r, go (x :: r) = (do a <- f x; do b <- go r; Ok (a ++ b))) ->
  forall l, Forall (fun x => forall fs, f x = Ok fs -> Forall Pf fs) l ->
  forall fs, go l = Ok fs -> Forall Pf fs.
Proof.
  intros H0 HS. induction 1 as [|x l Hx _ IH]; intros fs H.
  - rewrite H0 in H. injection H as <-. constructor.
  - rewrite HS in H. destruct (f x) as [a|]; [|discriminate]. destruct (go l) as [b|]; [|discriminate].
    injection H as <-. apply Forall_app. split; [apply Hx|apply IH]; reflexivity.
Qed.

(* If every tag satisfies Pt and every character of every value pv, where pv holds of "-" and of the
   digits, and Pf holds of a field made of such a tag and value, then Pf holds of every field of the
   frame. *)
Section FieldsAll.
  Variable Pt : str -> bool.
  Variable pv : N -> bool.
  Variable Pf : str -> Prop.
  Hypothesis Hfield : forall t v, Pt t = true -> forallb pv v = true -> Pf (field t v).
  Hypothesis Hsign : pv 45 = true.
  Hypothesis Hdigit : forall c, 48 <= c <= 57 -> pv c = true.
  Hypothesis Htags : forallb Pt [T8; T9; T35; T49; T56; T34; T52; T10] = true.

  Lemma render_value_all v : forall t fs,
    render_value t v = Ok fs -> Pt t = true -> value_all Pt (forallb pv) v = true -> Forall Pf fs.
  Proof.
    induction v as [s| |items IH] using value_ind2; intros t fs H Ht Hv.
    - injection H as <-. constructor; [now apply Hfield|constructor].
    - discriminate.
    - cbn [render_value] in H. cbn [value_all] in Hv. rewrite forallb_forall in Hv. rewrite Forall_forall in IH.
      match type of H with bind (?F items) _ = _ => destruct (F items) as [fs'|] eqn:Eg; [|discriminate] end.
      injection H as <-.
      constructor; [apply Hfield; [exact Ht|apply digits_forallb, n_to_dec_range; exact Hdigit]|].
      revert fs' Eg. eapply concat_loop_all; [reflexivity|intros x r; reflexivity|].
      apply Forall_forall. intros it Hit. specialize (IH it Hit). specialize (Hv it Hit).
      rewrite forallb_forall in Hv. rewrite Forall_forall in IH.
      apply (concat_loop_all (fun kv => render_value (fst kv) (snd kv))); [reflexivity|intros [k w] r; reflexivity|].
      apply Forall_forall. intros [k w] Hkw fs Hr. specialize (Hv _ Hkw). apply andb_true_iff in Hv as [Hk Hw].
      exact (IH _ Hkw k fs Hr Hk Hw).
  Qed.

  Lemma render_body_all c : forall fs,
    render_body c = Ok fs -> container_all Pt (forallb pv) c = true -> Forall Pf fs.
  Proof.
    induction c as [|[k w] c IH]; intros fs H Hb.
    - injection H as <-. constructor.
    - cbn [render_body] in H. unfold container_all in Hb. cbn [forallb] in Hb.
      rewrite !andb_true_iff in Hb. destruct Hb as [[Hk Hw] Hc].
      destruct (mem_str k skip_tags); [now apply IH|].
      destruct (render_value k w) as [a|] eqn:Ea; [|discriminate].
      destruct (render_body c) as [b|]; [|discriminate].
      injection H as <-. apply Forall_app. split; [exact (render_value_all w k a Ea Hk Hw)|now apply IH].
  Qed.

  Lemma encode_fields_all bs m sess t raw frame sess' :
    encode bs m sess t raw = Ok (frame, sess') -> inputs_all Pt pv bs m sess t = true ->
    exists fs, frame = flat fs /\ Forall Pf fs.
  Proof.
    intros He Hin. destruct (encode_shape _ _ _ _ _ _ _ He) as (seq & rest & Es & Er & ->).
    apply select_seq_prints_int in Es as [z ->].
    unfold inputs_all in Hin. rewrite !andb_true_iff in Hin. destruct Hin as [[[[[Hbs Hmt] Hsn] Htg] Ht] Hc].
    cbn [forallb] in Htags. rewrite !andb_true_iff in Htags.
    destruct Htags as (H8 & H9 & H35 & H49 & H56 & H34 & H52 & H10 & _).
    eexists. split; [reflexivity|]. cbn [app].
    constructor; [now apply Hfield|].
    constructor; [apply Hfield; [exact H9|apply digits_forallb, n_to_dec_range; exact Hdigit]|].
    constructor; [now apply Hfield|]. constructor; [now apply Hfield|]. constructor; [now apply Hfield|].
    constructor; [apply Hfield; [exact H34|now apply z_to_dec_forallb]|].
    constructor; [now apply Hfield|].
    apply Forall_app. split; [exact (render_body_all _ _ Er Hc)|].
    constructor; [|constructor]. apply Hfield; [exact H10|].
    apply digits_forallb, fmt03_range. exact Hdigit.
  Qed.
End FieldsAll.

Definition starts_printable (mt : str) : bool :=
  match mt with c :: _ => negb (N.eqb c 1) | [] => false end.
Definition soh_free (s : str) : bool := forallb (fun c => negb (N.eqb c 1)) s.

(* soh_free is StrB.cfreeb 1 *)
Lemma soh_free_not_in s : soh_free s = true -> ~ In 1 s.
Proof. exact (proj1 (cfreeb_spec 1 s)). Qed.

(* what the encoder computes: reading its text as bytes gives a well-formed frame, provided only
   that BeginString is a proper field value, MsgType is not empty, and the text is bytes *)
Lemma encode_well_framed_bytes bs m sess t raw frame sess' :
  encode bs m sess t raw = Ok (frame, sess') ->
  nonempty bs = true -> soh_free bs = true -> starts_printable (msg_type m) = true ->
  forallb is_byte frame = true ->
  well_framedb frame = true.
Proof.
  intros He Hbs Hsoh Hmt Hb. apply well_framedb_iff.
  destruct (encode_shape _ _ _ _ _ _ _ He) as (seq & rest & _ & _ & Ef). cbv zeta in Ef.
  set (body := field T35 (msg_type m) :: _) in Ef. set (ds := n_to_dec _) in Ef.
  set (ck := sum_codes _ mod 256) in Ef.
  destruct (fmt03_digits ck) as (d1 & d2 & d3 & E3 & D1 & D2 & D3 & Hv); [apply N.mod_lt; discriminate|].
  assert (Eh : forall x, flat ([field T8 bs; field T9 ds] ++ x) = L8 ++ bs ++ [1] ++ L9 ++ ds ++ [1] ++ flat x).
  { intros x. cbn [app]. rewrite !flat_cons. unfold field. rewrite <- !app_assoc. reflexivity. }
  exists bs, ds, (flat body), d1, d2, d3.
  split. { rewrite Ef, Eh, flat_app, (flat_cons _ []), E3. reflexivity. }
  split; [now apply forallb_is_byte|]. split; [now apply nonempty_true|]. split; [now apply soh_free_not_in|].
  split; [apply n_to_dec_spec|]. split; [apply n_to_dec_range|]. split; [apply n_to_dec_value|].
  split.
  { destruct (msg_type m) as [|c mt]; [discriminate|]. apply negb_true_iff, N.eqb_neq in Hmt.
    exists c, (mt ++ 1 :: flat (tl body)). split; [|exact Hmt].
    unfold body. rewrite flat_cons. reflexivity. }
  split; [exists (join [1] body); symmetry; apply join_flat; discriminate|].
  repeat (split; [assumption|]). rewrite Hv. unfold ck. rewrite Eh, sum_codes_byte_sum. reflexivity.
Qed.

Lemma is_byte_digit c : 48 <= c <= 57 -> is_byte c = true.
Proof. intros H. apply N.ltb_lt. lia. Qed.

Lemma field_bytes t v : str_bytes t = true -> str_bytes v = true -> str_bytes (field t v) = true.
Proof. unfold str_bytes, field. intros A B. rewrite forallb_app, A. exact B. Qed.

Lemma seq_of_msg_dec c z : seq_of_msg c = Ok z -> str_bytes (z_to_dec z) = true.
Proof. intros _. apply z_to_dec_forallb; [reflexivity|exact is_byte_digit]. Qed.

Lemma encode_bytes bs m sess t raw frame sess' :
  encode bs m sess t raw = Ok (frame, sess') ->
  inputs_bytes bs m sess t = true -> forallb is_byte frame = true.
Proof.
  intros He Hin. rewrite inputs_bytes_all in Hin.
  destruct (encode_fields_all str_bytes is_byte (fun f => str_bytes f = true) field_bytes eq_refl
              is_byte_digit eq_refl _ _ _ _ _ _ _ He Hin) as (fs & -> & H).
  now apply flat_forallb.
Qed.

Lemma encode_well_framed bs m sess t raw frame sess' :
  encode bs m sess t raw = Ok (frame, sess') ->
  nonempty bs = true -> soh_free bs = true -> starts_printable (msg_type m) = true ->
  inputs_bytes bs m sess t = true ->
  exists w, wire frame = Some w /\ well_framedb w = true.
Proof.
  intros He Hbs Hsoh Hmt Hin. pose proof (encode_bytes _ _ _ _ _ _ _ He Hin) as Hb.
  exists frame. split.
  - unfold wire, latin1. unfold is_byte in Hb. now rewrite Hb.
  - now apply (encode_well_framed_bytes bs m sess t raw frame sess').
Qed.

Lemma wire_some frame w : wire frame = Some w -> w = frame /\ forallb is_byte frame = true.
Proof.
  unfold wire, latin1, is_byte. destruct (forallb _ frame); [|discriminate].
  intros H. inversion H. auto.
Qed.

Definition tag_okb (t : str) : bool :=
  match t with
  | c :: t' => negb (N.eqb c 1) && negb (N.eqb c 61) && soh_free t'
  | [] => false
  end.

(* tags are non-empty, SOH-free and do not start with "="; every other piece of text is SOH-free *)
Definition inputs_fields_ok (bs : str) (m : message) (sess : session) (t : str) : bool :=
  soh_free bs && soh_free (msg_type m) && soh_free (sender sess) && soh_free (target sess)
  && soh_free t && container_all tag_okb soh_free (msg_tags m).

Lemma inputs_fields_ok_all bs m sess t :
  inputs_fields_ok bs m sess t = inputs_all tag_okb (fun c => negb (N.eqb c 1)) bs m sess t.
Proof. reflexivity. Qed.

Definition fld_okb (f : str) : bool :=
  match f with
  | c :: w => negb (N.eqb c 1) && negb (N.eqb c 61) && soh_free w && existsb (N.eqb 61) w
  | [] => false
  end.

Lemma field_fld_ok t v : tag_okb t = true -> soh_free v = true -> fld_okb (field t v) = true.
Proof.
  unfold tag_okb, field. destruct t as [|c t']; [discriminate|]. rewrite !andb_true_iff.
  intros [[A B] C] D. cbn [app fld_okb]. rewrite A, B. unfold soh_free in *.
  rewrite forallb_app, C, existsb_app. cbn [forallb existsb]. rewrite D. cbn. apply orb_true_r.
Qed.

Lemma scan_value v rest : soh_free v = true ->
  fields_scan InValue (v ++ 1 :: rest) = fields_scan AtStart rest.
Proof.
  induction v as [|c v IH]; [reflexivity|]. cbn [soh_free forallb]. rewrite andb_true_iff.
  intros [A B]. cbn [app fields_scan]. apply negb_true_iff in A. rewrite A. now apply IH.
Qed.

Lemma scan_tag w rest : soh_free w = true -> existsb (N.eqb 61) w = true ->
  fields_scan InTag (w ++ 1 :: rest) = fields_scan AtStart rest.
Proof.
  induction w as [|c w IH]; [discriminate|]. cbn [soh_free forallb existsb]. rewrite andb_true_iff.
  intros [A B] E. cbn [app fields_scan]. apply negb_true_iff in A. rewrite A.
  destruct (N.eqb c 61) eqn:E61.
  - now apply scan_value.
  - rewrite N.eqb_sym, E61 in E. now apply IH.
Qed.

Lemma scan_flat fs : Forall (fun f => fld_okb f = true) fs -> fields_scan AtStart (flat fs) = true.
Proof.
  induction 1 as [|f fs Hf _ IH]; [reflexivity|]. rewrite flat_cons.
  destruct f as [|c w]; [discriminate|]. cbn [fld_okb] in Hf. rewrite !andb_true_iff in Hf.
  destruct Hf as [[[A B] C] D]. cbn [app fields_scan]. apply negb_true_iff in A, B. rewrite A, B.
  cbn [orb]. rewrite scan_tag by assumption. exact IH.
Qed.

Lemma not_soh_digit c : 48 <= c <= 57 -> negb (N.eqb c 1) = true.
Proof. intros H. apply negb_true_iff, N.eqb_neq. lia. Qed.

Lemma encode_fields_scan bs m sess t raw frame sess' :
  encode bs m sess t raw = Ok (frame, sess') ->
  inputs_fields_ok bs m sess t = true -> fields_scan AtStart frame = true.
Proof.
  intros He Hin. rewrite inputs_fields_ok_all in Hin.
  destruct (encode_fields_all tag_okb (fun c => negb (N.eqb c 1)) (fun f => fld_okb f = true) field_fld_ok eq_refl
              not_soh_digit eq_refl _ _ _ _ _ _ _ He Hin) as (fs & -> & H).
  now apply scan_flat.
Qed.

Lemma encode_well_framed_fields bs m sess t raw frame sess' :
  encode bs m sess t raw = Ok (frame, sess') ->
  nonempty bs = true -> nonempty (msg_type m) = true ->
  inputs_bytes bs m sess t = true -> inputs_fields_ok bs m sess t = true ->
  exists w, wire frame = Some w /\ well_framed_fieldsb w = true.
Proof.
  intros He Hbs Hmt Hb Hf.
  assert (Hsoh : soh_free bs = true /\ soh_free (msg_type m) = true).
  { unfold inputs_fields_ok in Hf. rewrite !andb_true_iff in Hf. tauto. }
  destruct Hsoh as [Hs1 Hs2].
  assert (Hsp : starts_printable (msg_type m) = true).
  { destruct (msg_type m) as [|c r]; [discriminate|]. cbn [soh_free forallb] in Hs2.
    apply andb_true_iff in Hs2. cbn. tauto. }
  destruct (encode_well_framed _ _ _ _ _ _ _ He Hbs Hs1 Hsp Hb) as (w & Hw & Hwf).
  exists w. split; [exact Hw|]. unfold well_framed_fieldsb. rewrite Hwf. cbn [andb].
  apply wire_some in Hw. destruct Hw as [-> _]. eapply encode_fields_scan; eauto.
Qed.

Definition FIX44 : str := [70; 73; 88; 46; 52; 46; 52].
Definition ex_sess : session := mkSession [83] [84] 5%Z.                  (* S -> T, next 5 *)
Definition ex_time : str := [50; 48; 50; 51; 48; 57; 49; 57; 45; 48; 55; 58; 49; 51; 58; 50; 54; 46; 56; 48; 56].

(* AllocationInstruction with NoAllocs -> NoNestedPartyIDs -> NoNestedPartySubIDs, two items *)
Definition ex_nested : message :=
  mkMsg [74]
    [([55; 48], VStr [97; 49]);
     ([55; 56], VGrp [[([55; 57], VStr [65]); ([56; 48], VStr [49]);
                       ([53; 51; 57], VGrp [[([53; 50; 52], VStr [80]);
                                             ([56; 48; 52], VGrp [[([53; 52; 53], VStr [115]); ([56; 48; 53], VStr [49])]])]])];
                      [([55; 57], VStr [66; 233]); ([56; 48], VStr [50])]])].

(* SOH inside a value does not disturb the length-delimited grammar *)
Definition ex_soh_value : message := mkMsg [68] [([53; 56], VStr [104; 1; 49; 48; 61; 1])].
(* forced hypothesis "MsgType is not empty": without it the encoder emits an ill-formed frame *)
Definition ex_empty_type : message := mkMsg [] [([53; 56], VStr [104; 105])].
(* the repaired defect D9: transmitting the same text as UTF-8 (what send_msg did before) gives a
   frame whose BodyLength and CheckSum are wrong as soon as one code point is >= 128 *)
Definition ex_latin : message := mkMsg [68] [([53; 56], VStr [104; 233])].
(* a code point above 255 is refused at the transport *)
Definition ex_wide : message := mkMsg [68] [([53; 56], VStr [104; 8364])].
