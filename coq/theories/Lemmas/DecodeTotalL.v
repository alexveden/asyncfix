(* C10: totality, consumed length, acceptance and progress of the decoder model (Fix/Codec.v),
   for arbitrary input. *)
From Coq Require Import ZArith NArith List Bool Lia.
From AF Require Import Base.Sx Py.Str Fix.Codec Lemmas.StrB.
From AFGen Require Import GenGroups.
Import ListNotations.
Open Scope N_scope.

(* offset of the next marker after the first one (or the end) ... *)
Definition dec_next0 (msg : str) : nat :=
  match find_sub MARK (skipn 5 msg) with
  | Some k => (k + 5)%nat
  | None => length msg
  end.

(* ... moved back to the end of the first CheckSum field, when there is one: where the frame
   text is cut *)
Definition dec_next (msg : str) : nat := cut_at_checksum msg (dec_next0 msg).

(* the slice of raw that decode treats as the frame, given the marker offset i *)
Definition dec_encoded (i : nat) (raw : str) : str :=
  firstn (dec_next (skipn i raw)) (skipn i raw).

Definition strip_last_empty (fs : list str) : list str :=
  match rev fs with
  | [] :: r => rev r
  | _ => fs
  end.

(* its SOH-separated fields (a trailing empty piece dropped) *)
Definition dec_fields (i : nat) (raw : str) : list str :=
  strip_last_empty (split_on 1 (dec_encoded i raw)).

Definition dec_ck (fs : list str) : N := (sum_codes (join SOHs (removelast fs)) + 1) mod 256.

Definition frame_fields (raw : str) : list str :=
  match find_sub MARK raw with
  | Some i => dec_fields i raw
  | None => []
  end.

(* another marker follows the first one *)
Definition has_next (msg : str) : bool :=
  match find_sub MARK (skipn 5 msg) with Some _ => true | None => false end.

(* junk before the marker plus the frame candidate: what a rejection / acceptance consumes *)
Definition frame_len (i : nat) (raw : str) : Z := (Z.of_nat i + Z.of_nat (dec_next (skipn i raw)))%Z.

Definition dst_init : dst := mkD [] [] UNKNOWN false.

Definition bad_res (silent : bool) (n : Z) : result dres := if silent then Ok (None, n, None) else Exc EAssertion.

(* what decode does with the field list of its candidate; valid_idx, has_next, frame_len, encoded come from the framing part *)
Definition decode_fields (G : group_table) (beginstring : str) (silent : bool) (rawlen : Z) (valid_idx : nat)
  (has_next : bool) (frame_len : Z) (encoded : str) (fields : list str) : result dres :=
  match fields with
  | f0 :: f1 :: _ :: _ =>
      match split1 61 f0 with
      | (_, None) => Exc EValue
      | (_, Some v0) =>
          if negb (str_eqb v0 beginstring) then bad_res silent frame_len
          else
            match split1 61 f1 with
            | (_, None) => bad_res silent frame_len
            | (tag1, Some v1) =>
                if negb (str_eqb tag1 T9) then bad_res silent frame_len
                else
                  match py_int v1 with
                  | None => bad_res silent frame_len
                  | Some bl =>
                     if (bl <? 0)%Z then bad_res silent frame_len else
                      let msg_length := (zlen f0 + zlen f1 + 9 + bl)%Z in
                      if (rawlen - Z.of_nat valid_idx <? msg_length)%Z then bad_res silent (Z.of_nat valid_idx)
                      else
                        let ck_expect := ((sum_codes (join SOHs (removelast fields)) + 1) mod 256) in
                        match fields_loop G ck_expect (mkD [] [] UNKNOWN false) fields with
                        | FExc e => Exc e
                        | FReturnBad => bad_res silent frame_len
                        | FCont st =>
                            if d_ck st then Ok (Some (mkMsg (d_type st) (d_root st)), frame_len, Some encoded)
                            else bad_res silent frame_len
                        end
                  end
            end
      end
  | _ => if has_next then bad_res silent frame_len else bad_res silent (Z.of_nat valid_idx)
  end.

(* decode = the framing part (marker search, cut at the CheckSum field) followed by decode_fields *)
Lemma decode_eq G bs raw silent :
  decode G bs raw silent =
  match find_sub MARK raw with
  | None => bad_res silent (zlen raw - Z.of_nat (marker_tail raw))%Z
  | Some i =>
      decode_fields G bs silent (zlen raw) i (has_next (skipn i raw)) (frame_len i raw) (dec_encoded i raw) (dec_fields i raw)
  end.
Proof. reflexivity. Qed.


Lemma ct_get_put q t v c : ct_get q (ct_put t v c) = if str_eqb t q then Some v else ct_get q c.
Proof.
  induction c as [|[k w] c IH]; cbn [ct_put ct_get]; [reflexivity|].
  destruct (str_eqb k t) eqn:E; cbn [ct_get].
  - apply str_eqb_eq in E. subst k. destruct (str_eqb t q); reflexivity.
  - rewrite IH. destruct (str_eqb k q) eqn:E2; [|reflexivity].
    apply str_eqb_eq in E2. subst k. now rewrite (str_eqb_sym t q), E.
Qed.

Lemma ct_mem_put q t v c : ct_mem q (ct_put t v c) = str_eqb t q || ct_mem q c.
Proof. unfold ct_mem. rewrite ct_get_put. destruct (str_eqb t q); reflexivity. Qed.

Lemma ct_set_ok t v c : py_int t <> None -> ct_mem t c = false -> ct_set t v c = Ok (ct_put t (VStr v) c).
Proof. intros Hi Hm. unfold ct_set. destruct (py_int t); [|congruence]. now rewrite Hm. Qed.

(* a computation that does not raise, and whose result satisfies P *)
Definition returns {A} (P : A -> Prop) (r : result A) : Prop :=
  match r with Ok a => P a | Exc _ => False end.

Section Total.
Variable G : group_table.

Definition is_group (t : str) : Prop := lookup_group G t <> None.

(* keys that are group tags hold group values: add_group on them cannot fail *)
Definition grp_ok (c : container) : Prop :=
  forall k v, is_group k -> ct_get k c = Some v -> exists items, v = VGrp items.

Lemma grp_ok_nil : grp_ok [].
Proof. intros k v _ H. discriminate. Qed.

Lemma grp_ok_put_grp t its c : grp_ok c -> grp_ok (ct_put t (VGrp its) c).
Proof.
  intros H k v Hk. rewrite ct_get_put. destruct (str_eqb t k); [|now apply H].
  intros E. inversion E. eauto.
Qed.

Lemma grp_ok_put_plain t v c : lookup_group G t = None -> grp_ok c -> grp_ok (ct_put t v c).
Proof.
  intros Ht H k w Hk. rewrite ct_get_put. destruct (str_eqb t k) eqn:E; [|now apply H].
  apply str_eqb_eq in E. subst k. contradiction.
Qed.

Lemma ct_add_group_ok t item c : grp_ok c -> is_group t -> returns grp_ok (ct_add_group t item c).
Proof.
  intros Hc Ht. unfold ct_add_group. destruct (ct_get t c) as [v|] eqn:E; [|now apply grp_ok_put_grp].
  destruct (Hc t v Ht E) as [items ->]. now apply grp_ok_put_grp.
Qed.

Definition pending_ok (p : option (str * container)) : Prop :=
  match p with Some (t, _) => is_group t | None => True end.

Lemma add_pending_ok p c : grp_ok c -> pending_ok p -> returns grp_ok (add_pending p c).
Proof. intros Hc Hp. destruct p as [[t item]|]; [now apply ct_add_group_ok|exact Hc]. Qed.

Definition ctx_ok (c : ctx) : Prop := is_group (c_tag c) /\ grp_ok (c_tags c).

Definition state_ok (root : container) (stack : list ctx) : Prop := grp_ok root /\ Forall ctx_ok stack.
Definition dst_ok (st : dst) : Prop := state_ok (d_root st) (d_stack st).

Lemma pop_while_ok tag : forall stack p root,
  state_ok root stack -> pending_ok p ->
  returns (fun sr => state_ok (snd sr) (fst sr)) (pop_while tag stack p root).
Proof.
  induction stack as [|c rest IH]; intros p root [Hr Hs] Hp; cbn [pop_while].
  - pose proof (add_pending_ok p root Hr Hp) as A. destruct (add_pending p root); [|destruct A].
    split; [exact A|constructor].
  - inversion Hs as [|? ? [Hct Hcg] Hrest]. subst.
    pose proof (add_pending_ok p (c_tags c) Hcg Hp) as A. destruct (add_pending p (c_tags c)) as [tg|]; [|destruct A].
    cbn [bind c_members c_tag c_tags]. destruct (mem_str tag (c_members c)).
    + split; [exact Hr|]. constructor; [split; assumption|exact Hrest].
    + apply IH; [split; assumption|exact Hct].
Qed.

(* one field: the frame is rejected, or the loop goes on in a state that satisfies dst_ok - never an exception *)
Definition fstep_ok (r : fstep) : Prop :=
  match r with FCont st => dst_ok st | FReturnBad => True | FExc _ => False end.

Lemma field_step_total ck st m : dst_ok st -> fstep_ok (field_step G ck st m).
Proof.
  intros Hst. unfold field_step.
  destruct (split1 61 m) as [tag [val|]]; [|exact I].
  destruct (py_int tag) as [z|] eqn:Htag; [|exact I].
  assert (Hi : py_int tag <> None) by congruence.
  (* the bookkeeping for CheckSum and MsgType leaves root and stack alone *)
  match goal with
  | |- fstep_ok (match ?r1 with _ => _ end) =>
      assert (R1 : exists st1, r1 = Ok st1 /\ dst_ok st1)
  end.
  { destruct (str_eqb tag T10); [|destruct (str_eqb tag T35)]; eexists; (split; [reflexivity|exact Hst]). }
  destruct R1 as (st1 & -> & Hgr & Hctx). clear st Hst.
  destruct (lookup_group G tag) as [members|] eqn:LG.
  - (* start of a group *)
    assert (Hg : ctx_ok (mkCtx tag members [])) by (split; [unfold is_group; cbn; congruence|apply grp_ok_nil]).
    destruct (d_stack st1) as [|c0 rest0] eqn:Est.
    + split; [exact Hgr|]. constructor; [exact Hg|constructor].
    + pose proof (pop_while_ok tag _ None _ (conj Hgr Hctx) I) as P.
      destruct (pop_while tag _ None _) as [[stack' root']|]; [|destruct P].
      destruct P as [Hr' Hc']. split; [exact Hr'|]. constructor; [exact Hg|exact Hc'].
  - assert (Hnew : forall t, ctx_ok t ->
                   ctx_ok (mkCtx (c_tag t) (c_members t) (ct_put tag (VStr val) (c_tags t)))).
    { intros t [Ht Hg]. split; [exact Ht|now apply grp_ok_put_plain]. }
    assert (Hroot : forall root, grp_ok root ->
        fstep_ok (if ct_mem tag root then FCont (mkD (ct_put tag VErr root) [] (d_type st1) (d_ck st1))
              else match ct_set tag val root with
                   | Exc e => FExc e
                   | Ok r => FCont (mkD r [] (d_type st1) (d_ck st1))
                   end)).
    { intros root Hr. destruct (ct_mem tag root) eqn:M; [|rewrite ct_set_ok by assumption];
        (split; [now apply grp_ok_put_plain|constructor]). }
    destruct (d_stack st1) as [|c0 rest0] eqn:Est; [now apply Hroot|].
    pose proof (pop_while_ok tag _ None _ (conj Hgr Hctx) I) as P.
    destruct (pop_while tag _ None _) as [[[|c rest] root']|]; [| |destruct P]; destruct P as [Hr' Hc'].
    + now apply Hroot.
    + inversion Hc' as [|? ? Hc Hrest]. subst. destruct (ct_mem tag (c_tags c)) eqn:Mc.
      * (* the item already has this field: close it and start the next item *)
        rewrite (ct_set_ok tag val []) by (auto; reflexivity).
        assert (Hfresh : ctx_ok (mkCtx (c_tag c) (c_members c) (ct_put tag (VStr val) []))).
        { apply (Hnew (mkCtx (c_tag c) (c_members c) [])). split; [apply Hc|apply grp_ok_nil]. }
        destruct rest as [|p rest'].
        -- pose proof (ct_add_group_ok (c_tag c) (c_tags c) root' Hr' (proj1 Hc)) as A.
           destruct (ct_add_group _ _ root') as [r2|]; [|destruct A].
           split; [exact A|]. constructor; [exact Hfresh|constructor].
        -- inversion Hrest as [|? ? [Hpt Hpg] Hrest']. subst.
           pose proof (ct_add_group_ok (c_tag c) (c_tags c) (c_tags p) Hpg (proj1 Hc)) as A.
           destruct (ct_add_group _ _ (c_tags p)) as [tg|]; [|destruct A].
           split; [exact Hr'|]. constructor; [exact Hfresh|]. constructor; [split; assumption|exact Hrest'].
      * rewrite ct_set_ok by assumption. split; [exact Hr'|]. constructor; [now apply Hnew|exact Hrest].
Qed.

Lemma fields_loop_total ck fs : forall st, dst_ok st -> fstep_ok (fields_loop G ck st fs).
Proof.
  induction fs as [|m fs IH]; intros st Hs; cbn [fields_loop]; [exact Hs|].
  pose proof (field_step_total ck st m Hs) as T.
  destruct (field_step G ck st m) as [st'| |]; [now apply IH|exact I|destruct T].
Qed.

End Total.

Lemma strip_last_empty_cases (l : list str) :
  strip_last_empty l = l \/ l = strip_last_empty l ++ [[]].
Proof.
  unfold strip_last_empty. destruct (rev l) as [|[|c w] r] eqn:R; auto.
  right. rewrite <- (rev_involutive l), R. reflexivity.
Qed.

Lemma strip_last_empty_snoc_empty (X : list str) : strip_last_empty (X ++ [[]]) = X.
Proof. unfold strip_last_empty. rewrite rev_unit. apply rev_involutive. Qed.

Lemma strip_last_empty_snoc (X : list str) (W : str) : W <> [] -> strip_last_empty (X ++ [W]) = X ++ [W].
Proof. intros H. unfold strip_last_empty. rewrite rev_unit. destruct W; [congruence|reflexivity]. Qed.

Lemma dec_next0_le (msg : str) : (dec_next0 msg <= length msg)%nat.
Proof.
  unfold dec_next0. destruct (find_sub MARK (skipn 5 msg)) as [k|] eqn:E; [|lia].
  apply find_sub_spec in E as [E _]. rewrite skipn_length in E. cbn [MARK length] in E. lia.
Qed.

Lemma cut_at_checksum_le (msg : str) n0 : (cut_at_checksum msg n0 <= n0)%nat.
Proof.
  unfold cut_at_checksum. destruct (find_sub CKSEP (firstn n0 msg)) as [ci|]; [|lia].
  destruct (find_sub SOHs _) as [j|] eqn:Ej; [|lia].
  apply find_sub_spec in Ej as [Ej _]. rewrite skipn_length, firstn_length in Ej. cbn [SOHs length] in Ej. lia.
Qed.

Lemma dec_next_le (msg : str) : (dec_next msg <= length msg)%nat.
Proof. unfold dec_next. pose proof (cut_at_checksum_le msg (dec_next0 msg)). pose proof (dec_next0_le msg). lia. Qed.

Lemma dec_encoded_length i raw : length (dec_encoded i raw) = dec_next (skipn i raw).
Proof. unfold dec_encoded. apply firstn_length_le, dec_next_le. Qed.

Lemma dec_next_ge2 (r : str) : (2 <= dec_next (MARK ++ r))%nat.
Proof.
  unfold dec_next, cut_at_checksum, dec_next0.
  assert (5 <= match find_sub MARK (skipn 5 (MARK ++ r)) with Some k => k + 5 | None => length (MARK ++ r) end)%nat
    by (destruct (find_sub MARK _); [lia|rewrite app_length; cbn; lia]).
  destruct (find_sub CKSEP _); [|lia]. destruct (find_sub SOHs _); lia.
Qed.

(* junk before the marker plus the candidate: at least the marker's "8=", at most the buffer *)
Lemma frame_len_bounds i raw : find_sub MARK raw = Some i ->
  (Z.of_nat i + 2 <= frame_len i raw <= zlen raw)%Z
  /\ frame_len i raw = (Z.of_nat i + zlen (dec_encoded i raw))%Z.
Proof.
  intros Ei. unfold frame_len, zlen. rewrite dec_encoded_length.
  apply find_sub_spec in Ei as [Hi [r Er]].
  pose proof (dec_next_le (skipn i raw)) as U. rewrite skipn_length in U.
  pose proof (dec_next_ge2 r) as L. rewrite <- Er in L. lia.
Qed.

(* the first field of a candidate is "8=..." *)
Lemma first_field_has_eq i raw f0 rest :
  find_sub MARK raw = Some i -> dec_fields i raw = f0 :: rest ->
  exists v, split1 61 f0 = (T8, Some v).
Proof.
  intros Ei Ef. apply find_sub_spec in Ei as [_ [r Er]].
  unfold dec_fields, dec_encoded in Ef. rewrite Er in Ef.
  pose proof (dec_next_ge2 r) as Hk. destruct (dec_next (MARK ++ r)) as [|[|k]]; [lia|lia|].
  cbn [MARK app firstn split_on N.eqb Pos.eqb] in Ef.
  destruct (split_on 1 (firstn k _)) as [|p ps] eqn:S; [now apply split_on_nonempty in S|].
  destruct (strip_last_empty_cases ((56 :: 61 :: p) :: ps)) as [E|E]; rewrite Ef in E; inversion E;
    eexists; reflexivity.
Qed.

(* what is known when decode asks for more bytes although a marker is there (necessary, not sufficient:
   the second case says nothing of BeginString, which decode tests first) *)
Definition wait_case (i : nat) (raw : str) : Prop :=
  ((length (dec_fields i raw) < 3)%nat /\ has_next (skipn i raw) = false)
  \/ exists f0 f1 rest v1 bl,
       dec_fields i raw = f0 :: f1 :: rest /\ split1 61 f1 = (T9, Some v1) /\ py_int v1 = Some bl
       /\ (0 <= bl)%Z /\ (zlen raw - Z.of_nat i < zlen f0 + zlen f1 + 9 + bl)%Z.

(* Every run of silent decode ends in one of four ways: no marker; a marker and a wait for more
   bytes; the candidate rejected; the candidate returned.  In particular it never raises. *)
Lemma decode_cases G bs raw :
  match find_sub MARK raw with
  | None => decode G bs raw true = Ok (None, (zlen raw - Z.of_nat (marker_tail raw))%Z, None)
  | Some i =>
      (decode G bs raw true = Ok (None, Z.of_nat i, None) /\ wait_case i raw)
      \/ decode G bs raw true = Ok (None, frame_len i raw, None)
      \/ exists f0 f1 f2 rest v1 bl st,
           dec_fields i raw = f0 :: f1 :: f2 :: rest
           /\ split1 61 f0 = (T8, Some bs) /\ split1 61 f1 = (T9, Some v1) /\ py_int v1 = Some bl
           /\ (0 <= bl)%Z /\ (zlen f0 + zlen f1 + 9 + bl <= zlen raw - Z.of_nat i)%Z
           /\ fields_loop G (dec_ck (dec_fields i raw)) dst_init (dec_fields i raw) = FCont st
           /\ d_ck st = true
           /\ decode G bs raw true
              = Ok (Some (mkMsg (d_type st) (d_root st)), frame_len i raw, Some (dec_encoded i raw))
  end.
Proof.
  rewrite decode_eq. destruct (find_sub MARK raw) as [i|] eqn:Ei; [|reflexivity].
  unfold decode_fields, bad_res, wait_case. destruct (dec_fields i raw) as [|f0 [|f1 [|f2 rest]]] eqn:Ef.
  1-3: destruct (has_next (skipn i raw)); [auto|left; split; [reflexivity|left; cbn [length]; split; [lia|reflexivity]]].
  destruct (first_field_has_eq _ _ _ _ Ei Ef) as [v0 S0]. rewrite S0.
  destruct (str_eqb v0 bs) eqn:Eb; cbn [negb]; [|auto]. apply str_eqb_eq in Eb. subst v0.
  destruct (split1 61 f1) as [t1 [v1|]] eqn:S1; [|auto].
  destruct (str_eqb t1 T9) eqn:E9; cbn [negb]; [|auto]. apply str_eqb_eq in E9. subst t1.
  destruct (py_int v1) as [bl|] eqn:Ebl; [|auto].
  destruct (bl <? 0)%Z eqn:Eneg; [auto|]. apply Z.ltb_ge in Eneg.
  destruct (zlen raw - Z.of_nat i <? zlen f0 + zlen f1 + 9 + bl)%Z eqn:El.
  { apply Z.ltb_lt in El. left. split; [reflexivity|]. right. eauto 10. }
  apply Z.ltb_ge in El.
  pose proof (fields_loop_total G (dec_ck (f0 :: f1 :: f2 :: rest)) (f0 :: f1 :: f2 :: rest) dst_init) as T.
  destruct (fields_loop G _ _ _) as [st| |e] eqn:Efl; [|auto|destruct T; split; [apply grp_ok_nil|constructor]].
  destruct (d_ck st) eqn:Eck; [|auto]. right. right. exists f0, f1, f2, rest, v1, bl, st. auto 10.
Qed.

Lemma decode_total G bs raw : exists m n r, decode G bs raw true = Ok (m, n, r).
Proof.
  pose proof (decode_cases G bs raw) as C. destruct (find_sub MARK raw) as [i|]; [|eauto].
  destruct C as [[-> _]|[->|C]]; eauto.
  destruct C as (f0 & f1 & f2 & rest & v1 & bl & st & C). decompose [and] C. eauto.
Qed.

Lemma decode_no_marker G bs raw : find_sub MARK raw = None ->
  decode G bs raw true = Ok (None, (zlen raw - Z.of_nat (marker_tail raw))%Z, None).
Proof. intros E. pose proof (decode_cases G bs raw) as C. now rewrite E in C. Qed.

Lemma ends_with_spec p s : ends_with p s = true -> exists a, s = a ++ p.
Proof.
  unfold ends_with. intros H. apply prefixb_spec in H as [r E].
  exists (rev r). rewrite <- (rev_involutive s), E, rev_app_distr, rev_involutive. reflexivity.
Qed.

Lemma marker_tail_from_spec raw : forall k,
  (marker_tail_from k raw <= k)%nat /\ exists a, raw = a ++ firstn (marker_tail_from k raw) MARK.
Proof.
  induction k as [|k [A B]]; cbn [marker_tail_from].
  - split; [lia|]. exists raw. symmetry. apply app_nil_r.
  - destruct (ends_with (firstn (S k) MARK) raw) eqn:E; [|split; [lia|exact B]].
    split; [lia|]. now apply ends_with_spec.
Qed.

Lemma marker_tail_spec raw :
  (marker_tail raw <= 5)%nat /\ (marker_tail raw <= length raw)%nat
  /\ skipn (length raw - marker_tail raw) raw = firstn (marker_tail raw) MARK.
Proof.
  unfold marker_tail. destruct (marker_tail_from_spec raw 5) as [A [a B]].
  set (t := marker_tail_from 5 raw) in *. clearbody t.
  assert (L : length (firstn t MARK) = t) by (apply firstn_length_le; cbn; lia).
  pose proof (f_equal (@length N) B) as Hl. rewrite app_length, L in Hl.
  split; [exact A|]. split; [lia|].
  rewrite Hl, Nat.add_sub, B. apply skipn_exact.
Qed.

Lemma decode_consumed_shape G bs raw m n r : decode G bs raw true = Ok (m, n, r) ->
  (find_sub MARK raw = None /\ m = None /\ n = (zlen raw - Z.of_nat (marker_tail raw))%Z) \/
  exists i, find_sub MARK raw = Some i /\
    ((m = None /\ n = Z.of_nat i /\ wait_case i raw)
     \/ n = (Z.of_nat i + zlen (dec_encoded i raw))%Z).
Proof.
  intros H. pose proof (decode_cases G bs raw) as C. destruct (find_sub MARK raw) as [i|] eqn:Ei.
  - right. exists i. split; [reflexivity|]. destruct (frame_len_bounds _ _ Ei) as [_ <-].
    destruct C as [[D W]|[D|(f0 & f1 & f2 & rest & v1 & bl & st & _ & _ & _ & _ & _ & _ & _ & _ & D)]];
      rewrite D in H; injection H as <- <- _; auto.
  - left. rewrite C in H. injection H as <- <- _. auto.
Qed.

Lemma decode_consumed_bounds G bs raw m n r : decode G bs raw true = Ok (m, n, r) ->
  (0 <= n <= zlen raw)%Z.
Proof.
  intros H. apply decode_consumed_shape in H.
  destruct H as [(_ & _ & ->)|(i & Ei & H)].
  - pose proof (marker_tail_spec raw) as (_ & T & _). unfold zlen. lia.
  - destruct (frame_len_bounds _ _ Ei) as [B FL]. rewrite FL in B.
    pose proof (find_sub_spec _ _ _ Ei) as [Hi _]. unfold zlen in *.
    destruct H as [(_ & -> & _)| ->]; lia.
Qed.

(* a returned message always comes with a positive length: junk prefix + the accepted text *)
Lemma decode_msg_positive G bs raw m n r : decode G bs raw true = Ok (Some m, n, r) -> (0 < n)%Z.
Proof.
  intros H. apply decode_consumed_shape in H.
  destruct H as [(_ & ? & _)|(i & Ei & [(? & _)| ->])]; try discriminate.
  destruct (frame_len_bounds _ _ Ei) as [B FL]. lia.
Qed.

(* when nothing is consumed: the buffer is a proper prefix of the marker (at most 5 bytes, kept for
   the next read), or a candidate starts the buffer and decode waits for its completion *)
Lemma decode_zero_cases G bs raw m r : decode G bs raw true = Ok (m, 0%Z, r) ->
  m = None /\
  ((find_sub MARK raw = None /\ (length raw <= 5)%nat /\ raw = firstn (length raw) MARK)
   \/ (find_sub MARK raw = Some 0%nat /\ wait_case 0 raw)).
Proof.
  intros H. apply decode_consumed_shape in H. unfold zlen in *.
  destruct H as [(E & Hm & Hn)|(i & Ei & [(Hm & Hn & W)|Hn])].
  - split; [exact Hm|]. left. pose proof (marker_tail_spec raw) as (A & B & C).
    assert (T : marker_tail raw = length raw) by lia. rewrite T in *.
    rewrite Nat.sub_diag in C. auto.
  - split; [exact Hm|]. right. assert (i = 0%nat) by lia. subst i. auto.
  - destruct (frame_len_bounds _ _ Ei) as [B FL]. unfold zlen in *. lia.
Qed.

Definition cks_verdict (ck : N) (v : str) : bool :=
  three_digits v && Z.eqb (Z.of_N ck) (digits_value v).

Lemma field_step_ck G ck st m st' : field_step G ck st m = FCont st' ->
  exists tag val, split1 61 m = (tag, Some val) /\
    d_ck st' = if str_eqb tag T10 then cks_verdict ck val else d_ck st.
Proof.
  unfold field_step. destruct (split1 61 m) as [tag [val|]]; [|discriminate].
  destruct (py_int tag) as [z|]; [|discriminate].
  intros H. exists tag, val. split; [reflexivity|].
  match type of H with
  | match ?r1 with _ => _ end = _ => destruct r1 as [st1|e1] eqn:R1; [|discriminate]
  end.
  assert (Hck : d_ck st' = d_ck st1).
  { (* every branch that goes on builds its state with d_ck st1 *)
    clear R1. unfold bind in H.
    repeat match type of H with
           | context [match ?x with _ => _ end] => destruct x
           | context [if ?x then _ else _] => destruct x
           end; try discriminate; injection H as <-; reflexivity. }
  rewrite Hck. destruct (str_eqb tag T10); [|destruct (str_eqb tag T35)]; injection R1 as <-; reflexivity.
Qed.

(* the value of the last field with tag 10 *)
Fixpoint last_cks (fs : list str) : option str :=
  match fs with
  | [] => None
  | f :: r =>
      match last_cks r with
      | Some v => Some v
      | None => match split1 61 f with
                | (t, Some v) => if str_eqb t T10 then Some v else None
                | (_, None) => None
                end
      end
  end.

Lemma fields_loop_last_ck G ck fs : forall st st',
  fields_loop G ck st fs = FCont st' ->
  d_ck st' = match last_cks fs with Some v => cks_verdict ck v | None => d_ck st end.
Proof.
  induction fs as [|f fs IH]; intros st st'; cbn [fields_loop last_cks].
  - intros H. inversion H. reflexivity.
  - destruct (field_step G ck st f) as [st1| |] eqn:E; try discriminate.
    intros H. specialize (IH _ _ H). destruct (last_cks fs) as [v|]; [exact IH|].
    destruct (field_step_ck _ _ _ _ _ E) as (tag & val & S & Hc). rewrite S.
    destruct (str_eqb tag T10); congruence.
Qed.

Definition field_tag (f : str) : option str :=
  match split1 61 f with (t, Some _) => Some t | (_, None) => None end.

Definition CKTAG : str := T10 ++ [61].        (* "10=" *)

Lemma field_tag_T10_prefix f : field_tag f = Some T10 -> prefixb CKTAG f = true.
Proof.
  unfold field_tag. destruct (split1 61 f) as [t [v|]] eqn:S; [|discriminate].
  intros H. inversion H. subst t. apply split1_some in S. subst f.
  apply (prefixb_app CKTAG v).
Qed.

Lemma not_p10_tag f : prefixb CKTAG f = false -> field_tag f <> Some T10.
Proof. intros H F. apply field_tag_T10_prefix in F. congruence. Qed.

(* text without "<SOH>10=": no field after the first begins with "10=" *)
Lemma no_cksep_tl : forall A : str, find_sub CKSEP A = None ->
  Forall (fun f => prefixb CKTAG f = false) (tl (split_on 1 A)).
Proof.
  induction A as [|x A IH]; intros H; [constructor|].
  rewrite find_sub_cons in H. destruct (prefixb CKSEP (x :: A)) eqn:P; [discriminate|].
  destruct (find_sub CKSEP A); [discriminate|]. specialize (IH eq_refl). cbn [split_on].
  destruct (N.eqb x 1) eqn:E.
  - apply N.eqb_eq in E. subst x. cbn [tl].
    destruct (split_on 1 A) as [|f l] eqn:S; [constructor|]. constructor; [|exact IH].
    destruct (prefixb CKTAG f) eqn:Pf; [|reflexivity].
    destruct (split_on_hd _ _ _ _ S) as [rest ->].
    change CKSEP with (1 :: CKTAG) in P. cbn [prefixb] in P. rewrite N.eqb_refl in P.
    now rewrite (prefixb_app_r _ _ rest Pf) in P.
  - destruct (split_on 1 A) as [|p ps]; [constructor|exact IH].
Qed.

(* The candidate is cut after the first "<SOH>10=...": either there is none, or the text is
   A, SOH, a SOH-free piece V that begins with "10=", and at most one SOH. *)
Lemma cut_at_checksum_spec (msg : str) (n0 : nat) :
  let e := firstn (cut_at_checksum msg n0) msg in
  find_sub CKSEP e = None
  \/ exists A v tail, e = A ++ 1 :: field T10 v ++ tail /\ (tail = [] \/ tail = SOHs)
       /\ ~ In 1 (field T10 v) /\ find_sub CKSEP A = None.
Proof.
  cbv zeta. unfold cut_at_checksum. set (head := firstn n0 msg).
  destruct (find_sub CKSEP head) as [ci|] eqn:Ec; [right|now left].
  destruct (find_sub_split _ _ _ Ec) as (A & B & EH & <- & HA). specialize (HA ltac:(discriminate)).
  change (CKSEP ++ B) with (1 :: field T10 B) in EH.
  rewrite <- skipn_skipn', EH, skipn_exact. cbn [skipn].
  destruct (find_sub SOHs (field T10 B)) as [j|] eqn:Ej.
  - destruct (find_sub_char _ _ _ Ej) as (V & B' & EV & <- & HV).
    destruct V as [|? [|? [|? v]]]; try discriminate. injection EV as <- <- <- ->.
    exists A, v, SOHs. split; [|auto].
    apply (firstn_prefix n0 _ _ B').
    + fold head. rewrite EH. unfold field, SOHs. repeat (rewrite <- ?app_assoc; cbn [app]). reflexivity.
    + unfold field, SOHs, T10. repeat (rewrite app_length; cbn [length app]). lia.
  - exists A, B, []. apply find_sub_char_none in Ej. rewrite app_nil_r. auto.
Qed.

(* the fields of a candidate: none after the first begins with "10=", or the last one does and is
   the only such; the text is then the fields before it, "10=...", and at most one SOH *)
Lemma cut_fields i raw :
  Forall (fun f => prefixb CKTAG f = false) (tl (dec_fields i raw))
  \/ exists A v tail, dec_encoded i raw = A ++ 1 :: field T10 v ++ tail /\ (tail = [] \/ tail = SOHs)
       /\ dec_fields i raw = split_on 1 A ++ [field T10 v]
       /\ Forall (fun f => prefixb CKTAG f = false) (tl (split_on 1 A)).
Proof.
  unfold dec_fields.
  destruct (cut_at_checksum_spec (skipn i raw) (dec_next0 (skipn i raw))) as [N|(A & v & tail & E & Ht & HV & HA)];
    change (firstn _ (skipn i raw)) with (dec_encoded i raw) in *.
  - left. apply no_cksep_tl in N.
    destruct (strip_last_empty_cases (split_on 1 (dec_encoded i raw))) as [->|E]; [exact N|].
    rewrite E in N. destruct (strip_last_empty _) as [|f l]; [constructor|].
    cbn [app tl] in N. apply Forall_app in N. tauto.
  - right. exists A, v, tail. split; [exact E|]. split; [exact Ht|]. split; [|now apply no_cksep_tl].
    rewrite E, split_on_app. destruct Ht as [->| ->].
    + rewrite app_nil_r, (split_on_free 1 _ HV). apply strip_last_empty_snoc. discriminate.
    + unfold SOHs. rewrite (split_on_app_sep 1 _ [] HV). change (?f :: split_on 1 []) with ([f] ++ [[]]).
      rewrite app_assoc. apply strip_last_empty_snoc_empty.
Qed.

Lemma last_cks_none fs : Forall (fun f => field_tag f <> Some T10) fs -> last_cks fs = None.
Proof.
  induction 1 as [|f fs Hf _ IH]; [reflexivity|]. cbn [last_cks]. rewrite IH.
  unfold field_tag in Hf. destruct (split1 61 f) as [t [v|]]; [|reflexivity].
  destruct (str_eqb t T10) eqn:E; [|reflexivity]. apply str_eqb_eq in E. subst. congruence.
Qed.

Lemma last_cks_snoc FA v : last_cks (FA ++ [field T10 v]) = Some v.
Proof.
  induction FA as [|f FA IH]; cbn [app last_cks]; [|now rewrite IH].
  unfold field. rewrite split1_field by (intros [F|[F|[]]]; discriminate). reflexivity.
Qed.

(* Codec.is_digit has the body of Py.Str.is_digit *)
Lemma codec_digit_range c : Codec.is_digit c = true <-> 48 <= c <= 57.
Proof. exact (is_digit_range c). Qed.

(* three ASCII digits whose value is c < 256 are exactly "%0.3i" % c *)
Lemma three_digits_fmt03 v c : three_digits v = true -> digits_value v = Z.of_N c -> c < 256 ->
  v = fmt03 c.
Proof.
  unfold three_digits. rewrite andb_true_iff. intros [L D] V Hc.
  destruct v as [|d1 [|d2 [|d3 [|]]]]; try discriminate. clear L.
  cbn [forallb] in D. rewrite !andb_true_iff in D. destruct D as (D1 & D2 & D3 & _).
  apply codec_digit_range in D1, D2, D3.
  destruct (fmt03_digits c Hc) as (e1 & e2 & e3 & -> & E1 & E2 & E3 & Ev).
  unfold digits_value in V. cbn [fold_left] in V.
  assert (d1 = e1 /\ d2 = e2 /\ d3 = e3) as (-> & -> & ->) by lia. reflexivity.
Qed.

(* Every returned message:
   - its raw text is the slice of the input that starts at the marker, and the consumed length is the
     junk before the marker plus that text;
   - BeginString is the expected one, the second field is a BodyLength that is a length and does not
     exceed what the buffer holds;
   - the CheckSum field is the LAST field of the text and the only one with tag "10"; its value is
     exactly the three ASCII digits "%0.3i" of the sum of ALL bytes before "10=" modulo 256;
   - the text is those bytes, "10=ddd", and at most one SOH. *)
Lemma decode_accept_shape G bs raw m n r : decode G bs raw true = Ok (Some m, n, r) ->
  exists i, find_sub MARK raw = Some i /\ r = Some (dec_encoded i raw)
    /\ n = (Z.of_nat i + zlen (dec_encoded i raw))%Z /\
    let fs := dec_fields i raw in
    let before := join SOHs (removelast fs) ++ SOHs in
    let ddd := fmt03 (sum_codes before mod 256) in
    (3 <= length fs)%nat
    /\ (exists t0 v1 bl, nth 0 fs [] = field t0 bs /\ nth 1 fs [] = field T9 v1 /\ py_int v1 = Some bl
          /\ (0 <= bl)%Z /\ (zlen (nth 0 fs []) + zlen (nth 1 fs []) + 9 + bl <= zlen raw - Z.of_nat i)%Z)
    /\ fs = removelast fs ++ [field T10 ddd]
    /\ Forall (fun f => field_tag f <> Some T10) (removelast fs)
    /\ exists tail, (tail = [] \/ tail = SOHs) /\ dec_encoded i raw = before ++ field T10 ddd ++ tail.
Proof.
  intros H. pose proof (decode_cases G bs raw) as C.
  destruct (find_sub MARK raw) as [i|] eqn:Ei; [|rewrite C in H; discriminate].
  destruct C as [[D _]|[D|C]]; try (rewrite D in H; discriminate).
  destruct C as (f0 & f1 & f2 & rest & v1 & bl & st & Ef & S0 & S1 & Ebl & Hbl & Hle & Efl & Eck & D).
  rewrite D in H. injection H as _ <- <-.
  exists i. split; [reflexivity|]. split; [reflexivity|]. split; [apply frame_len_bounds, Ei|]. cbv zeta.
  split; [rewrite Ef; cbn [length]; lia|]. split.
  { exists T8, v1, bl. rewrite Ef. cbn [nth].
    split; [exact (split1_some _ _ _ _ S0)|]. split; [exact (split1_some _ _ _ _ S1)|]. auto. }
  pose proof (fields_loop_last_ck _ _ _ _ _ Efl) as L. rewrite Eck in L.
  assert (T0 : field_tag f0 <> Some T10) by (unfold field_tag; rewrite S0; discriminate).
  assert (Tl : forall l, Forall (fun f => prefixb CKTAG f = false) l -> Forall (fun f => field_tag f <> Some T10) l).
  { intros l. apply Forall_impl. exact not_p10_tag. }
  destruct (cut_fields i raw) as [C|(A & v & tail & EE & Ht & EF & C)].
  - (* no CheckSum field at all: cannot have been accepted *)
    rewrite last_cks_none in L; [discriminate|]. rewrite Ef in *. constructor; [exact T0|exact (Tl _ C)].
  - rewrite EF, removelast_last. rewrite EF, last_cks_snoc in L. symmetry in L.
    apply andb_true_iff in L as [L3 Lv]. apply Z.eqb_eq in Lv.
    unfold dec_ck in Lv. rewrite removelast_last in Lv.
    unfold SOHs in *. rewrite (join_split_on 1 A) in *.
    assert (Ev : v = fmt03 (sum_codes (A ++ [1]) mod 256)).
    { rewrite sum_codes_app. apply three_digits_fmt03; [exact L3|now symmetry|apply N.mod_lt; discriminate]. }
    rewrite <- Ev. split; [reflexivity|]. split.
    + destruct (split_on 1 A) as [|a FA'] eqn:EA; [now apply split_on_nonempty in EA|].
      rewrite Ef in EF. injection EF as <- _. constructor; [exact T0|exact (Tl _ C)].
    + exists tail. split; [exact Ht|]. rewrite EE, <- app_assoc. reflexivity.
Qed.

Definition status {A B} (x : A * B * N) : N := snd x.
Definition residual {A B} (x : str * A * B) : str := fst (fst x).
Definition delivered {A B} (x : A * list (message * str) * B) : list (message * str) := snd (fst x).

Lemma decode_msg_nonempty G bs raw m n r : decode G bs raw true = Ok (Some m, n, r) -> raw <> [].
Proof.
  intros H. pose proof (decode_msg_positive _ _ _ _ _ _ H) as P.
  pose proof (decode_consumed_bounds _ _ _ _ _ _ H) as B. destruct raw; [cbn in B; lia|discriminate].
Qed.

Lemma consumed_shrinks G bs buf m n r :
  decode G bs buf true = Ok (m, n, r) -> (0 < n)%Z ->
  (length (skipn (Z.to_nat n) buf) < length buf)%nat.
Proof.
  intros D Hn. pose proof (decode_consumed_bounds _ _ _ _ _ _ D) as B. unfold zlen in B.
  rewrite skipn_length. lia.
Qed.

(* the inner loop of socket_read_task always ends within len(buffer) + 1 iterations
   (status 1 = decode raised, status 2 = fuel exhausted: both impossible), although it goes on
   after a rejected candidate *)
Lemma reader_loop_terminates G bs : forall fuel buf acc,
  (length buf < fuel)%nat -> status (reader_loop G bs fuel buf acc) = 0.
Proof.
  induction fuel as [|f IH]; intros buf acc Hlen; [lia|].
  cbn [reader_loop].
  destruct (decode_total G bs buf) as (m & n & r & D). rewrite D.
  destruct (0 <? n)%Z eqn:En.
  - apply Z.ltb_lt in En. pose proof (consumed_shrinks _ _ _ _ _ _ D En) as Hlt.
    destruct m as [m|]; [destruct r|]; apply IH; lia.
  - destruct m as [m|]; [|destruct r; reflexivity].
    apply Z.ltb_ge in En. pose proof (decode_msg_positive _ _ _ _ _ _ D). lia.
Qed.

(* deliveries accumulate in order *)
Lemma reader_loop_acc G bs : forall fuel buf acc,
  reader_loop G bs fuel buf acc =
  (residual (reader_loop G bs fuel buf []), rev acc ++ delivered (reader_loop G bs fuel buf []),
   status (reader_loop G bs fuel buf [])).
Proof.
  induction fuel as [|f IH]; intros buf acc; cbn [reader_loop].
  - cbn. now rewrite app_nil_r.
  - destruct (decode G bs buf true) as [[[m n] r]|e]; [|cbn; now rewrite app_nil_r].
    destruct m as [m|].
    + destruct r as [r|]; rewrite (IH _ (_ :: acc)), (IH _ [_]);
        cbn [rev residual delivered status fst snd app]; now rewrite <- app_assoc.
    + destruct (0 <? n)%Z; [|destruct r; cbn; now rewrite app_nil_r].
      rewrite (IH _ acc). destruct r; reflexivity.
Qed.

Lemma join_sum_replace sep pre post :
  exists K, forall f : str, sum_codes (join sep (pre ++ f :: post)) = K + sum_codes f.
Proof.
  induction pre as [|p pre [K IH]].
  - destruct post as [|q post].
    + exists 0. intros f. reflexivity.
    + exists (sum_codes sep + sum_codes (join sep (q :: post))). intros f.
      cbn [app]. rewrite join_cons by discriminate. rewrite !sum_codes_app. lia.
  - exists (sum_codes p + sum_codes sep + K). intros f.
    cbn [app]. rewrite join_cons by (destruct pre; discriminate).
    rewrite !sum_codes_app, IH. lia.
Qed.

Lemma fmt03_inj a b : a < 256 -> b < 256 -> fmt03 a = fmt03 b -> a = b.
Proof.
  intros Ha Hb E. destruct (fmt03_digits a Ha) as (d1 & d2 & d3 & E1 & _ & _ & _ & V1).
  destruct (fmt03_digits b Hb) as (e1 & e2 & e3 & E2 & _ & _ & _ & V2).
  rewrite E1, E2 in E. inversion E. subst. congruence.
Qed.

Definition cks_of (fa : list str) : str := field T10 (fmt03 (sum_codes (join SOHs fa ++ SOHs) mod 256)).

(* the fields of an accepted frame end with the CheckSum field computed from the others *)
Lemma accepted_fields G bs raw m n r : decode G bs raw true = Ok (Some m, n, r) ->
  exists fa, frame_fields raw = fa ++ [cks_of fa].
Proof.
  intros D. apply decode_accept_shape in D. destruct D as (i & Ei & _ & _ & _ & _ & E & _).
  unfold frame_fields. rewrite Ei. eexists. exact E.
Qed.

(* the CheckSum field is determined by the fields before it *)
Lemma accepted_last_field G bs raw raw' m n r m' n' r' pre f f' :
  frame_fields raw = pre ++ [f] -> frame_fields raw' = pre ++ [f'] ->
  decode G bs raw true = Ok (Some m, n, r) -> decode G bs raw' true = Ok (Some m', n', r') -> f = f'.
Proof.
  intros F F' D D'. apply accepted_fields in D as [fa E]. apply accepted_fields in D' as [fa' E'].
  rewrite F in E. rewrite F' in E'.
  apply app_inj_tail in E as [<- E]. apply app_inj_tail in E' as [<- E']. congruence.
Qed.

Lemma mod256_cancel K L a b : (K + a + L) mod 256 = (K + b + L) mod 256 -> a mod 256 = b mod 256.
Proof. intros. zify. Z.to_euclidean_division_equations. lia. Qed.

(* Two accepted frames that differ in one field before the CheckSum field: that field has the same
   byte sum modulo 256 in both (the CheckSum field is the same and is right for both). *)
Lemma accepted_inner_field G bs raw raw' m n r m' n' r' pre f f' post :
  frame_fields raw = pre ++ f :: post -> frame_fields raw' = pre ++ f' :: post -> post <> [] ->
  decode G bs raw true = Ok (Some m, n, r) -> decode G bs raw' true = Ok (Some m', n', r') ->
  sum_codes f mod 256 = sum_codes f' mod 256.
Proof.
  intros F F' Hp D D'. apply accepted_fields in D as [fa E]. apply accepted_fields in D' as [fa' E'].
  rewrite F in E. rewrite F' in E'.
  destruct post as [|l post0 _] using rev_ind; [congruence|].
  rewrite app_comm_cons, app_assoc in E, E'.
  apply app_inj_tail in E as [<- E]. apply app_inj_tail in E' as [<- E']. rewrite E in E'.
  apply app_inv_head in E'. injection E' as E'. apply fmt03_inj in E'; try apply checksum_lt.
  destruct (join_sum_replace SOHs pre post0) as [K HK]. rewrite !sum_codes_app, !HK in E'.
  exact (mod256_cancel _ _ _ _ E').
Qed.

(* replacing one byte by another moves the sum modulo 256 *)
Lemma byte_change_moves_sum A C x y :
  x < 256 -> y < 256 -> (A + (x + C)) mod 256 = (A + (y + C)) mod 256 -> x = y.
Proof. intros. zify. Z.to_euclidean_division_equations. lia. Qed.

(* If a frame is returned as a message, then the text in which one byte of one field is replaced
   by another byte - the list of fields otherwise unchanged, i.e. the change neither creates nor
   destroys a SOH, a marker or the CheckSum separator - is not returned as a message.  This covers
   every position: tags, "=", values, BeginString, BodyLength and the CheckSum field itself. *)
Lemma decode_subst_detected G bs raw raw' pre a x y c post :
  frame_fields raw = pre ++ (a ++ x :: c) :: post ->
  frame_fields raw' = pre ++ (a ++ y :: c) :: post ->
  x <> y -> x < 256 -> y < 256 ->
  (exists m n r, decode G bs raw true = Ok (Some m, n, r)) ->
  forall m' n' r', decode G bs raw' true <> Ok (Some m', n', r').
Proof.
  intros F F' Hxy Hx Hy (m & n & r & D) m' n' r' D'. apply Hxy. destruct post as [|l post].
  - pose proof (accepted_last_field _ _ _ _ _ _ _ _ _ _ _ _ _ F F' D D') as E.
    apply app_inv_head in E. congruence.
  - pose proof (accepted_inner_field _ _ _ _ _ _ _ _ _ _ _ _ _ _ F F' ltac:(discriminate) D D') as E.
    rewrite !sum_codes_app, !sum_codes_cons in E. exact (byte_change_moves_sum _ _ _ _ Hx Hy E).
Qed.

(* what the examples of C10 are stated with: the table and BeginString regenerated from /repo, decode on
   them, and its result reduced to (message returned?, consumed, raw text returned?) *)
Definition TBL : group_table := GenGroups.table.      (* regenerated from FIXProtocol44.repeating_groups *)
Definition BS : str := GenGroups.beginstring.         (* "FIX.4.4" *)

Definition is_some {A} (o : option A) : bool := match o with Some _ => true | None => false end.

Definition dec (raw : str) : result dres := decode TBL BS raw true.
Definition dec_summary (raw : str) : option (bool * Z * bool) :=
  match dec raw with
  | Ok (m, n, r) => Some (is_some m, n, is_some r)
  | Exc _ => None
  end.

(* the BodyLength value decode reads (second field of the frame text), when it parses *)
Definition frame_blen (raw : str) : option Z :=
  match frame_fields raw with
  | _ :: f1 :: _ => match split1 61 f1 with (_, Some v) => py_int v | (_, None) => None end
  | _ => None
  end.

(* witnesses, each with its text; | stands for SOH *)

(* 8=FIX.4.4|9=abc|35=0|10=000| *)
Definition w_blen : str := [56; 61; 70; 73; 88; 46; 52; 46; 52; 1; 57; 61; 97; 98; 99; 1; 51; 53; 61; 48; 1; 49; 48; 61; 48; 48; 48; 1].
(* 8=FIX.4.4|9=5|35=0|10=abc| *)
Definition w_cks : str := [56; 61; 70; 73; 88; 46; 52; 46; 52; 1; 57; 61; 53; 1; 51; 53; 61; 48; 1; 49; 48; 61; 97; 98; 99; 1].
(* 8=FIX.4.4|9=5|35=0|abc=1|10=000| *)
Definition w_tag : str := [56; 61; 70; 73; 88; 46; 52; 46; 52; 1; 57; 61; 53; 1; 51; 53; 61; 48; 1; 97; 98; 99; 61; 49; 1; 49; 48; 61; 48; 48; 48; 1].
(* 8=FIX.4.4|9=5|35=J|70=a|78=1|79=A|70=b|10=000| *)
Definition w_dup : str := [56; 61; 70; 73; 88; 46; 52; 46; 52; 1; 57; 61; 53; 1; 51; 53; 61; 74; 1; 55; 48; 61; 97; 1; 55; 56; 61; 49; 1; 55; 57; 61; 65; 1; 55; 48; 61; 98; 1; 49; 48; 61; 48; 48; 48; 1].
(* 8=FIX.4.4|9=-1000|35=0|10=092|   (checksum correct) *)
Definition w_neg : str := [56; 61; 70; 73; 88; 46; 52; 46; 52; 1; 57; 61; 45; 49; 48; 48; 48; 1; 51; 53; 61; 48; 1; 49; 48; 61; 48; 57; 50; 1].
(* 8=FIX.4.4|9=-1000|35=0|10=000|   (checksum wrong) *)
Definition w_negbad : str := [56; 61; 70; 73; 88; 46; 52; 46; 52; 1; 57; 61; 45; 49; 48; 48; 48; 1; 51; 53; 61; 48; 1; 49; 48; 61; 48; 48; 48; 1].
(* 8=FIX.4.4|9=5|35=0|10=163|   (a correct Heartbeat-like frame) *)
Definition w_good : str := [56; 61; 70; 73; 88; 46; 52; 46; 52; 1; 57; 61; 53; 1; 51; 53; 61; 48; 1; 49; 48; 61; 49; 54; 51; 1].
(* xxxxxxxxxx8=FIX.4.4|9=15|35=0|10=212| *)
Definition w_over : str := [120; 120; 120; 120; 120; 120; 120; 120; 120; 120; 56; 61; 70; 73; 88; 46; 52; 46; 52; 1; 57; 61; 49; 53; 1; 51; 53; 61; 48; 1; 49; 48; 61; 50; 49; 50; 1].
(* 8=FIX.4.4|9=2|35=0|58=hello|10=095|   (true body length 14) *)
Definition w_wrongbl : str := [56; 61; 70; 73; 88; 46; 52; 46; 52; 1; 57; 61; 50; 1; 51; 53; 61; 48; 1; 53; 56; 61; 104; 101; 108; 108; 111; 1; 49; 48; 61; 48; 57; 53; 1].
(* 8=FIX.4.4|9=12|35=0|58=299|10=032|   (correct) *)
Definition w_lz : str := [56; 61; 70; 73; 88; 46; 52; 46; 52; 1; 57; 61; 49; 50; 1; 51; 53; 61; 48; 1; 53; 56; 61; 50; 57; 57; 1; 49; 48; 61; 48; 51; 50; 1].
(* 8=FIX.4.4|9=12|35=0|58=299|10= 32| *)
Definition w_lenient : str := [56; 61; 70; 73; 88; 46; 52; 46; 52; 1; 57; 61; 49; 50; 1; 51; 53; 61; 48; 1; 53; 56; 61; 50; 57; 57; 1; 49; 48; 61; 32; 51; 50; 1].
(* 8=FIX.4.4|9=12|35=0|58=299|10=+32| *)
Definition w_lenient_plus : str := [56; 61; 70; 73; 88; 46; 52; 46; 52; 1; 57; 61; 49; 50; 1; 51; 53; 61; 48; 1; 53; 56; 61; 50; 57; 57; 1; 49; 48; 61; 43; 51; 50; 1].
(* 8=FIX.4.4|9=5|35=0|58=7|10=190|1=evil| *)
Definition w_trailing : str := [56; 61; 70; 73; 88; 46; 52; 46; 52; 1; 57; 61; 53; 1; 51; 53; 61; 48; 1; 53; 56; 61; 55; 1; 49; 48; 61; 49; 57; 48; 1; 49; 61; 101; 118; 105; 108; 1].
(* the 130-byte AllocationInstruction of C02_nonvacuous (NoAllocs / NoNestedPartyIDs / NoNestedPartySubIDs) *)
Definition w_nested : str := [56; 61; 70; 73; 88; 46; 52; 46; 52; 1; 57; 61; 49; 48; 55; 1; 51; 53; 61; 74; 1; 52; 57; 61; 83; 1; 53; 54; 61; 84; 1; 51; 52; 61; 53; 1; 53; 50; 61; 50; 48; 50; 51; 48; 57; 49; 57; 45; 48; 55; 58; 49; 51; 58; 50; 54; 46; 56; 48; 56; 1; 55; 48; 61; 97; 49; 1; 55; 56; 61; 50; 1; 55; 57; 61; 65; 1; 56; 48; 61; 49; 1; 53; 51; 57; 61; 49; 1; 53; 50; 52; 61; 80; 1; 56; 48; 52; 61; 49; 1; 53; 52; 53; 61; 115; 1; 56; 48; 53; 61; 49; 1; 55; 57; 61; 66; 233; 1; 56; 48; 61; 50; 1; 49; 48; 61; 48; 48; 50; 1].
(* 8=FIX.4.4|9=12|35=0|58=298|10=032| *)
Definition w_lz_subst : str :=
  [56; 61; 70; 73; 88; 46; 52; 46; 52; 1; 57; 61; 49; 50; 1; 51; 53; 61; 48; 1; 53; 56; 61; 50; 57; 56; 1; 49; 48; 61; 48; 51; 50; 1].
(* 8=FIX.4.2|9=5|35=0|10=161| *)
Definition w_badbs : str :=
  [56; 61; 70; 73; 88; 46; 52; 46; 50; 1; 57; 61; 53; 1; 51; 53; 61; 48; 1; 49; 48; 61; 49; 54; 49; 1].
(* 8=FIX.4 *)
Definition w_frag : str := [56; 61; 70; 73; 88; 46; 52].

(* 8=FIX.4.4|9=5|35=J|70=a|78=1|79=A|70=b|10=151|   (w_dup with a correct checksum) *)
Definition w_dup_ok : str := [56; 61; 70; 73; 88; 46; 52; 46; 52; 1; 57; 61; 53; 1; 51; 53; 61; 74; 1; 55; 48; 61; 97; 1; 55; 56; 61; 49; 1; 55; 57; 61; 65; 1; 55; 48; 61; 98; 1; 49; 48; 61; 49; 53; 49; 1].
(* 8=FIX.4.4|9=16|35=0|58=8=FIX.x|10=130|   (a well-formed frame whose value contains the marker) *)
Definition w_d5 : str := [56; 61; 70; 73; 88; 46; 52; 46; 52; 1; 57; 61; 49; 54; 1; 51; 53; 61; 48; 1; 53; 56; 61; 56; 61; 70; 73; 88; 46; 120; 1; 49; 48; 61; 49; 51; 48; 1].
(* 8=FIX.4.4|9=12|35=0|58=2<NUL>99|10=032|   (w_lz with a NUL inserted in the value) *)
Definition w_nul : str := [56; 61; 70; 73; 88; 46; 52; 46; 52; 1; 57; 61; 49; 50; 1; 51; 53; 61; 48; 1; 53; 56; 61; 50; 0; 57; 57; 1; 49; 48; 61; 48; 51; 50; 1].
(* 8=FIX.4.4|9=500|35=0|10=000| *)
Definition w_oversize : str := [56; 61; 70; 73; 88; 46; 52; 46; 52; 1; 57; 61; 53; 48; 48; 1; 51; 53; 61; 48; 1; 49; 48; 61; 48; 48; 48; 1].
(* 8=FIX.4.4|9=12|35=0|58=299|10=033| *)
Definition w_lz_ck : str := [56; 61; 70; 73; 88; 46; 52; 46; 52; 1; 57; 61; 49; 50; 1; 51; 53; 61; 48; 1; 53; 56; 61; 50; 57; 57; 1; 49; 48; 61; 48; 51; 51; 1].

(* a frame, a good frame in the same read, a good frame in the next read *)
Definition run2 (first : str) := reader_run TBL BS [] [first ++ w_good; w_good].
