(* A raising on_message is invisible to the session: process_message_h = process_message. *)
From Coq Require Import ZArith NArith List Bool.
From AF Require Import Base.Sx Py.Str Fix.Session Fix.SessionHooks Lemmas.SessionC04L.
Import ListNotations.
Open Scope Z_scope.

(* the try block swallows the callback's exception; the events and the world stay, and what follows the block does
   not look at the block's value *)
Lemma try_on_message_h : forall hr m (k : M unit) w,
  (try_ (on_message_h hr m) ;;; k) w = (try_ (emit (App m)) ;;; k) w.
Proof.
  intros hr m k w. unfold on_message_h, bind, try_, emit, raise, ret.
  destruct (hr m) as [x|]; cbn; reflexivity.
Qed.

Lemma try_dispatch_h : forall hr c m valid (k : M unit) w,
  (try_ (dispatch_h hr c m valid) ;;; k) w = (try_ (dispatch c m valid) ;;; k) w.
Proof.
  intros hr c m valid k w. unfold dispatch_h, dispatch.
  destruct (mkind m); try reflexivity;
  (destruct valid; [|reflexivity];
   unfold bind, try_, getw; cbn [rv rw re];
   destruct (get_int T34 m) as [n|e]; [|reflexivity];
   destruct (n =? nin w); [|reflexivity];
   unfold on_message_h, bind, emit, raise, ret;
   destruct (hr m) as [x|]; cbn; reflexivity).
Qed.

Lemma after_part1_h_eq : forall hr c m now r1 w,
  after_part1_h hr c m now r1 w = after_part1 c m now r1 w.
Proof.
  intros hr c m now r1 w. unfold after_part1_h, after_part1.
  destruct r1 as [[[|]|]|]; try reflexivity; apply try_dispatch_h.
Qed.

Lemma process_message_h_eq : forall hr c m now w,
  process_message_h hr c m now w = process_message c m now w.
Proof.
  intros hr c m now w. unfold process_message_h, process_message.
  destruct (validate_integrity c m w); try reflexivity.
  unfold bind. destruct (rv (try_ (part1 c m) w)) as [r1|x]; [|reflexivity].
  rewrite after_part1_h_eq. reflexivity.
Qed.

Lemma step_h_eq : forall hr c o w, step_h hr c o w = step c o w.
Proof. intros hr c o w. destruct o; try reflexivity. apply process_message_h_eq. Qed.

Lemma run_h_eq : forall hr c h w, run_h hr c w h = run c w h.
Proof.
  intros hr c h. induction h as [|o h IH]; intro w; [reflexivity|].
  cbn [run_h run]. rewrite step_h_eq, IH. reflexivity.
Qed.

(* every callback of the history Logon(1), 2, 3, 4 fails *)
Definition always_fails : hook := fun _ => Some XValue.
Definition h_fail : list op := [i_logon 1; i_app 2; i_app 3; i_app 4].

