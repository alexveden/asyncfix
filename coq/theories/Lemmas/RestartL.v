(* Proofs about the counter-ledger / restart model Fix/Restart.v (C09).
   The invariant Inv is carried through the handlers by three relations between a world and a later one of the same
   incarnation, each used through `keeps P R m` (from P the computation m leads to an R-related world): Quiet (no
   journal write, nothing original sent: servicing a ResendRequest), Rel (original sends and live-state changes, the
   inbound side frozen), Step (Inv holds afterwards; an inbound frame may have been counted).  What they share about
   the log is `ext`; across restarts the transport history is followed by `wext`. *)
From Coq Require Import ZArith List Bool Lia.
From AF Require Import Fix.Restart.
Import ListNotations.
Open Scope Z_scope.

Lemma replay_app : forall b l1 l2, replay b (l1 ++ l2) = fold_left estep l2 (replay b l1).
Proof. intros. unfold replay. apply fold_left_app. Qed.

Definition with_log (w : world) (l : list effect) : world :=
  mkW (nin w) (nout w) (st w) (rl w) (maxres w) (dlv w) (ctor w) (base w) l (past w).

(* the world after `emit l` *)
Definition add_log (w : world) (l : list effect) : world := with_log w (log w ++ l).

Lemma db_add_log : forall w l, db (add_log w l) = fold_left estep l (db w).
Proof. intros. unfold db. cbn [base log add_log with_log]. apply replay_app. Qed.

Lemma add_log_nil : forall w, add_log w [] = w.
Proof. intros [ni no s r mr dl ct ba lg pa]. unfold add_log, with_log. cbn [log]. rewrite app_nil_r. reflexivity. Qed.

Lemma add_log_app : forall w l1 l2, add_log (add_log w l1) l2 = add_log w (l1 ++ l2).
Proof. intros. unfold add_log, with_log. cbn [nin nout st rl maxres dlv ctor base log past]. rewrite app_assoc. reflexivity. Qed.

Lemma writes_app : forall l1 l2, writes (l1 ++ l2) = writes l1 ++ writes l2.
Proof.
  induction l1 as [|e l1 IH]; intros; cbn [app writes]; [reflexivity|].
  destruct e; cbn [writes app]; rewrite ?IH; reflexivity.
Qed.

Lemma writes_stmts : forall ps, writes (map EStmt ps) = [].
Proof. induction ps; cbn; auto. Qed.

Fixpoint nstmts (l : list effect) : nat :=
  match l with
  | [] => O
  | EStmt _ :: l' => S (nstmts l')
  | _ :: l' => nstmts l'
  end.

Lemma nstmts_app : forall l1 l2, nstmts (l1 ++ l2) = (nstmts l1 + nstmts l2)%nat.
Proof. induction l1 as [|e l1 IH]; intros; cbn [app nstmts]; [reflexivity|]. destruct e; cbn; rewrite ?IH; reflexivity. Qed.

Lemma fold_estep_nstmts : forall l d, nstmts l = O -> fold_left estep l d = d.
Proof.
  induction l as [|e l IH]; intros d H; cbn [fold_left]; [reflexivity|].
  destruct e; cbn [nstmts] in H; try discriminate; cbn [estep]; apply IH; exact H.
Qed.

Lemma fold_estep_nonstmt : forall f d, fold_left estep [EWrite f; EDrain] d = d.
Proof. intros. apply fold_estep_nstmts. reflexivity. Qed.

Definition ins_out_tab (t : jtab) (f : frame) : jtab := mkJ (sin t) (f_seq f) (rin t) (rout t ++ [f]).
Definition ins_in_tab (t : jtab) (n : Z) : jtab := mkJ n (sout t) (rin t ++ [n]) (rout t).
Definition set_tab (t : jtab) (i o : Z) : jtab :=
  mkJ (i - 1) (o - 1) (filter (fun n => negb (i <=? n)) (rin t)) (filter (fun f => negb (o <=? f_seq f)) (rout t)).

Definition persist_out_prims (f : frame) := [PInsOut f; PUpdOut (f_seq f); PCommit].
Definition persist_in_prims (n : Z) := [PInsIn n; PUpdIn n; PCommit].
Definition set_prims (i o : Z) := [PUpdBoth (i - 1) (o - 1); PDelIn i; PDelOut o; PCommit].

(* unfold the operations of the monad and the field setters, not the handlers *)
Ltac munfold :=
  cbv beta iota delta [bind ret raise get upd catch assert_ set_st set_rl set_maxres set_nin set_nout deliver emit].
Ltac munfold_in H :=
  cbv beta iota delta [bind ret raise get upd catch assert_ set_st set_rl set_maxres set_nin set_nout deliver emit] in H.

Lemma jexec_eq : forall ps w,
  jexec ps w = (inl (snd (run_prims ps (db w))), add_log w (map EStmt (fst (run_prims ps (db w))))).
Proof.
  intros. unfold jexec, bind, get, emit, upd, ret. destruct (run_prims ps (db w)) as [done ok]. reflexivity.
Qed.

Lemma persist_out_ok : forall f w, has_out (jt w) (f_seq f) = false ->
  persist_out f w = (inl tt, add_log w (map EStmt (persist_out_prims f)))
  /\ db (add_log w (map EStmt (persist_out_prims f))) = mkDb (ins_out_tab (jt w) f) (ins_out_tab (jt w) f).
Proof.
  intros f w H. unfold persist_out, bind. rewrite jexec_eq, db_add_log. unfold jt in *.
  cbn [persist_out_prims run_prims exec_prim apply_stmt map fold_left estep fst]. rewrite H. split; reflexivity.
Qed.

Lemma persist_out_dup : forall f w, has_out (jt w) (f_seq f) = true ->
  persist_out f w = (inr XDup, with_log w (log w ++ [EStmt (PInsOut f)]))
  /\ db (with_log w (log w ++ [EStmt (PInsOut f)])) = db w.
Proof.
  intros f w H. fold (add_log w [EStmt (PInsOut f)]). unfold persist_out, bind. rewrite jexec_eq, db_add_log. unfold jt in *.
  cbn [run_prims exec_prim apply_stmt map fold_left estep fst]. rewrite H. split; reflexivity.
Qed.

Lemma persist_in_ok : forall n w, has_in (jt w) n = false ->
  persist_in n w = (inl tt, add_log w (map EStmt (persist_in_prims n)))
  /\ db (add_log w (map EStmt (persist_in_prims n))) = mkDb (ins_in_tab (jt w) n) (ins_in_tab (jt w) n).
Proof.
  intros n w H. unfold persist_in, bind. rewrite jexec_eq, db_add_log. unfold jt in *.
  cbn [persist_in_prims run_prims exec_prim apply_stmt map fold_left estep fst]. rewrite H. split; reflexivity.
Qed.

Lemma persist_in_dup : forall n w, has_in (jt w) n = true ->
  persist_in n w = (inr XDup, with_log w (log w ++ [EStmt (PInsIn n)]))
  /\ db (with_log w (log w ++ [EStmt (PInsIn n)])) = db w.
Proof.
  intros n w H. fold (add_log w [EStmt (PInsIn n)]). unfold persist_in, bind. rewrite jexec_eq, db_add_log. unfold jt in *.
  cbn [run_prims exec_prim apply_stmt map fold_left estep fst]. rewrite H. split; reflexivity.
Qed.

(* the world after set_seq_num wrote counters i (in) and o (out) *)
Definition set_world (w : world) (i o : Z) : world :=
  mkW i o (st w) (rl w) (maxres w) (dlv w) (ctor w) (base w) (log w ++ map EStmt (set_prims i o)) (past w).

Lemma db_set_world : forall w i o, db (set_world w i o) = mkDb (set_tab (jt w) i o) (set_tab (jt w) i o).
Proof. intros. unfold db, set_world. cbn [base log]. rewrite replay_app. reflexivity. Qed.

Lemma jt_set_world : forall w i o, jt (set_world w i o) = set_tab (jt w) i o.
Proof. intros. unfold jt at 1. rewrite db_set_world. reflexivity. Qed.

(* the last step of set_seq_num: the live counters are written to the session row, rows from them on are deleted *)
Lemma set_seq_num_write : forall w,
  (w0 <- get ;; jexec (set_prims (nin w0) (nout w0)) ;;; ret tt) w = (inl tt, set_world w (nin w) (nout w)).
Proof. intros. unfold bind, get. rewrite jexec_eq. reflexivity. Qed.

Lemma set_seq_num_in : forall v w,
  set_seq_num None (Some v) w = if 0 <? v then (inl tt, set_world w v (nout w)) else (inr XAssert, w).
Proof.
  intros. unfold set_seq_num. unfold bind at 1 2 3. unfold ret at 1. unfold assert_, set_nin, upd.
  destruct (0 <? v); [|reflexivity]. apply set_seq_num_write.
Qed.

Lemma set_seq_num_out : forall v w,
  set_seq_num (Some v) None w = if 0 <? v then (inl tt, set_world w (nin w) v) else (inr XAssert, w).
Proof.
  intros. unfold set_seq_num. unfold bind at 1 2 3. unfold ret at 2. unfold assert_, set_nout, upd.
  destruct (0 <? v); [|reflexivity]. apply set_seq_num_write.
Qed.

(* the state gates and the TestRequest gate of send_msg: the state class and role after them, None = refused *)
Definition send_gate (w : world) (m : frame) : option (cstate * role) :=
  if mtype_eqb (f_type m) TTest then None
  else if is_disc (st w) then None
  else if cstate_eqb (st w) NCE then
    if mtype_eqb (f_type m) TLogon || mtype_eqb (f_type m) TLogout then Some (LogonSent, Initiator) else None
  else if role_eqb (rl w) Initiator then
    (if cstate_eqb (st w) LogonSent && negb (mtype_eqb (f_type m) TLogout) then None else Some (st w, rl w))
  else if cstate_eqb (st w) LogonRecv && negb (mtype_eqb (f_type m) TLogon) && negb (mtype_eqb (f_type m) TLogout)
  then None else Some (st w, rl w).

Definition own_number (m : frame) : bool := mtype_eqb (f_type m) TSeqReset || f_pd m.

Definition out_frame (m : frame) (n : Z) : frame := mkF (f_type m) n (f_pd m) (f_a m) (f_b m).

(* the effects of a completed original send: journal first, then the transport *)
Definition send_effects (f : frame) : list effect := map EStmt (persist_out_prims f) ++ [EWrite f; EDrain].

(* the world in which the gates have been passed *)
Definition allocw (w : world) (s : cstate) (r : role) (no : Z) : world :=
  mkW (nin w) no s r (maxres w) (dlv w) (ctor w) (base w) (log w) (past w).

(* send_pre after the gates: number selection of the codec, journal write *)
Definition send_rest (m : frame) : M frame :=
  w <- get ;;
  n <- (if own_number m then ret (f_seq m) else set_nout (nout w + 1) ;;; ret (nout w)) ;;
  (if unjournaled m then ret tt else persist_out (out_frame m n)) ;;;
  ret (out_frame m n).

Lemma send_pre_gate : forall w m,
  send_pre m w = match send_gate w m with
                 | None => (inr XConn, w)
                 | Some (s, r) => send_rest m (allocw w s r (nout w))
                 end.
Proof.
  intros [ni no s0 r0 mr dl ct ba lg pa] m. unfold send_pre, send_gate, send_rest, own_number, out_frame, allocw. munfold.
  cbn [nin nout st rl maxres dlv ctor base log past].
  destruct (mtype_eqb (f_type m) TTest) eqn:Ht.
  { destruct (f_type m); try discriminate. destruct s0, r0; reflexivity. }
  destruct (is_disc s0); [reflexivity|]. destruct (cstate_eqb s0 NCE).
  { destruct (mtype_eqb (f_type m) TLogon || mtype_eqb (f_type m) TLogout); reflexivity. }
  destruct (role_eqb r0 Initiator).
  - destruct (cstate_eqb s0 LogonSent && negb (mtype_eqb (f_type m) TLogout)); reflexivity.
  - destruct (cstate_eqb s0 LogonRecv && negb (mtype_eqb (f_type m) TLogon) && negb (mtype_eqb (f_type m) TLogout)); reflexivity.
Qed.

(* the world after the journal write of an original send *)
Definition journaled_w (w : world) (s : cstate) (r : role) (f : frame) : world :=
  mkW (nin w) (nout w + 1) s r (maxres w) (dlv w) (ctor w) (base w) (log w ++ map EStmt (persist_out_prims f)) (past w).

Lemma db_journaled_w : forall w s r f, has_out (jt w) (f_seq f) = false ->
  db (journaled_w w s r f) = mkDb (ins_out_tab (jt w) f) (ins_out_tab (jt w) f).
Proof. intros w s r f Hh. exact (proj2 (persist_out_ok f w Hh)). Qed.

Lemma unjournaled_own : forall m, unjournaled m = true -> own_number m = true.
Proof.
  intros m H. unfold unjournaled in H. unfold own_number. destruct (f_pd m); [apply orb_true_r|].
  cbn in H. apply andb_prop in H. destruct H as [H _]. rewrite H. reflexivity.
Qed.

Lemma send_rest_orig : forall m w s r, own_number m = false -> has_out (jt w) (nout w) = false ->
  send_rest m (allocw w s r (nout w)) = (inl (out_frame m (nout w)), journaled_w w s r (out_frame m (nout w))).
Proof.
  intros m w s r Ho Hh. unfold send_rest. munfold. rewrite Ho.
  destruct (unjournaled m) eqn:Hu; [rewrite (unjournaled_own m Hu) in Ho; discriminate|].
  destruct (persist_out_ok (out_frame m (nout w)) (allocw w s r (nout w + 1)) Hh) as [Hp _].
  unfold allocw in *. cbn [nin nout st rl maxres dlv ctor base log past]. rewrite Hp. reflexivity.
Qed.

Lemma send_rest_unj : forall m w, unjournaled m = true -> send_rest m w = (inl (out_frame m (f_seq m)), w).
Proof.
  intros m w Hu. unfold send_rest. munfold. rewrite (unjournaled_own m Hu), Hu. reflexivity.
Qed.

(* send_msg and send_fault are send_pre followed by transport effects `tail f` and the outcome x *)
Definition send_then (x : unit + exc) (tail : frame -> list effect) (m : frame) : M unit :=
  fun w => let (r, W) := send_pre m w in
           match r with inl f => (x, add_log W (tail f)) | inr e => (inr e, W) end.

Lemma send_msg_then : forall m w, send_msg m w = send_then (inl tt) (fun f => [EWrite f; EDrain]) m w.
Proof.
  intros. unfold send_msg, send_then, bind. destruct (send_pre m w) as [[f|e] W]; [|reflexivity].
  munfold. apply f_equal. apply (add_log_app W [EWrite f] [EDrain]).
Qed.

Lemma send_fault_then : forall d m w,
  send_fault d m w = send_then (inr XIO) (fun f => if d then [EWrite f] else []) m w.
Proof.
  intros. unfold send_fault, send_then, bind. destruct (send_pre m w) as [[f|e] W]; [|reflexivity].
  destruct d; [reflexivity|]. rewrite add_log_nil. reflexivity.
Qed.

(* what follows the journal write touches only the transport, and writes nothing but the frame *)
Definition transport (f : frame) (tail : list effect) : Prop :=
  nstmts tail = O /\ forall g, In g (writes tail) -> g = f.

Lemma transport_sent : forall f, transport f [EWrite f; EDrain].
Proof. intros f. split; [reflexivity|]. intros g [<-|[]]. reflexivity. Qed.

Lemma transport_fault : forall (d : bool) f, transport f (if d then [EWrite f] else []).
Proof. intros [] f; (split; [reflexivity|]); [intros g [<-|[]]; reflexivity|intros g []]. Qed.

Lemma transport_firstn : forall f i, transport f (firstn i [EWrite f; EDrain]).
Proof. intros f [|[|[|i]]]; (split; [reflexivity|]); cbn; intuition. Qed.

Lemma gate_awaiting : forall w m s r, send_gate w m = Some (s, r) -> s = Awaiting -> st w = Awaiting.
Proof.
  intros w m s r Hg Hs. unfold send_gate in Hg.
  destruct (mtype_eqb _ TTest); [discriminate|]. destruct (is_disc _); [discriminate|].
  destruct (cstate_eqb _ NCE); [destruct (_ || _); congruence|].
  destruct (role_eqb _ _); destruct (_ && _); congruence.
Qed.

Lemma gate_logout : forall w m, is_disc (st w) = false -> f_type m = TLogout -> send_gate w m <> None.
Proof.
  intros w m Hd Ht. unfold send_gate. rewrite Hd, Ht. cbn [mtype_eqb orb negb andb].
  destruct (cstate_eqb (st w) NCE); [discriminate|]. rewrite !andb_false_r.
  destruct (role_eqb (rl w) Initiator); discriminate.
Qed.

Definition clean (w : world) : Prop := committed (db w) = cur (db w).
Definition Stored_eq (w : world) : Prop := sin (jt w) + 1 = nin w /\ sout (jt w) + 1 = nout w.
Definition Out_ok (w : world) : Prop :=
  clean w /\ sout (jt w) + 1 = nout w /\ (forall f, In f (rout (jt w)) -> f_seq f < nout w) /\ 0 < nout w.
Definition In_ok (w : world) : Prop :=
  sin (jt w) + 1 = nin w /\ (forall n, In n (rin (jt w)) -> n < nin w) /\ 0 < nin w.
Definition AwOk (w : world) : Prop := st w = Awaiting -> 0 < maxres w.
Definition Inv (w : world) : Prop := Out_ok w /\ In_ok w /\ AwOk w.

Lemma Inv_Out : forall w, Inv w -> Out_ok w. Proof. intros w H; apply H. Qed.

Lemma Inv_nin : forall w, Inv w -> 0 < nin w. Proof. intros w (_ & (_ & _ & H) & _); exact H. Qed.

Lemma has_out_false : forall t n, (forall f, In f (rout t) -> f_seq f < n) -> has_out t n = false.
Proof.
  intros t n H. unfold has_out. apply not_true_is_false. intro E.
  apply existsb_exists in E. destruct E as [f [Hf He]]. apply H in Hf. lia.
Qed.

Lemma has_in_false : forall t n, (forall k, In k (rin t) -> k < n) -> has_in t n = false.
Proof.
  intros t n H. unfold has_in. apply not_true_is_false. intro E.
  apply existsb_exists in E. destruct E as [k [Hk He]]. apply H in Hk. lia.
Qed.

(* worlds with the same journal, transport history and outbound counter *)
Definition journal_eq (a b : world) : Prop :=
  nout a = nout b /\ base a = base b /\ log a = log b /\ past a = past b /\ ctor a = ctor b.

(* ... that differ in live fields other than the counters *)
Definition live_eq (a b : world) : Prop := nin a = nin b /\ journal_eq a b.

Ltac live_tac := repeat split; reflexivity.

Lemma journal_eq_jt : forall a b, journal_eq a b -> jt a = jt b.
Proof. intros a b (_ & Hb & Hl & _). unfold jt, db. rewrite Hb, Hl. reflexivity. Qed.

Lemma Out_ok_ext : forall a b, journal_eq a b -> Out_ok a -> Out_ok b.
Proof.
  intros a b J H. pose proof J as (Hn & Hb & Hl & _). unfold Out_ok, clean, jt, db in *. rewrite <- Hn, <- Hb, <- Hl. exact H.
Qed.

Lemma Inv_live : forall a b, live_eq a b -> Inv a -> AwOk b -> Inv b.
Proof.
  intros a b [Hn J] (Ho & Hi & _) Ha. split; [exact (Out_ok_ext a b J Ho)|]. split; [|exact Ha].
  unfold In_ok. rewrite <- (journal_eq_jt a b J), <- Hn. exact Hi.
Qed.

(* the original frames of l carry numbers in [lo, hi) *)
Definition numbered (lo hi : Z) (l : list frame) : Prop :=
  forall f, In f l -> original f = true -> lo <= f_seq f < hi.

Lemma numbered_app : forall lo mid hi l1 l2, lo <= mid <= hi ->
  numbered lo mid l1 -> numbered mid hi l2 -> numbered lo hi (l1 ++ l2).
Proof.
  intros lo mid hi l1 l2 Hm N1 N2 f Hf Ho. apply in_app_or in Hf. destruct Hf as [Hf|Hf].
  - specialize (N1 f Hf Ho). lia.
  - specialize (N2 f Hf Ho). lia.
Qed.

(* w' is a later world of the same incarnation: the log has grown, the original frames written since carry the numbers
   from next_num_out of w up to that of w'.  Rel (r_mono .. r_ctor) and Step (s_mono .. s_ctor) spell this out again;
   they are built and used only through Rel_intro / Rel_ext and Step_intro / Step_ext *)
Definition ext (w w' : world) : Prop :=
  nout w <= nout w'
  /\ (exists l, log w' = log w ++ l /\ numbered (nout w) (nout w') (writes l))
  /\ base w' = base w /\ past w' = past w /\ ctor w' = ctor w.

Lemma ext_refl : forall w, ext w w.
Proof. intros w. split; [lia|]. split; [|auto]. exists []. split; [symmetry; apply app_nil_r|]. intros f []. Qed.

Lemma ext_trans : forall a b c, ext a b -> ext b c -> ext a c.
Proof.
  intros a b c (M1 & (l1 & L1 & N1) & B1 & P1 & C1) (M2 & (l2 & L2 & N2) & B2 & P2 & C2).
  split; [lia|]. split; [|repeat split; congruence].
  exists (l1 ++ l2). rewrite L2, L1, app_assoc, writes_app. split; [reflexivity|].
  apply (numbered_app _ (nout b)); auto.
Qed.

Lemma ext_quiet : forall w w' l, nout w' = nout w -> log w' = log w ++ l ->
  (forall f, In f (writes l) -> original f = false) ->
  base w' = base w -> past w' = past w -> ctor w' = ctor w -> ext w w'.
Proof.
  intros w w' l Hn Hl Hw Hb Hp Hc. split; [lia|]. split; [|auto].
  exists l. split; [exact Hl|]. intros f Hf Ho. rewrite (Hw f Hf) in Ho. discriminate.
Qed.

Lemma ext_journal_eq : forall a b, journal_eq a b -> ext a b.
Proof.
  intros a b (Hn & Hb & Hl & Hp & Hc). apply (ext_quiet a b []); auto; [rewrite app_nil_r; auto|intros f []].
Qed.

(* w' is w after original sends and live-state changes only: inbound side frozen, outbound side consistent *)
Record Rel (w w' : world) : Prop := mkRel {
  r_nin : nin w' = nin w;
  r_sin : sin (jt w') = sin (jt w);
  r_rin : rin (jt w') = rin (jt w);
  r_out : Out_ok w';
  r_mono : nout w <= nout w';
  r_log : exists l, log w' = log w ++ l
                    /\ (forall f, In f (writes l) -> original f = true -> nout w <= f_seq f < nout w');
  r_base : base w' = base w;
  r_past : past w' = past w;
  r_ctor : ctor w' = ctor w;
  r_aw : AwOk w -> AwOk w'
}.

Lemma Rel_intro : forall w w', ext w w' -> nin w' = nin w -> sin (jt w') = sin (jt w) -> rin (jt w') = rin (jt w) ->
  Out_ok w' -> (AwOk w -> AwOk w') -> Rel w w'.
Proof. intros w w' (M & L & B & P & C) Hn Hs Hr Ho Ha. constructor; auto. Qed.

Lemma Rel_ext : forall w w', Rel w w' -> ext w w'.
Proof. intros w w' []. repeat split; assumption. Qed.

Lemma Rel_refl : forall w, Out_ok w -> Rel w w.
Proof. intros w Ho. apply Rel_intro; auto using ext_refl. Qed.

Lemma Rel_trans : forall a b c, Rel a b -> Rel b c -> Rel a c.
Proof.
  intros a b c R1 R2. apply Rel_intro.
  - exact (ext_trans a b c (Rel_ext _ _ R1) (Rel_ext _ _ R2)).
  - rewrite (r_nin _ _ R2). apply R1.
  - rewrite (r_sin _ _ R2). apply R1.
  - rewrite (r_rin _ _ R2). apply R1.
  - apply R2.
  - intros H. apply R2, R1, H.
Qed.

Lemma Rel_frame : forall a b c d, Rel b c -> live_eq a b -> live_eq c d -> (AwOk a -> AwOk d) -> Rel a d.
Proof.
  intros a b c d R [Na Ja] [Nc Jc] Ha. apply Rel_intro.
  - apply (ext_trans a b); [apply ext_journal_eq, Ja|]. apply (ext_trans b c); [apply Rel_ext, R|apply ext_journal_eq, Jc].
  - rewrite <- Nc, Na. apply R.
  - rewrite <- (journal_eq_jt c d Jc), (journal_eq_jt a b Ja). apply R.
  - rewrite <- (journal_eq_jt c d Jc), (journal_eq_jt a b Ja). apply R.
  - apply (Out_ok_ext c d Jc), R.
  - exact Ha.
Qed.

(* the world after an original send: journaled under next_num_out, then transport effects *)
Lemma db_journaled : forall w s r f tail, Out_ok w -> f_seq f = nout w -> transport f tail ->
  db (add_log (journaled_w w s r f) tail) = mkDb (ins_out_tab (jt w) f) (ins_out_tab (jt w) f).
Proof.
  intros w s r f tail Ho Hf [Hn _]. rewrite db_add_log, (fold_estep_nstmts tail _ Hn).
  apply db_journaled_w. rewrite Hf. apply has_out_false, Ho.
Qed.

Lemma journaled_rel : forall w s r f tail, Out_ok w -> f_seq f = nout w -> transport f tail ->
  (s = Awaiting -> st w = Awaiting) -> Rel w (add_log (journaled_w w s r f) tail).
Proof.
  intros w s r f tail Ho Hf Ht Hs. pose proof (db_journaled w s r f tail Ho Hf Ht) as Hd.
  destruct Ht as [Hn Hw]. destruct Ho as (Hc & Hso & Hro & Hp).
  apply Rel_intro; unfold Out_ok, clean, jt; rewrite ?Hd; try reflexivity.
  - split; [cbn; lia|]. split; [|auto]. exists (map EStmt (persist_out_prims f) ++ tail).
    split; [symmetry; apply app_assoc|]. rewrite writes_app, writes_stmts.
    intros g Hg _. rewrite (Hw g Hg). cbn. lia.
  - cbn [committed cur ins_out_tab sout rout nout add_log with_log journaled_w].
    repeat split; try lia. intros g Hg. apply in_app_or in Hg. destruct Hg as [Hg|[<-|[]]]; [apply Hro in Hg|]; lia.
  - intros Ha E. apply Ha, Hs, E.
Qed.

(* w' is w after PossDup copies / gap fills and state changes only: no SQL statement, counters untouched,
   nothing original on the wire *)
Record Quiet (w w' : world) : Prop := mkQuiet {
  k_nin : nin w' = nin w;
  k_nout : nout w' = nout w;
  k_log : exists l, log w' = log w ++ l /\ nstmts l = O /\ (forall f, In f (writes l) -> original f = false);
  k_base : base w' = base w;
  k_past : past w' = past w;
  k_ctor : ctor w' = ctor w;
  k_aw : AwOk w -> AwOk w'
}.

Lemma Quiet_live : forall w w', live_eq w w' -> (AwOk w -> AwOk w') -> Quiet w w'.
Proof.
  intros w w' (Hn & Ho & Hb & Hl & Hp & Hc) Ha. constructor; auto.
  exists []. rewrite app_nil_r. split; [auto|]. split; [reflexivity|intros f []].
Qed.

Lemma Quiet_refl : forall w, Quiet w w.
Proof. intros w. apply Quiet_live; [repeat split|auto]. Qed.

Lemma Quiet_trans : forall a b c, Quiet a b -> Quiet b c -> Quiet a c.
Proof.
  intros a b c [n1 o1 [l1 [L1 [C1 W1]]] b1 p1 t1 a1] [n2 o2 [l2 [L2 [C2 W2]]] b2 p2 t2 a2].
  constructor; try congruence; auto.
  exists (l1 ++ l2). rewrite L2, L1, app_assoc. split; [reflexivity|]. split.
  - rewrite nstmts_app, C1, C2. reflexivity.
  - intros f Hf. rewrite writes_app in Hf. apply in_app_or in Hf. destruct Hf; auto.
Qed.

Lemma Quiet_db : forall w w', Quiet w w' -> db w' = db w.
Proof.
  intros w w' [_ _ [l [L [C _]]] B _ _ _]. unfold db. rewrite B, L, replay_app. apply fold_estep_nstmts. exact C.
Qed.

Lemma Quiet_Rel : forall w w', Out_ok w -> Quiet w w' -> Rel w w'.
Proof.
  intros w w' Ho Q. pose proof (Quiet_db _ _ Q) as Hdb.
  destruct Q as [n o [l [L [C W]]] b p t a].
  apply Rel_intro; auto; unfold jt; rewrite ?Hdb; auto.
  - apply (ext_quiet w w' l); auto.
  - unfold Out_ok, clean, jt in *. rewrite Hdb, o. exact Ho.
Qed.

Lemma Rel_live : forall w w', Out_ok w -> live_eq w w' -> (AwOk w -> AwOk w') -> Rel w w'.
Proof. intros w w' Ho Hl Ha. apply Quiet_Rel; [exact Ho|]. apply Quiet_live; assumption. Qed.

Lemma own_not_original : forall m n, own_number m = true -> original (out_frame m n) = false.
Proof.
  intros m n H. unfold own_number in H. unfold original, out_frame. cbn [f_pd f_type].
  destruct (f_pd m); cbn; [reflexivity|]. rewrite orb_false_r in H. rewrite H. reflexivity.
Qed.

(* the world after an unjournaled send: transport effects only *)
Lemma unjournaled_quiet : forall w s r f tail, original f = false -> transport f tail ->
  (s = Awaiting -> st w = Awaiting) -> Quiet w (add_log (allocw w s r (nout w)) tail).
Proof.
  intros w s r f tail Hf [Hn Hw] Hs. constructor; try reflexivity.
  - exists tail. split; [reflexivity|]. split; [exact Hn|]. intros g Hg. rewrite (Hw g Hg). exact Hf.
  - intros Ha E. apply Ha, Hs, E.
Qed.

(* from a world satisfying P, the computation m leads to an R-related world, whatever its outcome *)
Definition keeps (P : world -> Prop) (R : world -> world -> Prop) {A} (m : M A) : Prop :=
  forall w r w', P w -> m w = (r, w') -> R w w'.

Record closed (P : world -> Prop) (R : world -> world -> Prop) : Prop := mkClosed {
  c_refl : forall w, P w -> R w w;
  c_trans : forall a b c, R a b -> R b c -> R a c;
  c_pres : forall w w', P w -> R w w' -> P w'
}.

Section Keeps.
  Variables (P : world -> Prop) (R : world -> world -> Prop).
  Hypothesis C : closed P R.

  Lemma keeps_ret : forall A (a : A), keeps P R (ret a).
  Proof. intros A a w r w' Hp H. inversion H; subst. apply C, Hp. Qed.

  Lemma keeps_raise : forall A e, keeps P R (@raise A e).
  Proof. intros A e w r w' Hp H. inversion H; subst. apply C, Hp. Qed.

  Lemma keeps_get : keeps P R get.
  Proof. intros w r w' Hp H. inversion H; subst. apply C, Hp. Qed.

  Lemma keeps_assert : forall b, keeps P R (assert_ b).
  Proof. intros []; [apply keeps_ret|apply keeps_raise]. Qed.

  Lemma keeps_bind : forall A B (m : M A) (k : A -> M B), keeps P R m -> (forall a, keeps P R (k a)) -> keeps P R (bind m k).
  Proof.
    intros A B m k Hm Hk w r w' Hp H. unfold bind in H.
    destruct (m w) as [[a|e] w1] eqn:E.
    - pose proof (Hm _ _ _ Hp E) as R1. apply (c_trans P R C w w1); [exact R1|].
      apply (Hk a w1 r w'); [exact (c_pres P R C w w1 Hp R1)|exact H].
    - inversion H; subst. exact (Hm _ _ _ Hp E).
  Qed.

  Lemma keeps_catch : forall A (m : M A), keeps P R m -> keeps P R (catch m).
  Proof.
    intros A m Hm w r w' Hp H. unfold catch in H. destruct (m w) as [x w1] eqn:E.
    inversion H; subst. exact (Hm _ _ _ Hp E).
  Qed.

  Lemma keeps_if : forall A (b : bool) (m1 m2 : M A), keeps P R m1 -> keeps P R m2 -> keeps P R (if b then m1 else m2).
  Proof. intros A [] m1 m2 H1 H2; assumption. Qed.
End Keeps.

Lemma keeps_sub : forall (P P' : world -> Prop) (R R' : world -> world -> Prop) A (m : M A),
  (forall w, P' w -> P w) -> (forall w w', P' w -> R w w' -> R' w w') -> keeps P R m -> keeps P' R' m.
Proof. intros P P' R R' A m HP HR Hm w r w' Hp H. apply HR; [exact Hp|]. exact (Hm w r w' (HP w Hp) H). Qed.

Definition any (w : world) : Prop := True.

Lemma Quiet_closed : closed any Quiet.
Proof. split; [intros; apply Quiet_refl|exact Quiet_trans|constructor]. Qed.

Lemma Rel_closed : closed Out_ok Rel.
Proof. split; [exact Rel_refl|exact Rel_trans|intros w w' _ H; apply H]. Qed.

Lemma send_then_unj : forall x tail m, (forall f, transport f (tail f)) -> unjournaled m = true ->
  keeps any Quiet (send_then x tail m).
Proof.
  intros x tail m Ht Hu w r w' _ H. unfold send_then in H. rewrite send_pre_gate in H.
  destruct (send_gate w m) as [[s ro]|] eqn:Hg.
  - rewrite (send_rest_unj m _ Hu) in H. inversion H; subst r w'.
    apply (unjournaled_quiet w s ro (out_frame m (f_seq m))); auto.
    + apply own_not_original, unjournaled_own, Hu.
    + exact (gate_awaiting w m s ro Hg).
  - inversion H; subst. apply Quiet_refl.
Qed.

Lemma Quiet_send : forall m, unjournaled m = true -> keeps any Quiet (send_msg m).
Proof.
  intros m Hu w r w' Hp H. rewrite send_msg_then in H. revert H. apply send_then_unj; auto using transport_sent.
Qed.

Lemma Quiet_upd : forall g, (forall w, live_eq w (g w)) -> (forall w, AwOk w -> AwOk (g w)) -> keeps any Quiet (upd g).
Proof. intros g Hl Ha w r w' _ H. inversion H; subst. apply Quiet_live; auto. Qed.

Lemma Quiet_set_st : forall s, s <> Awaiting -> keeps any Quiet (set_st s).
Proof. intros s Hs. apply Quiet_upd; [intros; live_tac|]. intros w _ E. contradiction. Qed.

Lemma Quiet_set_rl : forall x, keeps any Quiet (set_rl x).
Proof. intros x. apply Quiet_upd; [intros; live_tac|auto]. Qed.

Lemma Quiet_deliver : forall n, keeps any Quiet (deliver n).
Proof. intros n. apply Quiet_upd; [intros; live_tac|auto]. Qed.

(* what _process_resend sends: gap fills and PossDup copies *)
Lemma Quiet_gap_fill : forall b e, keeps any Quiet (send_msg (mkF TSeqReset b false e 1)).
Proof. intros. apply Quiet_send. reflexivity. Qed.

Lemma Quiet_poss_dup : forall t n a b, keeps any Quiet (send_msg (mkF t n true a b)).
Proof. intros. apply Quiet_send. reflexivity. Qed.

(* `auto with keeps` walks a handler along its binds down to the leaves named in the database or after `using`; its
   number only bounds the nesting of the binds.  A state other than RESENDREQ_AWAITING may be set at any time:
   the side condition of Quiet_set_st is closed by discriminate *)
Create HintDb keeps discriminated.
#[local] Hint Resolve keeps_ret keeps_raise keeps_get keeps_assert keeps_bind keeps_catch keeps_if : keeps.
#[local] Hint Resolve Quiet_closed Rel_closed : keeps.
#[local] Hint Resolve Quiet_set_st Quiet_set_rl Quiet_deliver : keeps.
#[local] Hint Extern 1 (_ <> _) => discriminate : keeps.

Lemma Quiet_replay_loop : forall rows gfb gfe, keeps any Quiet (replay_loop rows gfb gfe).
Proof.
  induction rows as [|x rows IH]; intros gfb gfe; cbn [replay_loop]; [auto with keeps|].
  destruct (is_session_type (f_type x)); [apply IH|]. cbv zeta. auto 12 using Quiet_gap_fill, Quiet_poss_dup with keeps.
Qed.

(* servicing a ResendRequest writes neither the journal nor a counter, whatever the request and the journal: every
   frame it sends is a gap fill or a PossDup copy, the states it sets are RESENDREQ_HANDLING and ACTIVE *)
Lemma Quiet_process_resend : forall f, keeps any Quiet (process_resend f).
Proof.
  intros f. unfold process_resend. auto 12 using Quiet_replay_loop, Quiet_gap_fill with keeps.
Qed.

Lemma Rel_of_Quiet : forall A (m : M A), keeps any Quiet m -> keeps Out_ok Rel m.
Proof. intros A m. apply keeps_sub; [constructor|]. intros w w' Ho Q. apply Quiet_Rel; auto. Qed.

Lemma send_then_orig : forall x tail m w, own_number m = false -> Out_ok w ->
  send_then x tail m w =
    match send_gate w m with
    | None => (inr XConn, w)
    | Some (s, r) => (x, add_log (journaled_w w s r (out_frame m (nout w))) (tail (out_frame m (nout w))))
    end.
Proof.
  intros x tail m w Ho Hout. unfold send_then. rewrite send_pre_gate.
  destruct (send_gate w m) as [[s r]|]; [|reflexivity].
  rewrite send_rest_orig; [reflexivity|exact Ho|]. apply has_out_false, Hout.
Qed.

(* a send outside class D20 *)
Lemma send_then_rel : forall x tail m, (forall f, transport f (tail f)) ->
  own_number m && negb (unjournaled m) = false -> keeps Out_ok Rel (send_then x tail m).
Proof.
  intros x tail m Ht Hm. destruct (own_number m) eqn:Ho.
  { apply Rel_of_Quiet, send_then_unj; [exact Ht|]. apply negb_false_iff, Hm. }
  intros w r w' Hout H. rewrite (send_then_orig x tail m w Ho Hout) in H.
  destruct (send_gate w m) as [[s ro]|] eqn:Hg; inversion H; subst r w'; [|apply Rel_refl, Hout].
  apply journaled_rel; auto. exact (gate_awaiting w m s ro Hg).
Qed.

(* the world after a completed original send *)
Definition sent (w : world) (s : cstate) (r : role) (f : frame) : world :=
  add_log (journaled_w w s r f) [EWrite f; EDrain].

Lemma send_orig_eq : forall m w, own_number m = false -> Out_ok w ->
  send_msg m w = match send_gate w m with
                 | None => (inr XConn, w)
                 | Some (s, r) => (inl tt, sent w s r (out_frame m (nout w)))
                 end.
Proof. intros m w Ho Hout. rewrite send_msg_then. apply send_then_orig; assumption. Qed.

Lemma sent_rel : forall m w s r, Out_ok w -> send_gate w m = Some (s, r) -> Rel w (sent w s r (out_frame m (nout w))).
Proof.
  intros m w s r Hout Hg. apply journaled_rel; auto using transport_sent. exact (gate_awaiting w m s r Hg).
Qed.

Lemma Rel_send : forall m, own_number m && negb (unjournaled m) = false -> keeps Out_ok Rel (send_msg m).
Proof.
  intros m Hm w r w' Ho H. rewrite send_msg_then in H. revert H. apply send_then_rel; auto using transport_sent.
Qed.

Lemma disconnect_spec : forall b w r w', Out_ok w -> disconnect b w = (r, w') ->
  Rel w w' /\ r = inl tt /\ is_disc (st w') = true.
Proof.
  intros b w r w' Hout H. unfold disconnect in H. munfold_in H.
  destruct (is_disc (st w)) eqn:Hd.
  { inversion H; subst. auto using Rel_refl. }
  set (w1 := mkW (nin w) (nout w) (st w) (rl w) 0 (dlv w) (ctor w) (base w) (log w) (past w)) in *.
  assert (Hl1 : live_eq w w1) by live_tac.
  assert (Hout1 : Out_ok w1) by exact (Out_ok_ext w w1 (proj2 Hl1) Hout).
  destruct b.
  - set (m := mkF TLogout 0 false 0 0) in *.
    rewrite (send_orig_eq m w1 eq_refl Hout1) in H.
    destruct (send_gate w1 m) as [[s ro]|] eqn:Hg; [|exfalso; revert Hg; apply gate_logout; auto].
    inversion H; subst r w'. split; [|auto].
    apply (Rel_frame w w1 _ _ (sent_rel m w1 s ro Hout1 Hg) Hl1); [live_tac|intros _ E; discriminate].
  - inversion H; subst r w'. split; [|auto]. apply Rel_live; [exact Hout|live_tac|intros _ E; discriminate].
Qed.

Lemma Rel_disconnect : forall b, keeps Out_ok Rel (disconnect b).
Proof. intros b w r w' Ho H. apply (disconnect_spec b w r w' Ho H). Qed.

#[local] Hint Resolve Rel_of_Quiet Rel_disconnect : keeps.

Lemma Rel_process_logon : forall f, keeps Out_ok Rel (process_logon f).
Proof. intros f. unfold process_logon. auto 12 using (Rel_send (mkF TLogon 0 false 0 0) eq_refl) with keeps. Qed.

Lemma process_logon_rel : forall f w r w', Out_ok w -> process_logon f w = (r, w') -> Rel w w'.
Proof. exact Rel_process_logon. Qed.

Lemma Rel_pm_dispatch : forall f v, keeps Out_ok Rel (pm_dispatch f v).
Proof.
  intros f v. unfold pm_dispatch. destruct (f_type f); auto 12 using (Rel_send (mkF THb 0 false (f_a f) 0) eq_refl) with keeps.
  (* TResend: the request is serviced, then its outcome is examined *)
  apply (keeps_bind _ _ Rel_closed); [auto using Quiet_process_resend with keeps|intros [[]|e]; auto 12 with keeps].
Qed.

(* w' is w after one operation other than a restart: the invariant holds again, the log has grown as `ext` says *)
Record Step (w w' : world) : Prop := mkStep {
  s_inv : Inv w';
  s_mono : nout w <= nout w';
  s_log : exists l, log w' = log w ++ l
                    /\ (forall f, In f (writes l) -> original f = true -> nout w <= f_seq f < nout w');
  s_base : base w' = base w;
  s_past : past w' = past w;
  s_ctor : ctor w' = ctor w
}.

Lemma Step_intro : forall w w', Inv w' -> ext w w' -> Step w w'.
Proof. intros w w' HI (M & L & B & P & C). constructor; assumption. Qed.

Lemma Step_ext : forall w w', Step w w' -> ext w w'.
Proof. intros w w' []. repeat split; assumption. Qed.

Lemma Step_refl : forall w, Inv w -> Step w w.
Proof. intros w H. apply Step_intro; auto using ext_refl. Qed.

Lemma Step_trans : forall a b c, Step a b -> Step b c -> Step a c.
Proof. intros a b c S1 S2. apply Step_intro; [apply S2|]. exact (ext_trans a b c (Step_ext _ _ S1) (Step_ext _ _ S2)). Qed.

Lemma Rel_Step : forall w w', Inv w -> Rel w w' -> Step w w'.
Proof.
  intros w w' (_ & Hi & Ha) R. apply Step_intro; [|apply Rel_ext, R].
  split; [apply R|]. split; [|apply R, Ha].
  unfold In_ok. rewrite (r_sin _ _ R), (r_rin _ _ R), (r_nin _ _ R). exact Hi.
Qed.

Lemma Step_closed : closed Inv Step.
Proof. split; [exact Step_refl|exact Step_trans|intros w w' _ H; apply H]. Qed.

Lemma Step_of_Rel : forall A (m : M A), keeps Out_ok Rel m -> keeps Inv Step m.
Proof. intros A m. apply keeps_sub; [exact Inv_Out|exact Rel_Step]. Qed.

#[local] Hint Resolve Step_closed : keeps.

(* the inbound frame numbered n is counted: W is w with next_num_in = n + 1 (and perhaps other live fields changed),
   then the frame is journaled *)
Lemma count_in : forall w W n r w', Out_ok w -> journal_eq w W -> nin W = n + 1 -> 0 < n ->
  (forall k, In k (rin (jt w)) -> k < n) -> AwOk W -> persist_in n W = (r, w') ->
  Step w w' /\ r = inl tt /\ nin w' = n + 1 /\ sin (jt w') = n /\ nout w' = nout w /\ st w' = st W
  /\ writes (log w') = writes (log w).
Proof.
  intros w W n r w' Ho J Hn Hpos Hrows Ha H.
  pose proof (Out_ok_ext w W J Ho) as (Hc & Hs & Hr & Hp). pose proof J as (Jn & Jb & Jl & Jp & Jc).
  rewrite (journal_eq_jt w W J) in Hrows.
  destruct (persist_in_ok n W (has_in_false _ _ Hrows)) as [He Hd].
  assert (E : inl tt = r /\ add_log W (map EStmt (persist_in_prims n)) = w') by (rewrite He in H; split; congruence).
  destruct E as [<- <-]. clear H He.
  assert (Hj : jt (add_log W (map EStmt (persist_in_prims n))) = ins_in_tab (jt W) n) by (unfold jt at 1; rewrite Hd; reflexivity).
  split; [apply Step_intro|].
  - split; [|split].
    + unfold Out_ok, clean. rewrite Hd, Hj. auto.
    + unfold In_ok. rewrite Hj. cbn [sin rin ins_in_tab nin add_log with_log]. repeat split; try lia.
      intros k Hk. apply in_app_or in Hk. destruct Hk as [Hk|[<-|[]]]; [apply Hrows in Hk|]; lia.
    + exact Ha.
  - apply (ext_quiet w _ (map EStmt (persist_in_prims n))); cbn [nout base log past ctor add_log with_log]; try congruence.
    rewrite writes_stmts. intros f [].
  - rewrite Hj. cbn [nin nout st log add_log with_log sin ins_in_tab]. rewrite writes_app, writes_stmts, app_nil_r, Jl.
    repeat split; auto.
Qed.

(* finalize after the new next_num_in has been set; c is the number to be journaled as counted *)
Definition fin_count (f : frame) (c : Z) : M unit :=
  if c <=? 0 then ret tt
  else
    w <- get ;;
    (if cstate_eqb (st w) Awaiting then
       assert_ (0 <? maxres w) ;;;
       (if maxres w <=? c then set_maxres 0 ;;; set_st Active else ret tt)
     else ret tt) ;;;
    persist_in (f_seq f).

Definition with_nin (w : world) (n : Z) : world :=
  mkW n (nout w) (st w) (rl w) (maxres w) (dlv w) (ctor w) (base w) (log w) (past w).

Lemma finalize_eq : forall f w,
  finalize f w =
    if mtype_eqb (f_type f) TSeqReset then fin_count f (f_a f - 1) (with_nin w (f_a f))
    else if f_seq f =? nin w then fin_count f (f_seq f) (with_nin w (f_seq f + 1))
    else (inl tt, w).
Proof.
  intros. unfold finalize, bind at 1 2, get at 1.
  destruct (mtype_eqb (f_type f) TSeqReset); [reflexivity|]. destruct (f_seq f =? nin w); reflexivity.
Qed.

(* the RESENDREQ_AWAITING bookkeeping of finalize changes only the watermark and the state *)
Lemma fin_count_cases : forall f c W r w', AwOk W -> fin_count f c W = (r, w') ->
  exists W', live_eq W W' /\ AwOk W' /\ (cstate_eqb (st W) Awaiting = false -> st W' = st W)
             /\ if c <=? 0 then r = inl tt /\ w' = W' else persist_in (f_seq f) W' = (r, w').
Proof.
  intros f c W r w' Ha H. unfold fin_count in H. destruct (c <=? 0).
  { exists W. inversion H; subst. repeat split; auto. }
  munfold_in H. destruct (cstate_eqb (st W) Awaiting) eqn:Hst.
  2:{ exists W. repeat split; auto. }
  assert (Hm : (0 <? maxres W) = true) by (assert (0 < maxres W) by (apply Ha; destruct (st W); try discriminate; reflexivity); lia).
  rewrite Hm in H. destruct (maxres W <=? c).
  - exists (mkW (nin W) (nout W) Active (rl W) 0 (dlv W) (ctor W) (base W) (log W) (past W)).
    split; [live_tac|]. split; [intros E; discriminate|]. split; [discriminate|exact H].
  - exists W. repeat split; auto.
Qed.

Lemma finalize_inseq : forall f w r w', mtype_eqb (f_type f) TSeqReset = false -> Inv w -> f_seq f = nin w ->
  finalize f w = (r, w') ->
  Step w w' /\ r = inl tt /\ nin w' = nin w + 1 /\ sin (jt w') = nin w /\ nout w' = nout w
  /\ writes (log w') = writes (log w) /\ (cstate_eqb (st w) Awaiting = false -> st w' = st w).
Proof.
  intros f w r w' Hty HI Hseq H. pose proof HI as (_ & (_ & Hr & Hp) & Ha).
  rewrite finalize_eq, Hty, Hseq, Z.eqb_refl in H.
  apply fin_count_cases in H; [|exact Ha]. destruct H as (W' & [Hn J] & Ha' & Hst & H).
  assert (Hc : (nin w <=? 0) = false) by lia. rewrite Hc, Hseq in H.
  destruct (count_in w W' (nin w) r w' (Inv_Out w HI) J (eq_sym Hn) Hp Hr Ha' H) as (S & R' & N & Si & No & St & Wr).
  rewrite St. auto 10.
Qed.

Lemma Step_finalize : forall f, mtype_eqb (f_type f) TSeqReset = false -> keeps Inv Step (finalize f).
Proof.
  intros f Hty w r w' HI H. destruct (f_seq f =? nin w) eqn:Heq.
  - apply (finalize_inseq f w r w' Hty HI); [lia|exact H].
  - rewrite finalize_eq, Hty, Heq in H. inversion H; subst. apply Step_refl, HI.
Qed.

Lemma count_logout_spec : forall f w r w', Inv w -> count_logout f w = (r, w') ->
  Step w w' /\ (f_seq f = nin w -> r = inl tt /\ nin w' = nin w + 1 /\ sin (jt w') = nin w).
Proof.
  intros f w r w' HI H. pose proof HI as (_ & (_ & Hr & Hp) & Ha).
  unfold count_logout, bind, get in H. destruct (f_seq f =? nin w) eqn:Heq.
  2:{ inversion H; subst. split; [apply Step_refl, HI|lia]. }
  assert (Hfn : f_seq f = nin w) by lia. rewrite Hfn in H. unfold set_nin, upd in H.
  eapply count_in in H; [|exact (Inv_Out w HI)|live_tac|reflexivity|exact Hp|exact Hr|exact Ha].
  destruct H as (S & R' & N & Si & _). auto.
Qed.

Lemma Step_count_logout : forall f, keeps Inv Step (count_logout f).
Proof. intros f w r w' HI H. apply (count_logout_spec f w r w' HI H). Qed.

(* whatever the journal held, set_seq_num leaves it consistent with the counters it writes *)
Lemma set_world_inv : forall w i o, AwOk w -> 0 < i -> 0 < o -> Inv (set_world w i o).
Proof.
  intros w i o Ha Hi Ho. split; [|split; [|exact Ha]].
  - unfold Out_ok, clean. rewrite db_set_world, jt_set_world. cbn [committed cur sout rout set_tab nout set_world].
    repeat split; try lia. intros g Hg. apply filter_In in Hg. lia.
  - unfold In_ok. rewrite jt_set_world. cbn [sin rin set_tab nin set_world].
    repeat split; try lia. intros k Hk. apply filter_In in Hk. lia.
Qed.

Lemma set_world_out_inv : forall w o, clean w -> In_ok w -> AwOk w -> 0 < o ->
  Inv (set_world w (nin w) o).
Proof. intros w o _ Hi Ha Ho. apply set_world_inv; auto. apply Hi. Qed.

(* set_next_num_in: counters journaled, inbound rows from v on deleted *)
Lemma set_seq_num_in_spec : forall v w r w', Inv w -> set_seq_num None (Some v) w = (r, w') ->
  Step w w' /\ (r = inl tt -> 0 < v /\ nin w' = v /\ forall k, In k (rin (jt w')) -> k < v /\ In k (rin (jt w))).
Proof.
  intros v w r w' HI H. rewrite set_seq_num_in in H.
  destruct (0 <? v) eqn:Hv; inversion H; subst r w'; clear H.
  2:{ split; [apply Step_refl, HI|discriminate]. }
  split; [apply Step_intro|intros _; split; [lia|split; [reflexivity|]]].
  - apply set_world_inv; [apply HI|lia|apply HI].
  - apply (ext_quiet w _ (map EStmt (set_prims v (nout w)))); try reflexivity. rewrite writes_stmts. intros f [].
  - rewrite jt_set_world. cbn [rin set_tab]. intros k Hk. apply filter_In in Hk. split; [lia|apply Hk].
Qed.

Lemma Step_set_seq_num_in : forall v, keeps Inv Step (set_seq_num None (Some v)).
Proof. intros v w r w' HI H. apply (set_seq_num_in_spec v w r w' HI H). Qed.

Lemma Step_process_seqreset : forall f, keeps Inv Step (process_seqreset f).
Proof. intros f. unfold process_seqreset. auto using Step_set_seq_num_in with keeps. Qed.

Lemma process_seqreset_done : forall f w w', Inv w -> process_seqreset f w = (inl tt, w') ->
  0 < f_seq f /\ nin w' = f_a f /\ forall k, In k (rin (jt w')) -> k < f_seq f /\ k < f_a f.
Proof.
  intros f w w' HI H. unfold process_seqreset, bind in H.
  destruct (set_seq_num None (Some (f_seq f)) w) as [[[]|e] w1] eqn:E1; [|discriminate].
  destruct (set_seq_num_in_spec _ _ _ _ HI E1) as [S1 F1]. destruct (F1 eq_refl) as (P1 & _ & K1).
  destruct (set_seq_num_in_spec _ _ _ _ (s_inv _ _ S1) H) as [_ F2]. destruct (F2 eq_refl) as (_ & N2 & K2).
  repeat split; auto; apply K2 in H0; [apply K1|]; apply H0.
Qed.

Lemma check_gaps_rel : forall n w r w', Out_ok w -> 0 < nin w -> check_gaps n w = (r, w') ->
  Rel w w' /\ forall v, r = inl v -> v = negb (nin w <? n).
Proof.
  intros n w r w' Hout Hpos H. unfold check_gaps in H. munfold_in H.
  destruct (nin w <? n) eqn:Hlt.
  2:{ inversion H; subst. split; [apply Rel_refl, Hout|]. intros v E. inversion E. reflexivity. }
  destruct (cstate_eqb (st w) Awaiting) eqn:Hs.
  { inversion H; subst. split; [apply Rel_refl, Hout|]. intros v E. inversion E. reflexivity. }
  set (w1 := mkW (nin w) (nout w) (st w) (rl w) n (dlv w) (ctor w) (base w) (log w) (past w)) in *.
  set (m := mkF TResend 0 false (nin w) 0) in *.
  assert (Hl1 : live_eq w w1) by live_tac.
  assert (Hout1 : Out_ok w1) by exact (Out_ok_ext w w1 (proj2 Hl1) Hout).
  rewrite (send_orig_eq m w1 eq_refl Hout1) in H.
  destruct (send_gate w1 m) as [[s ro]|] eqn:Hg; inversion H; subst r w'; (split; [|intros v E; inversion E; reflexivity]).
  - apply (Rel_frame w w1 _ _ (sent_rel m w1 s ro Hout1 Hg) Hl1); [live_tac|intros _ _; cbn; lia].
  - apply Rel_live; [exact Hout|exact Hl1|]. intros _ E. cbn in E. rewrite E in Hs. discriminate.
Qed.

Lemma Step_check_gaps : forall n, keeps Inv Step (check_gaps n).
Proof. intros n w r w' HI H. apply Rel_Step; [exact HI|]. apply (check_gaps_rel n w r w' (Inv_Out w HI) (Inv_nin w HI) H). Qed.

(* pm_head in three phases: the session-state gate, the handler of the message type, the gap check *)
Definition pm_gate (f : frame) : M bool :=
  w <- get ;;
  assert_ (negb (is_disc (st w))) ;;;
  if cstate_eqb (st w) NCE then
    if mtype_eqb (f_type f) TLogon then set_st LogonRecv ;;; set_rl Acceptor ;;; ret true
    else disconnect false ;;; ret false
  else if (cstate_eqb (st w) LogonSent || cstate_eqb (st w) LogonRecv)
          && negb (mtype_eqb (f_type f) TLogon) && negb (mtype_eqb (f_type f) TLogout)
  then disconnect false ;;; ret false
  else ret true.

Definition pm_handler (f : frame) : M unit :=
  match f_type f with
  | TLogon => process_logon f
  | TSeqReset => process_seqreset f
  | TLogout => catch (count_logout f) ;;; process_logout
  | _ => ret tt
  end.

Definition pm_check (f : frame) : M (option bool) :=
  w <- get ;;
  if is_disc (st w) then ret None
  else v <- check_gaps (f_seq f) ;; ret (Some v).

Lemma pm_head_eq : forall f w,
  pm_head f w = (ok <- pm_gate f ;; if negb ok then ret None else pm_handler f ;;; pm_check f) w.
Proof.
  intros. unfold pm_head, pm_gate, bind, get. destruct (is_disc (st w)); reflexivity.
Qed.

Lemma Rel_pm_gate : forall f, keeps Out_ok Rel (pm_gate f).
Proof. intros f. unfold pm_gate. auto 12 with keeps. Qed.

#[local] Hint Resolve Step_of_Rel Step_check_gaps Step_count_logout Step_process_seqreset : keeps.

Lemma Step_pm_handler : forall f, keeps Inv Step (pm_handler f).
Proof.
  intros f. unfold pm_handler, process_logout. destruct (f_type f); auto using Rel_process_logon with keeps.
Qed.

Lemma Step_pm_check : forall f, keeps Inv Step (pm_check f).
Proof. intros f. unfold pm_check. auto 12 with keeps. Qed.

Lemma Step_pm_head : forall f, keeps Inv Step (pm_head f).
Proof.
  intros f w r w' HI H. rewrite pm_head_eq in H. revert w r w' HI H.
  change (keeps Inv Step (ok <- pm_gate f ;; if negb ok then ret None else pm_handler f ;;; pm_check f)).
  auto 12 using Rel_pm_gate, Step_pm_handler, Step_pm_check with keeps.
Qed.

Lemma pm_plain_step : forall f, mtype_eqb (f_type f) TSeqReset = false -> keeps Inv Step (process_message f).
Proof.
  intros f Hty. unfold process_message.
  apply (keeps_bind _ _ Step_closed); [auto with keeps|intros w0]. apply keeps_if; [auto with keeps|].
  apply (keeps_bind _ _ Step_closed); [auto using Step_pm_head with keeps|].
  intros [[v|]|e]; auto 12 using Rel_pm_dispatch, Step_finalize with keeps.
Qed.

(* a SequenceReset that passed pm_head in sequence: _process_seqreset has moved next_num_in to NewSeqNo and deleted the
   inbound rows from MsgSeqNum on *)
Lemma pm_head_seqreset : forall f w w1, f_type f = TSeqReset -> Inv w -> pm_head f w = (inl (Some true), w1) ->
  nin w1 = f_a f /\ 0 < f_seq f <= f_a f /\ forall k, In k (rin (jt w1)) -> k < f_seq f.
Proof.
  intros f w w1 Ht HI H. rewrite pm_head_eq in H. unfold bind at 1 in H.
  destruct (pm_gate f w) as [[[|]|e] w0] eqn:Eg; try discriminate. cbn [negb] in H.
  pose proof (s_inv _ _ (Step_of_Rel _ _ (Rel_pm_gate f) w _ w0 HI Eg)) as I0.
  unfold bind, pm_handler in H. rewrite Ht in H.
  destruct (process_seqreset f w0) as [[[]|e] wb] eqn:Es; try discriminate.
  destruct (process_seqreset_done f w0 wb I0 Es) as (Hs & Hn & Hk).
  pose proof (s_inv _ _ (Step_process_seqreset f w0 _ wb I0 Es)) as Ib.
  unfold pm_check, bind, get in H. destruct (is_disc (st wb)); [discriminate|].
  destruct (check_gaps (f_seq f) wb) as [[v|e] w3] eqn:Ec; inversion H; subst v w3.
  destruct (check_gaps_rel _ _ _ _ (Inv_Out _ Ib) (Inv_nin _ Ib) Ec) as [R3 V]. specialize (V true eq_refl).
  rewrite (r_nin _ _ R3), (r_rin _ _ R3). split; [exact Hn|]. split; [lia|]. intros k Hk'. apply Hk, Hk'.
Qed.

Definition seqreset_lag (f : frame) : bool :=
  (0 <? f_seq f) && (f_seq f <=? f_a f) && (1 <? f_a f) && negb (f_seq f + 1 =? f_a f).

(* D11: an inbound SequenceReset that is finalized (MsgSeqNum <= NewSeqNo, NewSeqNo > 1) and whose NewSeqNo is not
   its own MsgSeqNum + 1: the stored inbound counter becomes the frame's own number *)
Definition KF_D11 (o : op) : bool :=
  match o with OIn f => mtype_eqb (f_type f) TSeqReset && seqreset_lag f | _ => false end.

(* D20: the application sends a SequenceReset WITHOUT GapFillFlag (and without PossDupFlag): it is journaled under its
   own number, the live counter does not move.  (Gap fills and PossDup messages are not journaled since the repair of D12.) *)
Definition KF_D20 (o : op) : bool :=
  match o with
  | OSend m | OSendFault _ m => own_number m && negb (unjournaled m)
  | _ => false
  end.

Definition class_free (h : list op) : bool :=
  forallb (fun o => negb (KF_D11 o) && negb (KF_D20 o)) h.

Lemma finalize_seqreset_step : forall f w r w', f_type f = TSeqReset -> seqreset_lag f = false -> Inv w ->
  nin w = f_a f -> 0 < f_seq f <= f_a f -> (forall k, In k (rin (jt w)) -> k < f_seq f) ->
  finalize f w = (r, w') -> Step w w'.
Proof.
  intros f w r w' Ht Hlag HI Hn Hs Hrows H. rewrite finalize_eq, Ht in H. cbn [mtype_eqb] in H.
  apply fin_count_cases in H; [|apply HI]. destruct H as (W' & [Hn' J] & Ha' & _ & H). cbn [nin with_nin] in Hn'.
  destruct (f_a f - 1 <=? 0) eqn:Hz.
  - destruct H as [_ ->]. apply Step_intro; [|apply ext_journal_eq, J].
    apply (Inv_live w W'); [split; [congruence|exact J]|exact HI|exact Ha'].
  - unfold seqreset_lag in Hlag. eapply count_in in H; [apply H|exact (Inv_Out w HI)|exact J|lia|lia|exact Hrows|exact Ha'].
Qed.

(* _process_message past _validate_integrity: pm_head, and when it says so dispatch and finalize *)
Lemma process_message_eq : forall f w, too_low f w = false ->
  process_message f w = let (h, w1) := pm_head f w in
                        match h with
                        | inl (Some v) => (if v then finalize f else ret tt) (snd (pm_dispatch f v w1))
                        | _ => (inl tt, w1)
                        end.
Proof.
  intros f w H. unfold process_message, bind, get, catch. rewrite H.
  destruct (pm_head f w) as [[[v|]|e] w1]; try reflexivity. destruct (pm_dispatch f v w1); reflexivity.
Qed.

Lemma too_low_seqreset : forall f w, f_type f = TSeqReset -> too_low f w = false.
Proof. intros f w Ht. unfold too_low. rewrite Ht. cbn. rewrite andb_false_r. reflexivity. Qed.

Lemma too_low_inseq : forall f w, f_seq f = nin w -> too_low f w = false.
Proof. intros f w H. unfold too_low. rewrite H, Z.ltb_irrefl. reflexivity. Qed.

Lemma pm_seqreset_step : forall f, f_type f = TSeqReset -> seqreset_lag f = false -> keeps Inv Step (process_message f).
Proof.
  intros f Ht Hlag w r w' HI H. rewrite (process_message_eq f w (too_low_seqreset f w Ht)) in H.
  destruct (pm_head f w) as [h w1] eqn:Eh. pose proof (Step_pm_head f w h w1 HI Eh) as S1.
  destruct h as [[v|]|e]; try (inversion H; subst; exact S1).
  unfold pm_dispatch in H. rewrite Ht in H. cbn [ret snd] in H.
  destruct v; [|inversion H; subst; exact S1].
  destruct (pm_head_seqreset f w w1 Ht HI Eh) as (Hn & Hs & Hrows).
  apply (Step_trans w w1); [exact S1|]. exact (finalize_seqreset_step f w1 r w' Ht Hlag (s_inv _ _ S1) Hn Hs Hrows H).
Qed.

Lemma boot_inv : forall r t sent, 0 <= sin t -> 0 <= sout t ->
  (forall n, In n (rin t) -> n <= sin t) -> (forall g, In g (rout t) -> f_seq g <= sout t) ->
  Inv (boot r t sent).
Proof.
  intros r t sent Hi Ho Hri Hro.
  assert (Hj : jt (boot r t sent) = t) by reflexivity.
  split; [|split].
  - split; [unfold clean; reflexivity|]. rewrite Hj. cbn [boot nout]. repeat split; try lia.
    intros g Hg. apply Hro in Hg. lia.
  - unfold In_ok. rewrite Hj. cbn [boot nin]. repeat split; try lia. intros n Hn. apply Hri in Hn. lia.
  - intros E. discriminate.
Qed.

(* a new object over the journal of w *)
Lemma boot_jt : forall w r sent, Inv w -> Inv (boot r (jt w) sent).
Proof.
  intros w r sent ((_ & Hso & Hro & Hpo) & (Hsi & Hri & Hpi) & _). apply boot_inv; try lia.
  - intros n Hn. apply Hri in Hn. lia.
  - intros g Hg. apply Hro in Hg. lia.
Qed.

Lemma allwire_boot : forall r t sent, allwire (boot r t sent) = sent.
Proof. intros. apply app_nil_r. Qed.

Lemma restart_inv : forall w, Inv w ->
  Inv (restart w) /\ nin (restart w) = nin w /\ nout (restart w) = nout w /\ allwire (restart w) = allwire w.
Proof.
  intros w HI. pose proof HI as ((Hc & Hso & _) & (Hsi & _) & _).
  split; [|split; [|split; [|apply allwire_boot]]]; unfold restart; rewrite Hc; [apply boot_jt, HI|exact Hsi|exact Hso].
Qed.

Lemma Inv_stored_eq : forall w, Inv w -> Stored_eq w.
Proof. intros w ((_ & Hso & _) & (Hsi & _) & _). split; auto. Qed.

Lemma Step_step : forall o, o <> ORestart -> KF_D11 o = false -> KF_D20 o = false -> keeps Inv Step (step o).
Proof.
  intros [|f|m|d m|b|] Hnr H11 H20; cbn [step]; [| | | | |contradiction].
  - (* OConnect *) apply Step_of_Rel, Rel_of_Quiet, Quiet_set_st. discriminate.
  - (* OIn *) cbn [KF_D11] in H11. destruct (mtype_eqb (f_type f) TSeqReset) eqn:Hs.
    + apply pm_seqreset_step; [destruct (f_type f); try discriminate; reflexivity|exact H11].
    + apply pm_plain_step, Hs.
  - (* OSend: not in class D20 is the side condition of Rel_send *) exact (Step_of_Rel _ _ (Rel_send m H20)).
  - (* OSendFault: likewise *) apply Step_of_Rel. intros w r w' Ho H. rewrite send_fault_then in H.
    exact (send_then_rel _ _ m (transport_fault d) H20 w r w' Ho H).
  - (* ODisc *) exact (Step_of_Rel _ _ (Rel_disconnect b)).
Qed.

(* one operation outside the classes keeps the invariant; unless it is a restart it is a Step *)
Lemma op_step : forall w o, Inv w -> KF_D11 o = false -> KF_D20 o = false ->
  Inv (run_op w o) /\ (o <> ORestart -> Step w (run_op w o)).
Proof.
  intros w o HI H11 H20.
  assert (Hgo : o <> ORestart -> Step w (run_op w o)).
  { intros Hnr. unfold run_op. destruct (step o w) as [r w'] eqn:E. exact (Step_step o Hnr H11 H20 w r w' HI E). }
  split; [|exact Hgo]. destruct o; try (apply Hgo; discriminate). apply restart_inv, HI.
Qed.

Lemma fresh_inv : forall r, Inv (fresh r).
Proof. intros r. apply boot_inv; cbn; try lia; intros x []. Qed.

Lemma class_free_cons : forall o h, class_free (o :: h) = true ->
  KF_D11 o = false /\ KF_D20 o = false /\ class_free h = true.
Proof.
  intros o h H. unfold class_free in H. cbn [forallb] in H. apply andb_prop in H. destruct H as [H Hr].
  apply andb_prop in H. destruct H as [H1 H2]. apply negb_true_iff in H1, H2. auto.
Qed.

Lemma run_inv : forall h w, Inv w -> class_free h = true -> Inv (run w h).
Proof.
  induction h as [|o h IH]; intros w HI Hc; cbn [run fold_left]; [exact HI|].
  apply class_free_cons in Hc. destruct Hc as (H11 & H20 & Hrest).
  apply IH; [exact (proj1 (op_step w o HI H11 H20))|exact Hrest].
Qed.

Lemma invariant_partial : forall r h, class_free h = true -> Inv (run (fresh r) h).
Proof. intros. apply run_inv; auto using fresh_inv. Qed.

Lemma pm_check_inseq : forall f w, is_disc (st w) = false -> f_seq f = nin w -> pm_check f w = (inl (Some true), w).
Proof. intros f w Hd Hs. unfold pm_check, check_gaps, bind, get. rewrite Hd, Hs, Z.ltb_irrefl. reflexivity. Qed.

(* a frame other than a SequenceReset that carries the expected number, passes the gate (at w0) and whose handler
   completes (at wb) without ending the session: it is dispatched (at w2), counted and journaled *)
Lemma in_sequence_counted : forall f w w0 wb, mtype_eqb (f_type f) TSeqReset = false -> Inv w -> f_seq f = nin w ->
  pm_gate f w = (inl true, w0) -> pm_handler f w0 = (inl tt, wb) -> is_disc (st wb) = false -> nin wb = nin w ->
  let w2 := snd (pm_dispatch f true wb) in
  let w' := run_op w (OIn f) in
  Inv w' /\ nin w' = nin w + 1 /\ sin (jt w') = nin w /\ nout w' = nout w2 /\ writes (log w') = writes (log w2)
  /\ (cstate_eqb (st w2) Awaiting = false -> st w' = st w2).
Proof.
  intros f w w0 wb Hty HI Hseq Hg Hh Hd Hn w2.
  assert (Hhead : pm_head f w = (inl (Some true), wb)).
  { rewrite pm_head_eq. unfold bind. rewrite Hg. cbn [negb]. rewrite Hh. apply pm_check_inseq; congruence. }
  pose proof (s_inv _ _ (Step_pm_head f w _ wb HI Hhead)) as Ib.
  subst w2. destruct (pm_dispatch f true wb) as [d w2] eqn:Ed. cbn [snd].
  pose proof (Rel_pm_dispatch f true wb d w2 (Inv_Out _ Ib) Ed) as R2.
  destruct (finalize f w2) as [r w'] eqn:Ef.
  assert (E : run_op w (OIn f) = w').
  { unfold run_op. cbn [step]. rewrite (process_message_eq f w (too_low_inseq f w Hseq)), Hhead, Ed. cbn [snd].
    rewrite Ef. reflexivity. }
  rewrite E. cbv zeta.
  destruct (finalize_inseq f w2 r w' Hty (s_inv _ _ (Rel_Step _ _ Ib R2))) as (S & _ & N & Si & No & Wr & St);
    [rewrite (r_nin _ _ R2); congruence|exact Ef|].
  rewrite N, Si, (r_nin _ _ R2), Hn. split; [apply S|]. auto.
Qed.

Lemma writes_sent : forall w s r f, writes (log (sent w s r f)) = writes (log w) ++ [f].
Proof. intros. cbn [sent add_log with_log journaled_w log]. rewrite !writes_app, writes_stmts, app_nil_r. reflexivity. Qed.

(* w' is w after a completed Logon exchange in sequence: only our Logon has been written *)
Definition logged_on (w w' : world) : Prop :=
  st w' = Active /\ writes (log w') = writes (log w) ++ [mkF TLogon (nout w) false 0 0]
  /\ nin w' = nin w + 1 /\ nout w' = nout w + 1 /\ Inv w'.

(* the peer's Logon numbered next_num_in arrives at wi, passes the gate (at w0) and its handler leaves the ACTIVE world
   wA in which our Logon has been sent: it is counted *)
Lemma logon_counted : forall w wi w0 wA pd a b, Inv wi -> nin wi = nin w ->
  pm_gate (mkF TLogon (nin w) pd a b) wi = (inl true, w0) -> pm_handler (mkF TLogon (nin w) pd a b) w0 = (inl tt, wA) ->
  st wA = Active -> nin wA = nin w -> nout wA = nout w + 1 ->
  writes (log wA) = writes (log w) ++ [mkF TLogon (nout w) false 0 0] ->
  logged_on w (run_op wi (OIn (mkF TLogon (nin w) pd a b))).
Proof.
  intros w wi w0 wA pd a b HI Hi Hg Hh Hst Hn Ho Hw.
  destruct (in_sequence_counted (mkF TLogon (nin w) pd a b) wi w0 wA eq_refl HI (eq_sym Hi) Hg Hh) as (I' & N & _ & No & Wr & St);
    [rewrite Hst; reflexivity|congruence|].
  cbn [pm_dispatch f_type ret snd] in No, Wr, St. rewrite Hst in St.
  split; [exact (St eq_refl)|]. split; [congruence|]. split; [congruence|]. split; [congruence|exact I'].
Qed.

(* an acceptor with a fresh transport receives the peer's Logon numbered exactly next_num_in *)
Lemma logon_acceptor : forall w pd a b, Inv w -> st w = NCE ->
  logged_on w (run_op w (OIn (mkF TLogon (nin w) pd a b))).
Proof.
  intros w pd a b HI Hst.
  set (wL := mkW (nin w) (nout w) LogonRecv Acceptor (maxres w) (dlv w) (ctor w) (base w) (log w) (past w)).
  set (wS := sent wL LogonRecv Acceptor (mkF TLogon (nout w) false 0 0)).
  set (wA := mkW (nin wS) (nout wS) Active (rl wS) (maxres wS) (dlv wS) (ctor wS) (base wS) (log wS) (past wS)).
  assert (IL : Inv wL) by (apply (Inv_live w); [live_tac|exact HI|discriminate]).
  apply (logon_counted w w wL wA); try reflexivity; [exact HI| | |exact (writes_sent wL LogonRecv Acceptor _)].
  - unfold pm_gate, bind, get. rewrite Hst. reflexivity.
  - unfold pm_handler, process_logon. cbn [f_type f_seq]. munfold. cbn [rl st wL role_eqb cstate_eqb nin].
    rewrite Z.leb_refl, (send_orig_eq (mkF TLogon 0 false 0 0) wL eq_refl (Inv_Out _ IL)).
    change (send_gate wL (mkF TLogon 0 false 0 0)) with (Some (LogonRecv, Acceptor)). cbv iota.
    fold wS. change (nin wS) with (nin w). rewrite Z.eqb_refl. reflexivity.
Qed.

(* an initiator with a fresh transport sends its Logon and receives the peer's Logon numbered exactly next_num_in *)
Lemma logon_initiator : forall w pd a b, Inv w -> st w = NCE ->
  logged_on w (run_op (run_op w (OSend (mkF TLogon 0 false 0 0))) (OIn (mkF TLogon (nin w) pd a b))).
Proof.
  intros w pd a b HI Hst.
  set (wS := sent w LogonSent Initiator (mkF TLogon (nout w) false 0 0)).
  set (wA := mkW (nin wS) (nout wS) Active (rl wS) (maxres wS) (dlv wS) (ctor wS) (base wS) (log wS) (past wS)).
  assert (Hgs : send_gate w (mkF TLogon 0 false 0 0) = Some (LogonSent, Initiator)) by (unfold send_gate; rewrite Hst; reflexivity).
  assert (Hs : run_op w (OSend (mkF TLogon 0 false 0 0)) = wS).
  { unfold run_op. cbn [step]. rewrite (send_orig_eq (mkF TLogon 0 false 0 0) w eq_refl (Inv_Out _ HI)), Hgs. reflexivity. }
  rewrite Hs. apply (logon_counted w wS wS wA); try reflexivity; [| |exact (writes_sent w LogonSent Initiator _)].
  - exact (s_inv _ _ (Rel_Step _ _ HI (sent_rel _ w _ _ (Inv_Out _ HI) Hgs))).
  - unfold pm_handler, process_logon. cbn [f_type f_seq]. munfold. change (rl wS) with Initiator. cbn [role_eqb].
    change (nin wS) with (nin w). rewrite Z.eqb_refl. reflexivity.
Qed.

Definition logon_ops (r : role) (n : Z) : list op :=
  match r with
  | Acceptor => [OConnect; OIn (mkF TLogon n false 0 0)]
  | Initiator => [OConnect; OSend (mkF TLogon 0 false 0 0); OIn (mkF TLogon n false 0 0)]
  end.

Lemma restart_resumes : forall w, Inv w ->
  let w' := restart w in
  nin w' = nin w /\ nout w' = nout w
  /\ let w2 := run w' (logon_ops (ctor w) (nin w)) in
     st w2 = Active /\ writes (log w2) = [mkF TLogon (nout w) false 0 0]
     /\ nin w2 = nin w + 1 /\ nout w2 = nout w + 1 /\ Inv w2.
Proof.
  intros w HI. destruct (restart_inv w HI) as (IR & Hn & Ho & _).
  cbv zeta. split; [exact Hn|]. split; [exact Ho|].
  set (wc := run_op (restart w) OConnect).
  assert (IC : Inv wc) by (apply (Inv_live (restart w)); [live_tac|exact IR|discriminate]).
  rewrite <- Hn, <- Ho.
  destruct (ctor w); [exact (logon_initiator wc false 0 0 IC eq_refl)|exact (logon_acceptor wc false 0 0 IC eq_refl)].
Qed.

(* w' is a later world of the same endpoint, restarts allowed: the transport has seen what it had seen at w, then
   original frames numbered from next_num_out of w up to next_num_out of w' *)
Definition wext (w w' : world) : Prop :=
  nout w <= nout w' /\ exists l, allwire w' = allwire w ++ l /\ numbered (nout w) (nout w') l.

Lemma wext_refl : forall w, wext w w.
Proof. intros w. split; [lia|]. exists []. split; [symmetry; apply app_nil_r|]. intros f []. Qed.

Lemma wext_trans : forall a b c, wext a b -> wext b c -> wext a c.
Proof.
  intros a b c (M1 & l1 & A1 & N1) (M2 & l2 & A2 & N2). split; [lia|].
  exists (l1 ++ l2). rewrite A2, A1, app_assoc. split; [reflexivity|].
  apply (numbered_app _ (nout b)); auto.
Qed.

Lemma ext_wext : forall w w', ext w w' -> wext w w'.
Proof.
  intros w w' (Hm & (l & L & N) & _ & Hp & _). split; [exact Hm|].
  exists (writes l). unfold allwire. rewrite Hp, L, writes_app, app_assoc. auto.
Qed.

Lemma op_wext : forall w o, Inv w -> KF_D11 o = false -> KF_D20 o = false -> wext w (run_op w o).
Proof.
  intros w o HI H11 H20. destruct (op_step w o HI H11 H20) as [_ HS].
  destruct o; try (apply ext_wext, Step_ext, HS; discriminate).
  destruct (restart_inv w HI) as (_ & _ & Ho & Ha).
  unfold run_op, wext. cbn [step upd snd]. rewrite Ho, Ha. apply wext_refl.
Qed.

Lemma run_wext : forall h w, Inv w -> class_free h = true -> wext w (run w h).
Proof.
  induction h as [|o h IH]; intros w HI Hc; cbn [run fold_left]; [apply wext_refl|].
  apply class_free_cons in Hc. destruct Hc as (H11 & H20 & Hrest).
  apply (wext_trans _ (run_op w o)); [apply op_wext; auto|].
  apply IH; [exact (proj1 (op_step w o HI H11 H20))|exact Hrest].
Qed.

(* every original frame the transport has seen is numbered below next_num_out *)
Definition wire_below (w : world) : Prop :=
  forall g, In g (allwire w) -> original g = true -> f_seq g < nout w.

Lemma wext_below : forall w w', wext w w' -> wire_below w -> wire_below w'.
Proof.
  intros w w' (M & l & A & N) B g Hg Ho. rewrite A in Hg. apply in_app_or in Hg. destruct Hg as [Hg|Hg].
  - specialize (B g Hg Ho). lia.
  - apply (N g Hg Ho).
Qed.

Lemma run_below : forall r h, class_free h = true -> wire_below (run (fresh r) h).
Proof.
  intros r h Hc. apply (wext_below (fresh r)); [apply run_wext; auto using fresh_inv|]. intros g [].
Qed.

Lemma skipn_app_exact : forall A (l1 l2 : list A), skipn (length l1) (l1 ++ l2) = l2.
Proof. induction l1; intros; cbn; auto. Qed.

(* in every class-free continuation, every original frame handed to the transport is numbered above every original
   frame the transport has seen *)
Lemma never_reused : forall w h' g f', Inv w -> wire_below w -> class_free h' = true ->
  In g (allwire w) -> original g = true ->
  In f' (skipn (length (allwire w)) (allwire (run w h'))) -> original f' = true -> f_seq g < f_seq f'.
Proof.
  intros w h' g f' HI HB Hc Hg Hog Hf' Hof'. destruct (run_wext h' w HI Hc) as (_ & l & E & N).
  rewrite E, skipn_app_exact in Hf'. specialize (N f' Hf' Hof'). specialize (HB g Hg Hog). lia.
Qed.

(* statements that no commit follows are lost in a crash *)
Lemma uncommitted : forall ps d, ~ In PCommit ps -> committed (fold_left estep (map EStmt ps) d) = committed d.
Proof.
  induction ps as [|p ps IH]; intros d H; cbn [map fold_left]; [reflexivity|].
  rewrite IH by (intro; apply H; right; assumption).
  destruct p; cbn [estep exec_prim]; try (destruct (apply_stmt _ _); reflexivity). exfalso. apply H. left. reflexivity.
Qed.

(* a death after all effects of w, and perhaps statements that no commit follows, is a restart of w *)
Lemma crash_is_restart : forall w1 w k ps, base w1 = base w -> past w1 = past w -> ctor w1 = ctor w ->
  firstn k (log w1) = log w ++ map EStmt ps -> ~ In PCommit ps -> crash_at k w1 = restart w.
Proof.
  intros w1 w k ps Hb Hp Hc Hl Hn. unfold crash_at, restart, allwire. rewrite Hb, Hp, Hc, Hl.
  rewrite replay_app, uncommitted, writes_app, writes_stmts, app_nil_r by exact Hn. reflexivity.
Qed.

Lemma crash_at_all : forall w, crash_at (length (log w)) w = restart w.
Proof. intros w. apply (crash_is_restart w w _ []); auto. rewrite firstn_all. symmetry. apply app_nil_r. Qed.

Lemma orig_original : forall m n, own_number m = false -> original (out_frame m n) = true.
Proof.
  intros m n H. unfold own_number in H. apply orb_false_iff in H. destruct H as [A B].
  unfold original, out_frame. cbn [f_pd f_type]. rewrite A, B. reflexivity.
Qed.

(* the world after the journal write of an original send and some transport effects *)
Lemma journaled_inv : forall w s r f tail, Inv w -> wire_below w -> f_seq f = nout w -> transport f tail ->
  (s = Awaiting -> st w = Awaiting) ->
  Inv (add_log (journaled_w w s r f) tail) /\ wire_below (add_log (journaled_w w s r f) tail)
  /\ jt (add_log (journaled_w w s r f) tail) = ins_out_tab (jt w) f.
Proof.
  intros w s r f tail HI HB Hf Ht Hs. pose proof (journaled_rel w s r f tail (Inv_Out w HI) Hf Ht Hs) as R.
  split; [exact (s_inv _ _ (Rel_Step _ _ HI R))|]. split; [exact (wext_below _ _ (ext_wext _ _ (Rel_ext _ _ R)) HB)|].
  unfold jt at 1. rewrite (db_journaled w s r f tail); auto using Inv_Out.
Qed.

(* a death right after any effect of a completed original send (journal statement, counter statement, commit, write,
   drain): the incarnation that died is w, or w with the journal write done and some of the transport effects *)
Lemma send_crash_restart : forall w s r f k, Inv w -> wire_below w -> f_seq f = nout w -> original f = true ->
  (s = Awaiting -> st w = Awaiting) -> (length (log w) <= k <= length (log w) + 5)%nat ->
  exists W, crash_at k (sent w s r f) = restart W /\ Inv W /\ wire_below W /\ nin W = nin w
            /\ (nout W = nout w \/ nout W = nout w + 1) /\ (In f (allwire W) -> nout W = nout w + 1).
Proof.
  intros w s r f k HI HB Hf Ho Hs Hk.
  (* the effects that were executed: j of the three statements, then the first j - 3 of the two transport effects *)
  set (j := (k - length (log w))%nat). set (tail := firstn (j - 3) [EWrite f; EDrain]).
  assert (E : firstn k (log (sent w s r f)) = (log w ++ map EStmt (firstn j (persist_out_prims f))) ++ tail).
  { replace k with (length (log w) + j)%nat by lia. cbn [sent add_log with_log journaled_w log].
    rewrite <- app_assoc, firstn_app_2, firstn_app, firstn_map, app_assoc. reflexivity. }
  destruct (le_lt_dec 3 j) as [J|J].
  - destruct (journaled_inv w s r f tail HI HB Hf (transport_firstn f _) Hs) as (IW & BW & _).
    exists (add_log (journaled_w w s r f) tail). split; [|cbn; auto 10].
    apply (crash_is_restart _ _ _ []); try reflexivity; [|intros []].
    rewrite E, firstn_all2, app_nil_r by (cbn; lia). reflexivity.
  - exists w. split; [|split; [exact HI|split; [exact HB|split; [reflexivity|split; [auto|]]]]].
    + apply (crash_is_restart _ _ _ (firstn j (persist_out_prims f))); try reflexivity.
      * rewrite E. unfold tail. replace (j - 3)%nat with 0%nat by lia. apply app_nil_r.
      * destruct j as [|[|[|j]]]; try lia; cbn; intuition discriminate.
    + intros Hin. specialize (HB f Hin Ho). lia.
Qed.

(* an original send that completed at a world whose wire is below its counter, and a death right after any of its
   effects: the restarted endpoint is again such a world *)
Lemma crash_in_send : forall w m w1 k, Inv w -> wire_below w -> own_number m = false ->
  send_msg m w = (inl tt, w1) -> (length (log w) <= k <= length (log w1))%nat ->
  log w1 = log w ++ send_effects (out_frame m (nout w))
  /\ Inv (crash_at k w1) /\ wire_below (crash_at k w1) /\ nin (crash_at k w1) = nin w
  /\ (nout (crash_at k w1) = nout w \/ nout (crash_at k w1) = nout w + 1)
  /\ (In (out_frame m (nout w)) (allwire (crash_at k w1)) -> nout (crash_at k w1) = nout w + 1).
Proof.
  intros w m w1 k HI HB Hm Hs Hk. set (f := out_frame m (nout w)).
  rewrite (send_orig_eq m w Hm (Inv_Out w HI)) in Hs. fold f in Hs.
  destruct (send_gate w m) as [[s ro]|] eqn:Hg; [|discriminate].
  assert (E : sent w s ro f = w1) by congruence. subst w1. clear Hs.
  assert (HL : log (sent w s ro f) = log w ++ send_effects f) by (symmetry; apply app_assoc).
  split; [exact HL|]. rewrite HL, app_length in Hk.
  destruct (send_crash_restart w s ro f k HI HB eq_refl (orig_original m _ Hm) (gate_awaiting w m s ro Hg) Hk)
    as (W & -> & IW & BW & NW & OW & FW).
  destruct (restart_inv W IW) as (IR & -> & -> & ->).
  split; [exact IR|]. split; [exact (wext_below W _ (op_wext W ORestart IW eq_refl eq_refl) BW)|]. auto.
Qed.

(* an original send over a transport that raises in write() (d = false) or in drain() after write() took the bytes
   (d = true); the caller gets the exception, the object lives on.  Nothing is undone: the journal row stays, the number
   is spent *)
Lemma fault_keeps_number : forall w d m w', Inv w -> wire_below w -> own_number m = false ->
  send_fault d m w = (inr XIO, w') ->
  Inv w' /\ wire_below w' /\ nout w' = nout w + 1 /\ jt w' = ins_out_tab (jt w) (out_frame m (nout w))
  /\ writes (log w') = writes (log w) ++ (if d then [out_frame m (nout w)] else []).
Proof.
  intros w d m w' HI HB Hm Hs. set (f := out_frame m (nout w)).
  rewrite send_fault_then, (send_then_orig _ _ m w Hm (Inv_Out w HI)) in Hs. fold f in Hs.
  destruct (send_gate w m) as [[s ro]|] eqn:Hg; [|discriminate].
  assert (E : add_log (journaled_w w s ro f) (if d then [EWrite f] else []) = w') by congruence. subst w'. clear Hs.
  destruct (journaled_inv w s ro f _ HI HB eq_refl (transport_fault d f) (gate_awaiting w m s ro Hg)) as (I' & B' & J').
  split; [exact I'|]. split; [exact B'|]. split; [reflexivity|]. split; [exact J'|].
  cbn [add_log with_log journaled_w log]. rewrite !writes_app, writes_stmts, app_nil_r. destruct d; reflexivity.
Qed.

(* the types without a handler in pm_head *)
Definition plain_type (t : mtype) : bool :=
  match t with TApp | THb | TTest | TResend => true | _ => false end.

(* the Logon exchange has completed *)
Definition established (s : cstate) : bool :=
  match s with Handling | TooHigh | Awaiting | Active => true | _ => false end.

(* once the Logon exchange has completed (`established`) every in-sequence application message, Heartbeat,
   TestRequest and ResendRequest is counted and journaled *)
Lemma accepted_counted_plain : forall f w, Inv w -> plain_type (f_type f) = true -> f_seq f = nin w ->
  established (st w) = true ->
  let w' := run_op w (OIn f) in
  nin w' = nin w + 1 /\ sin (jt w') = nin w /\ Inv w'.
Proof.
  intros f w HI Hp Hseq Hes.
  assert (Hg : pm_gate f w = (inl true, w)) by (unfold pm_gate, bind, get; destruct (st w); try discriminate; reflexivity).
  assert (Hh : pm_handler f w = (inl tt, w)) by (unfold pm_handler; destruct (f_type f); try discriminate; reflexivity).
  destruct (in_sequence_counted f w w w) as (I' & N & S & _); auto.
  - destruct (f_type f); try discriminate; reflexivity.
  - destruct (st w); try discriminate; reflexivity.
Qed.

(* the peer's in-sequence Logout: counted, journaled, then the session is torn down *)
Lemma logout_counted : forall f w, Inv w -> f_type f = TLogout -> f_seq f = nin w ->
  is_disc (st w) = false -> cstate_eqb (st w) NCE = false ->
  let w' := run_op w (OIn f) in
  nin w' = nin w + 1 /\ sin (jt w') = nin w /\ Inv w' /\ is_disc (st w') = true.
Proof.
  intros f w HI Ht Hseq Hd Hn.
  destruct (count_logout f w) as [rc wc] eqn:Ec.
  destruct (count_logout_spec f w rc wc HI Ec) as (Sc & Hcnt). destruct (Hcnt Hseq) as (-> & Nc & Sic).
  destruct (disconnect false wc) as [rd wd] eqn:Edc.
  destruct (disconnect_spec _ _ _ _ (Inv_Out _ (s_inv _ _ Sc)) Edc) as (Rd & -> & Hdd).
  (* pm_head: count, then disconnect, then `return` *)
  assert (Hhead : pm_head f w = (inl None, wd)).
  { rewrite pm_head_eq. unfold pm_gate, pm_handler, pm_check, process_logout, bind, get, catch.
    rewrite Hd, Hn, Ht. cbn [negb assert_ ret mtype_eqb andb]. rewrite !andb_false_r. cbn [negb ret].
    rewrite Ec, Edc, Hdd. reflexivity. }
  cbv zeta. unfold run_op. cbn [step]. rewrite (process_message_eq f w (too_low_inseq f w Hseq)), Hhead. cbn [snd].
  rewrite (r_nin _ _ Rd), (r_sin _ _ Rd), Nc, Sic.
  split; [reflexivity|]. split; [reflexivity|]. split; [|exact Hdd]. apply (Rel_Step wc); [apply Sc|exact Rd].
Qed.

Definition counted_type (t : mtype) : bool :=
  match t with TApp | THb | TTest | TLogout => true | _ => false end.

Lemma accepted_counted : forall f w, Inv w -> counted_type (f_type f) = true -> f_seq f = nin w ->
  established (st w) = true ->
  let w' := run_op w (OIn f) in
  nin w' = nin w + 1 /\ sin (jt w') = nin w /\ Inv w'.
Proof.
  intros f w HI Hc Hseq Hes. destruct (mtype_eqb (f_type f) TLogout) eqn:Hl.
  - (* Logout *) assert (Ht : f_type f = TLogout) by (destruct (f_type f); try discriminate; reflexivity).
    destruct (logout_counted f w HI Ht Hseq) as (A & B & C & _); [destruct (st w); try discriminate; reflexivity ..|].
    cbv zeta. auto.
  - (* the types without a handler *) apply accepted_counted_plain; auto. destruct (f_type f); try discriminate; reflexivity.
Qed.

(* histories and worlds of the Examples of Props/C09.v *)
Definition app_frame (n body : Z) : frame := mkF TApp n false body 0.
Definition logon_frame (n : Z) : frame := mkF TLogon n false 0 0.
Definition acc_logon : list op := [OConnect; OIn (logon_frame 1)].

Definition has_resend (l : list frame) : bool := existsb (fun f => mtype_eqb (f_type f) TResend) l.

(* numbers of the frames the peer sent, in order *)
Fixpoint inbound_seqs (h : list op) : list Z :=
  match h with
  | [] => []
  | OIn f :: h' => f_seq f :: inbound_seqs h'
  | _ :: h' => inbound_seqs h'
  end.

(* the former D12 witness (a second ResendRequest over a replayed range): both requests are answered, the journal and
   the counters are as before, the invariant holds *)
Definition h_resend2 : list op :=
  acc_logon ++ [OSend (app_frame 0 1); OSend (app_frame 0 2); OIn (mkF TResend 2 false 3 0); OIn (mkF TResend 3 false 2 0)].

(* the former D22 witness: the peer's Logout is in sequence and is counted; after the restart the peer's Logon
   numbered 3 is accepted, no ResendRequest *)
Definition h_d22 : list op := acc_logon ++ [OIn (mkF TLogout 2 false 0 0)].

(* the former D14 witness: every crash point of the send of an application message (effects 9..13 of the incarnation:
   INSERT, counter UPDATE, COMMIT, transport write, drain).  Before the commit nothing is on the wire and the number is
   still free; from the commit on the number is taken, whether or not the frame reached the wire *)
Definition w_send9 : world := run (fresh Acceptor) (acc_logon ++ [OSend (app_frame 0 9)]).

(* the seeded scenario: initiator, Logon, order A (2), order B (3) whose bytes leave before drain() raises; the endpoint
   is rebuilt from its journal: next_num_out 4, its Logon goes out under 4 - number 3 is not used again *)
Definition h_drain_fault : list op :=
  [OConnect; OSend (logon_frame 0); OIn (logon_frame 1); OSend (app_frame 0 1); OSendFault true (app_frame 0 2)].

(* non-vacuity: a class-free history with a gap, our ResendRequest, replay, single-number gap fills, a
   TestRequest answered, a peer ResendRequest serviced completely (two counter statements), a restart,
   the next Logon exchange and a send *)
Definition h_nonvac : list op :=
  acc_logon ++
  [OIn (app_frame 5 1); OIn (mkF TApp 2 true 2 0); OIn (mkF TSeqReset 3 true 4 1); OIn (mkF TSeqReset 4 true 5 1);
   OIn (mkF TSeqReset 5 true 6 1); OIn (app_frame 6 3); OSend (app_frame 0 7); OIn (mkF TTest 7 false 77 0);
   OIn (mkF TResend 8 false 2 0); ORestart; OConnect; OIn (logon_frame 9); OSend (app_frame 0 8)].
