(* C11 - nothing passes to or from the application outside an established session. *)
From Coq Require Import ZArith NArith List Bool Lia ZifyBool.
From AF Require Import Base.Sx Py.Str Fix.Session Lemmas.StrB Lemmas.SessionL Lemmas.SessionC04L.
From Coq Require String.
Import String.StringSyntax.
Import ListNotations.
Open Scope Z_scope.
(* the four refusals by connection state / role (the TestRequest gate is separate) *)
Definition gate_refuses (m : msg) (w : world) : bool :=
  (st w <? ST_NCE)
  || ((st w =? ST_NCE) && negb (match mkind m with KLogon | KLogout => true | _ => false end))
  || ((role w =? ROLE_INITIATOR) && (st w =? ST_LOGON_SENT)
      && negb (match mkind m with KLogout => true | _ => false end))
  || (negb (role w =? ROLE_INITIATOR) && (st w =? ST_LOGON_RECV)
      && negb (match mkind m with KLogon | KLogout => true | _ => false end)).

Lemma gate_open_spec m w : gate_open m w = negb (gate_refuses m w).
Proof.
  unfold gate_open, passes, send_gate, gate_refuses.
  destruct (st w <? ST_NCE); [reflexivity|]. destruct (st w =? ST_NCE) eqn:E.
  { apply Z.eqb_eq in E. rewrite E. destruct (mkind m), (role w =? ROLE_INITIATOR); reflexivity. }
  cbn [andb orb]. destruct (_ && _ && _); [reflexivity|]. destruct (_ && _ && _); reflexivity.
Qed.

(* send_msg: refused by one of the gates, without any effect; or encoded, journaled and written *)
Lemma send_msg_spec c m w :
  send_msg c m w =
  if gate_refuses m w || treq_refuses m w then mkR (inr XConn) w []
  else mkR (rv (send_write c m (gate_world w))) (rw (send_write c m (gate_world w)))
           (gate_events w ++ re (send_write c m (gate_world w))).
Proof.
  rewrite send_msg_nf, gate_open_spec, treq_open_spec, <- negb_orb. destruct (_ || _); reflexivity.
Qed.

Lemma gate_passed_alive m w : gate_refuses m w = false -> ST_NCE <= st w.
Proof. unfold gate_refuses. destruct (st w <? ST_NCE) eqn:E; [discriminate|lia]. Qed.

(* refused sends: the world (counters, journal, state) and the trace are unchanged *)
Lemma send_msg_gate_refused c m w :
  gate_refuses m w = true -> send_msg c m w = mkR (inr XConn) w [].
Proof. intros H. rewrite send_msg_spec, H. reflexivity. Qed.

(* R13c - the TestRequest gate: a TestRequest is refused unless a probe is pending AND the message carries exactly
   that probe's id (str(_test_req_id)) - so only send_test_req() can put a TestRequest on the wire, one at a time *)
Lemma testrequest_gate c m w :
  treq_refuses m w = true -> send_msg c m w = mkR (inr XConn) w [].
Proof. intros H. rewrite send_msg_spec, H, orb_true_r. reflexivity. Qed.

(* R8c spelled out: between the peer's Logon and its own an acceptor may send Logon / Logout only *)
Lemma acceptor_send_gate c m w :
  st w = ST_LOGON_RECV -> role w <> ROLE_INITIATOR -> mkind m <> KLogon -> mkind m <> KLogout ->
  send_msg c m w = mkR (inr XConn) w [].
Proof.
  intros Hs Hr Hk1 Hk2. apply send_msg_gate_refused. unfold gate_refuses. rewrite Hs.
  destruct (role w =? ROLE_INITIATOR) eqn:E; [lia|]. destruct (mkind m); cbn; congruence.
Qed.
Lemma disconnect_dead_noop c ds lm w : dead w -> disconnect c ds lm w = mkR (inl tt) w [].
Proof. intros H. unfold dead in H. rewrite disconnect_nf. destruct (st w <=? ST_DISC_BROKEN) eqn:E; [reflexivity|lia]. Qed.

Lemma part1_dead c m w : dead w -> part1 c m w = mkR (inr XAssertion) w [].
Proof.
  intros H. unfold dead in H. rewrite part1_nf. destruct (st w <? ST_NCE) eqn:E; [reflexivity|stlia].
Qed.

(* _process_message on a disconnected connection: no event, no change (it may raise on a garbled frame) *)
Lemma process_message_dead c m now w :
  dead w -> rw (process_message c m now w) = w /\ re (process_message c m now w) = [].
Proof.
  intros H. apply process_message_case; [intros lm; rewrite (disconnect_dead_noop c _ _ w H)|..]; auto.
  intros V. rewrite (part1_dead c m w H). split; [discriminate|auto].
Qed.
Definition dropped (ds : Z) (w : world) : world :=
  set_st ds (set_wr false (set_maxres 0 (set_lastt 0 (set_treq None w)))).

Lemma disconnect_none_alive c ds w :
  ~ dead w -> ds <= ST_DISC_BROKEN ->
  disconnect c ds None w = mkR (inl tt) (dropped ds w) [State ds; OnDisconnect].
Proof.
  intros Ha Hds. unfold dead in Ha. rewrite disconnect_nf.
  destruct (st w <=? ST_DISC_BROKEN) eqn:E; [lia|]. destruct (ds <=? ST_DISC_BROKEN) eqn:E2; [reflexivity|lia].
Qed.

(* the early gate of _process_message: before the Logon exchange is complete, a message that passed the
   integrity check and is not part of the exchange drops the connection: no Logout, nothing counted,
   nothing delivered *)
Lemma early_dropped c m now w :
  validate_integrity c m w = VOk -> early_drop m w = true ->
  process_message c m now w = mkR (inl tt) (dropped ST_DISC_BROKEN w) [State ST_DISC_BROKEN; OnDisconnect].
Proof.
  intros V Hk. rewrite (process_message_ok c m now w V).
  assert (Hs : ST_NCE <= st w).
  { unfold early_drop in Hk. destruct (st w =? ST_NCE) eqn:?, (st w =? ST_LOGON_SENT) eqn:?, (st w =? ST_LOGON_RECV) eqn:?;
      try discriminate; stlia. }
  rewrite part1_nf, Hk. destruct (st w <? ST_NCE) eqn:E; [stlia|].
  rewrite disconnect_none_alive; [reflexivity|unfold dead; stlia|stlia].
Qed.

Lemma first_must_be_logon c m now w :
  st w = ST_NCE -> validate_integrity c m w = VOk -> mkind m <> KLogon ->
  process_message c m now w = mkR (inl tt) (dropped ST_DISC_BROKEN w) [State ST_DISC_BROKEN; OnDisconnect].
Proof.
  intros Hs V Hk. apply early_dropped; [exact V|]. unfold early_drop. rewrite Hs.
  destruct (mkind m); cbn; congruence.
Qed.

(* R8b: while the Logon exchange is in progress (our Logon sent, or the peer's Logon received and ours not
   yet sent) only Logon and Logout are accepted *)
Lemma logon_exchange_gate c m now w :
  st w = ST_LOGON_SENT \/ st w = ST_LOGON_RECV -> validate_integrity c m w = VOk ->
  mkind m <> KLogon -> mkind m <> KLogout ->
  process_message c m now w = mkR (inl tt) (dropped ST_DISC_BROKEN w) [State ST_DISC_BROKEN; OnDisconnect].
Proof.
  intros Hs V Hk1 Hk2. apply early_dropped; [exact V|]. unfold early_drop.
  destruct Hs as [Hs|Hs]; rewrite Hs; destruct (mkind m); cbn; congruence.
Qed.
(* a connection on which a new message can be written and journaled *)
Definition sendable (w : world) : Prop :=
  wr w = true /\ has_key (nout w) (j_out (jr w)) = false /\ in_i64 (nout w) = true.

Definition logout_msg (c : cfg) (w : world) (code : str) : msg :=
  mkMsg MT_LOGOUT [(T49, c_sender c); (T56, c_target c); (T34, z_to_dec (nout w)); (T52, c_time c); (T58, code)].

(* the world after a Logout numbered nout w went out and the connection was dropped *)
Definition logged_out (c : cfg) (w : world) (code : str) : world :=
  let w1 := if st w =? ST_NCE then set_role ROLE_INITIATOR (set_st ST_LOGON_SENT w) else w in
  let w2 := set_nout (nout w + 1) (set_maxres 0 (set_lastt 0 (set_treq None w1))) in
  let w3 := set_jsout (nout w) (set_jout (j_out (jr w) ++ [(nout w, logout_msg c w code)]) w2) in
  set_st ST_DISC_BROKEN (set_wr false w3).

(* from NETWORK_CONN_ESTABLISHED on a Logout passes both gates of send_msg *)
Lemma logout_passes tags w :
  ST_NCE <= st w -> gate_refuses (mkMsg MT_LOGOUT tags) w || treq_refuses (mkMsg MT_LOGOUT tags) w = false.
Proof.
  intros H. unfold gate_refuses, treq_refuses. change (mkind (mkMsg MT_LOGOUT tags)) with KLogout.
  cbn [negb]. rewrite !andb_false_r. destruct (st w <? ST_NCE) eqn:E; [lia|reflexivity].
Qed.

Lemma disconnect_logout_alive c w code :
  ST_NCE <= st w -> sendable w -> code <> [] ->
  disconnect c ST_DISC_BROKEN (Some code) w =
  mkR (inl tt) (logged_out c w code)
      ((if st w =? ST_NCE then [State ST_LOGON_SENT] else [])
       ++ [Wire (logout_msg c w code); State ST_DISC_BROKEN; OnDisconnect]).
Proof.
  intros Hs [Hw [Hk Hi]] Hc. destruct code as [|c0 code']; [congruence|].
  rewrite disconnect_nf. destruct (st w <=? ST_DISC_BROKEN) eqn:E; [stlia|]. cbv zeta.
  change (ST_DISC_BROKEN <=? ST_DISC_BROKEN) with true. cbv iota.
  rewrite send_msg_spec, (logout_passes _ (set_maxres 0 (set_lastt 0 (set_treq None w))) Hs).
  rewrite send_write_new; [|reflexivity|unfold gate_world; destruct (_ =? _); assumption..].
  cbn [rv rw re]. unfold logged_out, logout_msg, sent_world, gate_world, gate_events.
  cbn [st set_maxres set_lastt set_treq]. destruct (st w =? ST_NCE); reflexivity.
Qed.
(* at most one OnDisconnect, and then the connection was alive and is dead *)
Definition disc_le1 (w : world) {A} (r : res A) : Prop :=
  discs (re r) = [] \/ (discs (re r) = [tt] /\ ~ dead w /\ dead (rw r)).

Lemma disconnect_discs c ds lm w :
  ds <= ST_DISC_BROKEN -> disc_le1 w (disconnect c ds lm w).
Proof.
  intros Hds. unfold disc_le1, dead. rewrite disconnect_nf. destruct (st w <=? ST_DISC_BROKEN) eqn:E; [left; reflexivity|].
  destruct (ds <=? ST_DISC_BROKEN) eqn:E2; [|left; reflexivity]. cbv zeta.
  match goal with |- context [match rv ?r with _ => _ end] => assert (HS : discs (re r) = []) end.
  { apply discs_nil. destruct lm; [apply send_msg_allev; cbn; auto|constructor]. }
  match goal with |- context [match rv ?r with _ => _ end] => destruct (rv r) end; cbn [rw re]; [|left; exact HS].
  right. rewrite discs_app, HS. repeat split; [lia|exact Hds].
Qed.

Lemma discs_le1_cases (l : list unit) : l = [] \/ l = [tt] -> (length l <= 1)%nat.
Proof. intros [->| ->]; cbn; lia. Qed.

Lemma process_logout_discs c m w : disc_le1 w (process_logout c m w).
Proof.
  unfold process_logout. rewrite bind_getw, bind_unfold. cbn [emit rv rw re].
  destruct (disconnect_discs c (if wasact w then ST_DISC_WCONN else ST_DISC_BROKEN) None w) as [H|H];
    [destruct (wasact w); stlia|left|right]; destruct (rv (disconnect c _ None w)); exact H.
Qed.

Lemma logout_counted_discs c m w : mkind m = KLogout -> disc_le1 w (logout_counted c m w).
Proof.
  intros Hk. rewrite (logout_counted_nf c m w Hk). destruct (get_int T34 m) as [n|x]; [|left; reflexivity].
  match goal with |- context [process_logout c m ?w1] =>
    assert (Hs : st w1 = st w); [|destruct (process_logout_discs c m w1) as [H|[H1 [H2 H3]]]; [left; exact H|right]] end.
  { destruct (n =? nin w); [|reflexivity]. rewrite (persist_in_writes m _ st); [reflexivity|ignores_solve]. }
  unfold dead in *. rewrite Hs in H2. auto.
Qed.

Lemma part1_discs c m w : disc_le1 w (part1 c m w).
Proof.
  rewrite part1_nf. destruct (st w <? ST_NCE); [left; reflexivity|].
  destruct (early_drop m w) eqn:Ed; [apply disconnect_discs; stlia|].
  destruct (kind_eq_dec (mkind m) KLogout) as [Hk|Hk].
  - rewrite (part1_logout_nf c m w Hk Ed). now apply logout_counted_discs.
  - left. apply discs_nil. apply (allev_bind not_disc (pre_handlers c m w)).
    + apply pre_handlers_allev; cbn; auto.
    + intros _. apply gap_check_allev; cbn; auto.
Qed.

Lemma dispatch_discs c m v w : disc_le1 w (dispatch c m v w).
Proof.
  rewrite dispatch_nf. destruct (mkind m); try (left; reflexivity).
  - left. cbn [re]. destruct (_ && _); reflexivity.
  - left. apply discs_nil. apply allev_finally; [apply process_resend_allev|apply restore_handling_allev]; cbn; auto.
  - left. apply discs_nil. apply process_testrequest_allev; cbn; auto.
  - unfold process_heartbeat. rewrite bind_getw.
    destruct (treq w); [|left; reflexivity]. destruct (get T112 (mtags m)); [|left; reflexivity].
    destruct (negb _); [apply disconnect_discs; stlia|left; reflexivity].
  - left. cbn [re]. destruct (_ && _); reflexivity.
Qed.

Lemma finalize_keeps_dead m now : keeps dead (finalize m now).
Proof. intros w Hw. unfold dead in *. destruct (finalize_st m now w) as [H|[H _]]; [rewrite H; exact Hw|stlia]. Qed.

Lemma process_message_discs c m now w : disc_le1 w (process_message c m now w).
Proof.
  pose proof (part1_discs c m w) as P.
  apply process_message_case; [intros lm; apply disconnect_discs; stlia|left; reflexivity|].
  intros V. split; [intros v E|exact P].
  (* the dispatcher was reached: the connection was up and still is, so the try body has not reported a disconnect *)
  assert (Ha : ~ dead w).
  { revert E. rewrite part1_nf. unfold dead. destruct (st w <? ST_NCE) eqn:E6; [discriminate|stlia]. }
  assert (Hl : ~ dead (rw (part1 c m w))).
  { destruct v; [destruct (part1_true c m w E) as [n [_ [_ [_ H]]]]; exact H|]. unfold dead. rewrite (part1_false c m w E). stlia. }
  destruct P as [P|[_ [_ P]]]; [|contradiction]. unfold disc_le1. cbn [rw re]. rewrite !discs_app, P. cbn [app].
  rewrite (discs_nil _ (finalize_or_not_events not_disc v m now _ (fun _ => I))), app_nil_r.
  destruct (dispatch_discs c m v (rw (part1 c m w))) as [D|[D [_ Dd]]]; [left; exact D|right].
  split; [exact D|]. split; [exact Ha|]. destruct v; [apply finalize_keeps_dead|]; exact Dd.
Qed.

(* every operation: at most one OnDisconnect; it needs a live connection and leaves a dead one;
   a dead connection stays dead *)
Definition disc_ok (s : srec) : Prop :=
  (discs (s_events s) = [] \/ (discs (s_events s) = [tt] /\ ~ dead (s_before s) /\ dead (s_after s)))
  /\ (dead (s_before s) -> dead (s_after s) /\ discs (s_events s) = []).

Lemma send_msg_keeps_dead c m : keeps dead (send_msg c m).
Proof. apply (send_msg_keeps_st c m (fun s => s <= ST_DISC_BROKEN)). stlia. Qed.

Lemma send_test_req_unfold c now w :
  send_test_req c now w =
  if treq w then mkR (inr XConn) w [] else send_msg c (mkMsg MT_TESTREQUEST [(T112, z_to_dec now)]) (set_treq (Some now) w).
Proof. unfold send_test_req. rewrite bind_getw. destruct (treq w); [reflexivity|apply bind_modw]. Qed.

Lemma step_disc_ok c o w : disc_ok (mkS w o (step c o w)).
Proof.
  unfold disc_ok, s_events, s_after. cbn [s_res s_before].
  destruct o as [m now|m|now|ds lm]; cbn [step].
  - split; [apply process_message_discs|].
    intros Hd. destruct (process_message_dead c m now w Hd) as [H1 H2]. rewrite H1, H2. auto.
  - assert (Hn : discs (re (send_msg c m w)) = []) by (apply discs_nil, send_msg_allev; cbn; auto).
    split; [left; exact Hn|]. intros Hd. split; [apply send_msg_keeps_dead; exact Hd|exact Hn].
  - assert (Hn : discs (re (send_test_req c now w)) = []) by (apply discs_nil, send_test_req_allev; cbn; auto).
    split; [left; exact Hn|]. intros Hd. split; [|exact Hn].
    rewrite send_test_req_unfold. destruct (treq w); [exact Hd|]. apply send_msg_keeps_dead. exact Hd.
  - split; [|intros Hd; rewrite (disconnect_dead_noop c ds lm w Hd); auto].
    destruct (Z_le_gt_dec ds ST_DISC_BROKEN) as [Hds|Hds]; [apply disconnect_discs, Hds|].
    (* the assertion on disconn_state fails before anything happens *)
    left. rewrite disconnect_nf. destruct (st w <=? ST_DISC_BROKEN); [reflexivity|].
    destruct (ds <=? ST_DISC_BROKEN) eqn:E2; [lia|reflexivity].
Qed.

(* a dead connection never reports a disconnect again; a live one reports at most one *)
Lemma run_discs_once c h : forall w,
  (dead w -> discs (trace (run c w h)) = []) /\ (length (discs (trace (run c w h))) <= 1)%nat.
Proof.
  induction h as [|o h IH]; intros w; [cbn; split; auto|].
  rewrite trace_cons, discs_app.
  destruct (step_disc_ok c o w) as [H1 H2]. unfold s_events, s_after in *. cbn [s_res s_before] in *.
  destruct (IH (rw (step c o w))) as [I1 I2].
  split.
  - intros Hd. destruct (H2 Hd) as [Hd' Hn]. rewrite Hn, (I1 Hd'). reflexivity.
  - destruct H1 as [H1|[H1 [Ha Hd]]]; rewrite H1; cbn [app length]; [exact I2|].
    rewrite (I1 Hd). cbn. lia.
Qed.
Definition prelogon (w : world) : Prop :=
  st w <= ST_DISC_BROKEN \/ st w = ST_NCE \/ st w = ST_LOGON_SENT \/ st w = ST_LOGON_RECV.

Lemma send_msg_keeps_prelogon c m : keeps prelogon (send_msg c m).
Proof.
  apply (send_msg_keeps_st c m (fun s => s <= ST_DISC_BROKEN \/ s = ST_NCE \/ s = ST_LOGON_SENT \/ s = ST_LOGON_RECV)). auto.
Qed.

Lemma disconnect_keeps_prelogon c ds lm : keeps prelogon (disconnect c ds lm).
Proof.
  apply (disconnect_keeps_st c ds lm (fun s => s <= ST_DISC_BROKEN \/ s = ST_NCE \/ s = ST_LOGON_SENT \/ s = ST_LOGON_RECV)); auto.
Qed.

Lemma logons_nonnil_app_l a b : logons a <> [] -> logons (a ++ b) <> [].
Proof. rewrite logons_app. destruct (logons a); [congruence|discriminate]. Qed.
Lemma logons_nonnil_app_r a b : logons b <> [] -> logons (a ++ b) <> [].
Proof. rewrite logons_app. destruct (logons b); [congruence|]. intros _ H. apply app_eq_nil in H. destruct H; discriminate. Qed.

(* _process_logon from a pre-Logon state: it either raises (still pre-Logon) or reports on_logon *)
Lemma process_logon_prelogon c m w :
  prelogon w ->
  logons (re (process_logon c m w)) <> [] \/
  (prelogon (rw (process_logon c m w)) /\ exists x, rv (process_logon c m w) = inr x).
Proof.
  intros Hw. pose proof (send_msg_keeps_prelogon c) as Hs.
  unfold process_logon. rewrite bind_getw. destruct (negb _); [right; split; [exact Hw|eexists; reflexivity]|].
  rewrite bind_lift. destruct (get_int T34 m) as [n|x]; [|right; split; [exact Hw|eexists; reflexivity]].
  rewrite bind_unfold.
  match goal with |- context [match rv (?A w) with _ => _ end] => assert (HA : keeps prelogon A) by keeps_tac end.
  match goal with |- context [match rv ?r with _ => _ end] =>
    destruct (rv r); cbn [rv rw re]; [left|right; split; [apply HA, Hw|eexists; reflexivity]] end.
  (* what is left always ends with on_logon *)
  apply logons_nonnil_app_r. rewrite bind_getw, bind_unfold.
  destruct (n =? nin _); rewrite state_set_nf; cbn [rv rw re]; rewrite bind_getw; discriminate.
Qed.

(* the same for the pre-handlers of a Logon *)
Lemma pre_handlers_logon_prelogon c m w0 w :
  prelogon w -> mkind m = KLogon ->
  logons (re (pre_handlers c m w0 w)) <> [] \/
  (prelogon (rw (pre_handlers c m w0 w)) /\ exists x, rv (pre_handlers c m w0 w) = inr x).
Proof.
  intros Hw Hk. rewrite pre_handlers_unfold, Hk, bind_unfold, accept_first_nf.
  assert (Ha : prelogon (if st w0 =? ST_NCE then set_role ROLE_ACCEPTOR (set_st ST_LOGON_RECV w) else w)).
  { destruct (st w0 =? ST_NCE); [right; right; right; reflexivity|exact Hw]. }
  destruct (st w0 =? ST_NCE); cbn [rv rw re];
    (destruct (process_logon_prelogon c m _ Ha) as [H|H]; [left; apply logons_nonnil_app_r, H|right; exact H]).
Qed.

(* from a pre-Logon state the try body stays pre-Logon and gives no verdict, unless it is a Logon that reports on_logon *)
Lemma part1_prelogon c m w :
  prelogon w ->
  (prelogon (rw (part1 c m w)) /\ forall v, rv (part1 c m w) <> inl (Some v))
  \/ (logons (re (part1 c m w)) <> [] /\ mkind m = KLogon).
Proof.
  intros Hw. rewrite part1_nf. destruct (st w <? ST_NCE) eqn:E6; [left; split; [exact Hw|discriminate]|].
  destruct (early_drop m w) eqn:Ed.
  { left. cbv zeta. cbn [rv rw]. split; [apply disconnect_keeps_prelogon, Hw|].
    intros v. destruct (rv (disconnect c ST_DISC_BROKEN None w)); discriminate. }
  destruct (kind_eq_dec (mkind m) KLogout) as [Hl|Hl].
  { left. rewrite (part1_logout_nf c m w Hl Ed), (logout_counted_nf c m w Hl). cbn [rv rw].
    destruct (get_int T34 m); [|split; [exact Hw|discriminate]].
    split; [left; apply process_logout_dead|]. intros v. destruct (rv (process_logout c m _)); discriminate. }
  (* neither dropped early nor a Logout, before the Logon exchange is complete: a Logon *)
  assert (Hk : mkind m = KLogon).
  { unfold early_drop in Ed. destruct Hw as [Hd|[H|[H|H]]]; [stlia|rewrite H in Ed..]; destruct (mkind m); try reflexivity; try discriminate; now elim Hl. }
  rewrite bind_unfold. destruct (pre_handlers_logon_prelogon c m w w Hw Hk) as [H|[H [x Hx]]].
  - right. split; [|exact Hk]. destruct (rv (pre_handlers c m w w)); cbn [re]; [apply logons_nonnil_app_l|]; exact H.
  - left. rewrite Hx. split; [exact H|discriminate].
Qed.

(* one operation from a pre-Logon state (disconnected, NETWORK_CONN_ESTABLISHED, LOGON_INITIAL_SENT, LOGON_INITIAL_RECV):
   nothing is delivered, and the connection leaves the pre-Logon states only by reporting on_logon.
   Since R8b this holds for every operation: the classes D15 and D25 are gone *)
Lemma step_prelogon c o w :
  let s := mkS w o (step c o w) in
  prelogon w ->
  apps (s_events s) = [] /\ (prelogon (s_after s) \/ logons (s_events s) <> []).
Proof.
  intros s Hw. subst s. unfold s_events, s_after. cbn [s_res].
  destruct o as [m now|m|now|ds lm]; cbn [step].
  2:{ split; [apply apps_nil, send_msg_allev; cbn; auto|]. left. apply send_msg_keeps_prelogon, Hw. }
  2:{ split; [apply apps_nil, send_test_req_allev; cbn; auto|]. left.
      rewrite send_test_req_unfold. destruct (treq w); [exact Hw|]. apply send_msg_keeps_prelogon, Hw. }
  2:{ split; [apply apps_nil, disconnect_allev; cbn; auto|]. left. apply disconnect_keeps_prelogon, Hw. }
  pose proof (apps_nil _ (part1_not_app c m w)) as Pa.
  pattern (process_message c m now w). apply process_message_case; cbn [rw re].
  - intros lm. split; [apply apps_nil, disconnect_allev; cbn; auto|]. left. apply disconnect_keeps_prelogon, Hw.
  - auto.
  - intros V. destruct (part1_prelogon c m w Hw) as [[Hp Hn]|[Hl Hk]].
    + split; [intros v E; now elim (Hn v)|auto].
    + split; [intros v E|auto]. split; [|right; apply logons_nonnil_app_l, Hl].
      rewrite !apps_app, Pa, (apps_nil _ (finalize_or_not_events not_app v m now _ (fun _ => I))), app_nil_r.
      destruct (dispatch_apps c m v (rw (part1 c m w))) as [D|[_ [_ [_ [D|D]]]]]; [exact D|congruence..].
Qed.

Lemma apps_nil_not_in l m : apps l = [] -> ~ In (App m) l.
Proof.
  induction l as [|[] l IH]; cbn; intros H; try (intros [Hx|Hx]; [discriminate|apply IH; auto]); auto.
  discriminate.
Qed.

(* every App event of the history is preceded by an OnLogon event - over ALL histories *)
Lemma run_no_app_before_logon c h : forall w,
  prelogon w ->
  forall pre m post, trace (run c w h) = pre ++ App m :: post -> logons pre <> [].
Proof.
  induction h as [|o h IH]; intros w Hw pre m post Ht.
  { cbn in Ht. destruct pre; discriminate. }
  rewrite trace_cons in Ht.
  destruct (step_prelogon c o w Hw) as [Ha Hp]. unfold s_events, s_after in *. cbn [s_res] in *.
  apply app_eq_app in Ht. destruct Ht as [l [[E1 E2]|[E1 E2]]].
  - destruct l as [|e l'].
    + rewrite app_nil_r in E1. cbn in E2. subst pre.
      destruct Hp as [Hp|Hp]; [|exact Hp].
      exfalso. apply (IH _ Hp [] m post); [rewrite <- E2; reflexivity|reflexivity].
    + exfalso. inversion E2; subst. apply (apps_nil_not_in _ m Ha). rewrite E1. apply in_or_app. right. left. reflexivity.
  - subst pre. destruct Hp as [Hp|Hp]; [|apply logons_nonnil_app_l; exact Hp].
    apply logons_nonnil_app_r. eapply (IH _ Hp l m post). exact E2.
Qed.

(* a connection that started before the Logon exchange and is now in an established state
   (ACTIVE, RECV_SEQNUM_TOO_HIGH, RESENDREQ_HANDLING, RESENDREQ_AWAITING) has reported on_logon *)
Lemma run_established_needs_logon c h : forall w,
  prelogon w -> ~ prelogon (final c w h) -> logons (trace (run c w h)) <> [].
Proof.
  induction h as [|o h IH]; intros w Hw Hf.
  { exfalso. apply Hf. exact Hw. }
  rewrite trace_cons.
  destruct (step_prelogon c o w Hw) as [_ Hp]. unfold s_events, s_after in *. cbn [s_res] in *.
  destruct Hp as [Hp|Hp]; [|apply logons_nonnil_app_l; exact Hp].
  apply logons_nonnil_app_r. apply IH; [exact Hp|exact Hf].
Qed.
(* serving a ResendRequest passes through RESENDREQ_HANDLING and back to ACTIVE *)
Lemma resend_keeps I c m :
  (forall m', keeps I (send_msg c m')) -> keeps I (state_set ST_HANDLING) -> keeps I (state_set ST_ACTIVE) ->
  (forall a b, keeps I (recover_out a b)) ->
  keeps I (finally_ (process_resend c m) restore_handling).
Proof.
  intros Hs H1 H2 Hr. pose proof (replay_loop_keeps I c Hs) as Hl.
  apply keeps_finally; [unfold process_resend|unfold restore_handling]; keeps_tac.
Qed.

(* An invariant that speaks of the state and the role only, and holds of every state the library sets (with the role
   it then has), is kept by every operation: the three invariants below are instances. *)
Section StRoleInv.
  Variable Inv : world -> Prop.
  Hypothesis Inv_free : forall A (k : M A), pres st k -> pres role k -> keeps Inv k.
  Hypothesis Inv_set : forall s, In s [ST_ACTIVE; ST_TOO_HIGH; ST_AWAITING; ST_DISC_WCONN; ST_DISC_BROKEN] -> keeps Inv (state_set s).
  Hypothesis Inv_send : forall c m, keeps Inv (send_msg c m).
  Hypothesis Inv_acc : forall w0, keeps Inv (accept_first w0).
  Hypothesis Inv_resend : forall c m, keeps Inv (finally_ (process_resend c m) restore_handling).

  Lemma inv_writes {A} ds (k : M A) : writes ds k -> ~ In FSt ds -> ~ In FRole ds -> keeps Inv k.
  Proof. intros H H1 H2. apply Inv_free; [eapply writes_st|eapply writes_role]; eassumption. Qed.

  Lemma inv_modw g : (forall w, st (g w) = st w) -> (forall w, role (g w) = role w) -> keeps Inv (modw g).
  Proof. intros H1 H2. apply Inv_free; apply pres_modw; assumption. Qed.

  Lemma inv_seq i : keeps Inv (set_seq_num None i).
  Proof. eapply inv_writes; [apply set_seq_num_writes|destruct i; cbn; intuition discriminate..]. Qed.
  Lemma inv_persist_in m : keeps Inv (persist_in m).
  Proof. eapply inv_writes; [apply persist_in_writes|cbn; intuition discriminate..]. Qed.
  Lemma inv_next_num_in m : keeps Inv (set_next_num_in m).
  Proof. eapply inv_writes; [apply set_next_num_in_writes|cbn; intuition discriminate..]. Qed.

  Hint Resolve Inv_send Inv_acc Inv_resend inv_modw inv_seq inv_persist_in inv_next_num_in : keeps.
  Hint Extern 1 (keeps Inv (state_set _)) => apply Inv_set; cbn; tauto : keeps.

  Lemma disconnect_inv c ds lm : (ds <= ST_DISC_BROKEN -> keeps Inv (state_set ds)) -> keeps Inv (disconnect c ds lm).
  Proof.
    intros H. unfold disconnect. apply keeps_bind; [apply keeps_getw|intros w0].
    destruct (st w0 <=? ST_DISC_BROKEN); [apply keeps_ret|].
    destruct (ds <=? ST_DISC_BROKEN) eqn:E; [|intros w Hw; exact Hw].
    assert (Hs : keeps Inv (state_set ds)) by (apply H; lia). keeps_tac.
  Qed.

  Lemma process_message_inv c m now : keeps Inv (process_message c m now).
  Proof.
    assert (Hd : forall (b : bool) lm, keeps Inv (disconnect c (if b then ST_DISC_WCONN else ST_DISC_BROKEN) lm)).
    { intros b lm. apply disconnect_inv. intros _. destruct b; auto with keeps. }
    pose proof (Hd false) as Hd'. cbv iota in Hd'.
    apply process_message_keeps; [exact Hd'| | |].
    - apply part1_keeps; [apply Hd'| |].
      + intros w0. rewrite pre_handlers_unfold.
        unfold process_logon, process_seqreset, logout_counted, process_logout. keeps_tac.
      + unfold gap_check, check_gaps. keeps_tac.
    - intros v. unfold dispatch, process_testrequest, process_heartbeat. keeps_tac.
    - unfold finalize, finalize_tail. keeps_tac.
  Qed.

  Lemma step_inv c o :
    match o with ODisc ds _ => ds <= ST_DISC_BROKEN -> keeps Inv (state_set ds) | _ => True end -> keeps Inv (step c o).
  Proof.
    intros Ho. destruct o as [m now|m|now|ds lm]; cbn [step].
    - apply process_message_inv.
    - apply Inv_send.
    - unfold send_test_req. keeps_tac.
    - apply disconnect_inv, Ho.
  Qed.
End StRoleInv.
(* the ConnectionState numbers the library ever sets *)
Definition okst (s : Z) : Prop := In s [1; 2; 3; 6; 7; 8; 10; 11; 12; 17].
Definition okstate (w : world) : Prop := okst (st w).

Lemma state_set_okstate s : okst s -> keeps okstate (state_set s).
Proof. intros Hs w _. unfold okstate. rewrite state_set_st. exact Hs. Qed.

Definition op_ok (o : op) : Prop := match o with ODisc ds _ => okst ds | _ => True end.

Lemma step_okstate c o : op_ok o -> keeps okstate (step c o).
Proof.
  intros Ho. apply step_inv.
  - intros A k H _. apply (keeps_pres st okst), H.
  - intros s H. apply state_set_okstate. unfold okst. cbn in *. intuition.
  - intros. apply (send_msg_keeps_st _ _ okst). unfold okst. cbn. intuition.
  - intros w0 w Hw. unfold okstate. rewrite accept_first_nf. destruct (st w0 =? ST_NCE); [|exact Hw].
    unfold okst. cbn. intuition.
  - intros c' m. apply resend_keeps.
    + intros. apply (send_msg_keeps_st _ _ okst). unfold okst. cbn. intuition.
    + apply state_set_okstate. unfold okst. cbn. intuition.
    + apply state_set_okstate. unfold okst. cbn. intuition.
    + intros. apply (keeps_pres st okst), recover_out_writes. exact I.
  - destruct o; auto. intros _. apply state_set_okstate, Ho.
Qed.
(* since the repair R3c a ResendRequest that cannot be served no longer leaves the connection in
   RESENDREQ_HANDLING: no operation ends in that state unless it started there *)
Definition not_handling (w : world) : Prop := st w <> ST_HANDLING.

Lemma restore_not_handling w : not_handling (rw (restore_handling w)).
Proof.
  unfold restore_handling, not_handling. rewrite bind_getw.
  destruct (st w =? ST_HANDLING) eqn:E; [rewrite state_set_st; stlia|cbn; lia].
Qed.

Lemma step_not_handling c o : keeps not_handling (step c o).
Proof.
  apply step_inv.
  - intros A k H _. apply (keeps_pres st (fun s => s <> ST_HANDLING)), H.
  - intros s H w _. unfold not_handling. rewrite state_set_st. cbn in H. stlia.
  - intros. apply (send_msg_keeps_st _ _ (fun s => s <> ST_HANDLING)). stlia.
  - intros w0 w Hw. unfold not_handling. rewrite accept_first_nf. destruct (st w0 =? ST_NCE); [cbn; stlia|exact Hw].
  - intros c' m w _. unfold finally_. destruct (rv (restore_handling _)); apply restore_not_handling.
  - destruct o; auto. intros H w _. unfold not_handling. rewrite state_set_st. stlia.
Qed.
(* the state LOGON_INITIAL_RECV is only ever set together with the ACCEPTOR role, and the role changes only
   together with a state change: the R8c send gate (role <> INITIATOR) therefore covers every connection that
   the library itself brought into LOGON_INITIAL_RECV *)
Definition recv_acc (w : world) : Prop := st w = ST_LOGON_RECV -> role w = ROLE_ACCEPTOR.

Lemma state_set_recv_acc s : s <> ST_LOGON_RECV -> keeps recv_acc (state_set s).
Proof. intros Hs w _. unfold recv_acc. rewrite state_set_st. intros H. congruence. Qed.

Lemma send_msg_recv_acc c m : keeps recv_acc (send_msg c m).
Proof.
  intros w Hw. rewrite send_msg_nf. destruct (_ && _); [|exact Hw]. unfold recv_acc. cbn [rw].
  rewrite (send_write_writes c m _ st), (send_write_writes c m _ role) by ignores_solve.
  unfold gate_world. destruct (st w =? ST_NCE); [cbn; stlia|exact Hw].
Qed.

Lemma step_recv_acc c o : keeps recv_acc (step c o).
Proof.
  apply step_inv.
  - intros A k H1 H2 w Hw. unfold recv_acc. rewrite (H1 w), (H2 w). exact Hw.
  - intros s H. apply state_set_recv_acc. cbn in H. stlia.
  - apply send_msg_recv_acc.
  - intros w0 w Hw. rewrite accept_first_nf. destruct (st w0 =? ST_NCE); [intros _; reflexivity|exact Hw].
  - intros c' m. apply resend_keeps; [apply send_msg_recv_acc|apply state_set_recv_acc; stlia..|].
    intros a b w Hw. unfold recv_acc. rewrite !(recover_out_writes a b _ _ I). exact Hw.
  - destruct o; auto. intros H. apply state_set_recv_acc. stlia.
Qed.
Definition i_resend (seq b e : Z) := OIn (inbound (S "2") seq [(T7, z_to_dec b); (T16, z_to_dec e)]) 0.
Definition i_logon_no98 (seq : Z) := OIn (inbound (S "A") seq [(T108, S "30")]) 0.
Definition i_app_garbled := OIn (mkMsg (S "D")
    [(T8, S "FIX.4.4"); (T9, S "100"); (T35, S "D"); (T49, S "SRV"); (T56, S "CLI");
     (T34, S "abc"); (T52, S "20230101-10:00:00.000"); (T10, S "000")]) 0.

(* the former D27 witness: D with correct CompIDs and 34 = abc *)
Definition m_garbled : msg :=
  mkMsg (S "D") [(T8, S "FIX.4.4"); (T9, S "100"); (T35, S "D"); (T49, S "SRV"); (T56, S "CLI");
                 (T34, S "abc"); (T52, S "20230101-10:00:00.000"); (T10, S "000")].
(* non-vacuity: a normal acceptor session delivers after its Logon and ends with one disconnect *)
Definition h_session := [i_logon 1; i_app 2; i_app 3; OSend (mkMsg (S "D") [(S "11", S "X")]); OIn (inbound (S "5") 4 []) 0; i_app 5].
(* a Logout with the given MsgSeqNum text *)
Definition i_logout_text (v : str) := OIn (mkMsg (S "5")
    [(T8, S "FIX.4.4"); (T9, S "100"); (T35, S "5"); (T49, S "SRV"); (T56, S "CLI");
     (T34, v); (T52, S "20230101-10:00:00.000"); (T10, S "000")]) 0.

Definition logouts_seen (l : list event) : nat := length (filter (fun e => match e with OnLogout => true | _ => false end) l).
