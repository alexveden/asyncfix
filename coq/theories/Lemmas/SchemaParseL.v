(* Proofs about the dictionary-parse model Fix/SchemaParse.v: the retry loop of FIXSchema._parse
   computes the declarative unfolding [expand] of component references, which looks components up by
   name only; hence the parsed schema does not depend on the declaration order of <components>. *)
From Coq Require Import ZArith NArith List Bool Lia Permutation.
From AF Require Import Lemmas.StrB Base.Sx Py.Str Fix.SchemaModel Fix.SchemaParse Lemmas.SchemaL.
From AFGen Require GenSchema.
Import ListNotations.
Local Open Scope nat_scope.

Section RInd.
  Variable P : rchild -> Prop.
  Hypothesis Hf : forall n r, P (RField n r).
  Hypothesis Hc : forall c, P (RComp c).
  Hypothesis Hg : forall n r ch, Forall P ch -> P (RGroup n r ch).

  Fixpoint rchild_ind' (c : rchild) : P c :=
    match c with
    | RField n r => Hf n r
    | RComp c' => Hc c'
    | RGroup n r ch =>
        Hg n r ch ((fix go (l : list rchild) : Forall P l :=
                      match l with
                      | [] => Forall_nil _
                      | x :: r' => Forall_cons x (rchild_ind' x) (go r')
                      end) ch)
    end.
End RInd.

Lemma Forall_all : forall (P : rchild -> Prop), (forall c, P c) -> forall ch, Forall P ch.
Proof. intros P H ch. apply Forall_forall. intros. apply H. Qed.

Definition names (ms : list member) : list N := map member_name ms.

Lemma has_name_In : forall n ms, has_name n ms = true <-> In n (names ms).
Proof. intros n ms. apply (existsb_eqb_map _ _ N.eqb_eq). Qed.

Lemma add_inr : forall m acc a,
  add m acc = inr a -> ~ In (member_name m) (names acc) /\ a = acc ++ [m].
Proof.
  intros m acc a H. unfold add in H. destruct (has_name (member_name m) acc) eqn:E; [discriminate|].
  inversion H; subst. split; [|reflexivity]. intro Hin. apply has_name_In in Hin. congruence.
Qed.

Lemma add_sub : forall m acc1 acc2 a2,
  incl (names acc1) (names acc2) -> add m acc2 = inr a2 ->
  exists a1, add m acc1 = inr a1 /\ incl (names a1) (names a2).
Proof.
  intros m acc1 acc2 a2 Hi H. apply add_inr in H. destruct H as [Hn ->].
  exists (acc1 ++ [m]). split.
  - unfold add. destruct (has_name (member_name m) acc1) eqn:E; [|reflexivity].
    apply has_name_In, Hi in E. contradiction.
  - unfold names. rewrite !map_app. apply incl_app; [apply incl_appl; exact Hi | apply incl_appr; apply incl_refl].
Qed.

Lemma merge_grows : forall ms acc a, merge ms acc = inr a -> incl (names acc) (names a).
Proof.
  induction ms as [|m ms IH]; intros acc a H; simpl in H.
  - inversion H. apply incl_refl.
  - destruct (add m acc) as [e|acc'] eqn:E; [discriminate|].
    apply add_inr in E. destruct E as [_ ->]. apply IH in H. unfold names in H. rewrite map_app in H.
    intros x Hx. apply H, in_or_app. left. exact Hx.
Qed.

Lemma merge_sub : forall ms acc1 acc2 a2,
  incl (names acc1) (names acc2) -> merge ms acc2 = inr a2 ->
  exists a1, merge ms acc1 = inr a1 /\ incl (names a1) (names a2).
Proof.
  induction ms as [|m ms IH]; intros acc1 acc2 a2 Hi H; simpl in *.
  - inversion H; subst. exists acc1. auto.
  - destruct (add m acc2) as [e|acc2'] eqn:E; [discriminate|].
    destruct (add_sub m acc1 acc2 acc2' Hi E) as [acc1' [E1 Hi']]. rewrite E1.
    apply (IH acc1' acc2' a2 Hi' H).
Qed.

(* The functions of Fix/SchemaParse.v with [fbn n] in place of [field_by_name flds n] and [tf] in place
   of [tag2field_of flds].  The model is the instance [parse_with_by] (by conversion); only the values
   of [fbn] matter ([ext_parse_by]), so a dictionary can be parsed with its field table in a trie. *)
Section By.
  Variable fbn : N -> option field.
  Variable groupable : list N.

  Section ChildrenBy.
    Variable L : N -> option (list member).

    Fixpoint parse_child_by (c : rchild) (acc : list member) (d : bool) {struct c}
      : perr + (list member * bool) :=
      match c with
      | RField n r =>
          match fbn n with
          | None => inl PKeyError
          | Some f => match add (MField f r) acc with inl e => inl e | inr a => inr (a, d) end
          end
      | RComp cn =>
          match L cn with
          | None => inr (acc, true)
          | Some ms => match merge ms acc with inl e => inl e | inr a => inr (a, d) end
          end
      | RGroup n r ch =>
          match fbn n with
          | None => inl PKeyError
          | Some f =>
              if negb (existsb (N.eqb (f_name f)) groupable) then inl PValueError
              else match children_loop parse_child_by ch [] false with
                   | inl e => inl e
                   | inr (_, true) => inr (acc, true)
                   | inr (gms, false) =>
                       match add (MGroup f r gms) acc with inl e => inl e | inr a => inr (a, d) end
                   end
          end
      end.

    Definition parse_children_by := children_loop parse_child_by.
  End ChildrenBy.

  Definition attempt_by (cm : cmap) (c : rcomp) : attempt_res :=
    if has_key cm (fst c) then AErr PAssertion
    else match parse_children_by (lookup cm) (snd c) [] false with
         | inl e => AErr e
         | inr (_, true) => ADefer
         | inr (ms, false) => AParsed ms
         end.

  Fixpoint sweep_by (cm : cmap) (pending : list rcomp) : perr + (cmap * list rcomp) :=
    match pending with
    | [] => inr (cm, [])
    | c :: r =>
        match attempt_by cm c with
        | AErr e => inl e
        | AParsed ms => sweep_by (cm ++ [(fst c, ms)]) r
        | ADefer => match sweep_by cm r with
                    | inl e => inl e
                    | inr (cm', rest) => inr (cm', c :: rest)
                    end
        end
    end.

  Fixpoint resolve_by (fuel : nat) (cm : cmap) (pending : list rcomp) : perr + cmap :=
    match pending with
    | [] => inr cm
    | _ :: _ =>
        match fuel with
        | O => inl PRuntime
        | S fuel' =>
            match sweep_by cm pending with
            | inl e => inl e
            | inr (cm', rest) =>
                match rest with
                | [] => inr cm'
                | _ :: _ => if Nat.eqb (length rest) (length pending) then inl PRuntime
                            else resolve_by fuel' cm' rest
                end
            end
        end
    end.

  Fixpoint parse_messages_by (L : N -> option (list member)) (msgs : list rmsg) (seen : list N)
           (acc : list (str * list member)) : perr + list (str * list member) :=
    match msgs with
    | [] => inr acc
    | (nm, mt, ch) :: r =>
        if existsb (N.eqb nm) seen then inl PAssertion
        else match parse_children_by L ch [] false with
             | inl e => inl e
             | inr (_, true) => inl PAssertion
             | inr (ms, false) => parse_messages_by L r (nm :: seen) (dict_set str_eqb mt ms acc)
             end
    end.

  Definition parse_by (tf : list field) (r : raw) (comps : list rcomp) : perr + schema :=
    match parse_children_by (fun _ => None) (r_header r) [] false with
    | inl e => inl e
    | inr (hms, hd) =>
        match resolve_by (length comps) [] comps with
        | inl e => inl e
        | inr cm =>
            match parse_messages_by (lookup cm) (r_msgs r) [] [] with
            | inl e => inl e
            | inr msgs => if hd then inl PHeaderNone else inr (mkSchema tf hms msgs)
            end
        end
    end.
End By.

Lemma parse_with_by : forall r comps,
  parse_with r comps
  = parse_by (field_by_name (r_fields r)) (r_groupable r) (tag2field_of (r_fields r)) r comps.
Proof. reflexivity. Qed.

Section ExtBy.
  Variables fbn fbn' : N -> option field.
  Variable grp : list N.
  Hypothesis Hf : forall n, fbn n = fbn' n.

  Lemma ext_children_by : forall L L', (forall n, L n = L' n) ->
    forall ch acc d, parse_children_by fbn grp L ch acc d = parse_children_by fbn' grp L' ch acc d.
  Proof.
    intros L L' HE.
    assert (Hloop : forall ch, Forall (fun c => forall acc d,
                       parse_child_by fbn grp L c acc d = parse_child_by fbn' grp L' c acc d) ch ->
              forall acc d, parse_children_by fbn grp L ch acc d = parse_children_by fbn' grp L' ch acc d).
    { induction 1 as [|c ch Hc _ IH]; intros acc d; simpl; [reflexivity|]. rewrite Hc.
      destruct (parse_child_by fbn' grp L' c acc d) as [e|[a1 d1]]; [reflexivity | apply IH]. }
    intro ch. apply Hloop. apply Forall_all.
    induction c as [n r|cn|n r ch' IH] using rchild_ind'; intros acc d; simpl.
    - rewrite Hf. reflexivity.
    - rewrite HE. reflexivity.
    - rewrite Hf. fold (parse_children_by fbn grp L) (parse_children_by fbn' grp L').
      rewrite (Hloop ch' IH). reflexivity.
  Qed.

  Lemma ext_messages_by : forall L L', (forall n, L n = L' n) ->
    forall msgs seen acc, parse_messages_by fbn grp L msgs seen acc = parse_messages_by fbn' grp L' msgs seen acc.
  Proof.
    intros L L' HE. induction msgs as [|[[nm mt] ch] r IH]; intros seen acc; simpl; [reflexivity|].
    destruct (existsb (N.eqb nm) seen); [reflexivity|]. rewrite (ext_children_by L L' HE).
    destruct (parse_children_by fbn' grp L' ch [] false) as [e|[ms [|]]]; try reflexivity. apply IH.
  Qed.

  Lemma ext_resolve_by : forall fuel cm pending,
    resolve_by fbn grp fuel cm pending = resolve_by fbn' grp fuel cm pending.
  Proof.
    assert (Hsweep : forall pending cm, sweep_by fbn grp cm pending = sweep_by fbn' grp cm pending).
    { induction pending as [|c r IH]; intro cm; simpl; [reflexivity|]. unfold attempt_by.
      rewrite (ext_children_by _ _ (fun _ => eq_refl)). destruct (has_key cm (fst c)); [reflexivity|].
      destruct (parse_children_by fbn' grp (lookup cm) (snd c) [] false) as [e|[ms [|]]];
        [reflexivity | rewrite IH; reflexivity | apply IH]. }
    induction fuel as [|fuel IH]; intros cm [|c r]; try reflexivity. cbn [resolve_by].
    rewrite Hsweep. destruct (sweep_by fbn' grp cm (c :: r)) as [e|[cm' [|c' rest]]]; try reflexivity.
    rewrite IH. reflexivity.
  Qed.

  Lemma ext_parse_by : forall tf r comps, parse_by fbn grp tf r comps = parse_by fbn' grp tf r comps.
  Proof.
    intros tf r comps. unfold parse_by.
    rewrite (ext_children_by _ _ (fun _ => eq_refl)), ext_resolve_by.
    destruct (parse_children_by fbn' grp (fun _ => None) (r_header r) [] false) as [e|[hms hd]]; [reflexivity|].
    destruct (resolve_by fbn' grp (length comps) [] comps) as [e|cm]; [reflexivity|].
    rewrite (ext_messages_by _ _ (fun _ => eq_refl)). reflexivity.
  Qed.
End ExtBy.

Definition sub (L L' : N -> option (list member)) : Prop := forall n ms, L n = Some ms -> L' n = Some ms.

Lemma sub_trans : forall L1 L2 L3, sub L1 L2 -> sub L2 L3 -> sub L1 L3.
Proof. intros L1 L2 L3 H1 H2 n ms H. apply H2, H1, H. Qed.

Section Children.
  Variable flds : list field.
  Variable grp : list N.

  Notation pchild := (parse_child flds grp).
  Notation pchildren := (parse_children flds grp).

  Lemma pchildren_cons : forall L c r acc d,
    pchildren L (c :: r) acc d =
    match pchild L c acc d with inl e => inl e | inr (acc', d') => pchildren L r acc' d' end.
  Proof. reflexivity. Qed.

  (* what one declaration contributes: members to merge, or nothing yet (an unresolved reference) *)
  Definition contrib (L : N -> option (list member)) (c : rchild) : perr + option (list member) :=
    match c with
    | RField n r =>
        match field_by_name flds n with None => inl PKeyError | Some f => inr (Some [MField f r]) end
    | RComp cn => inr (L cn)
    | RGroup n r ch =>
        match field_by_name flds n with
        | None => inl PKeyError
        | Some f =>
            if negb (existsb (N.eqb (f_name f)) grp) then inl PValueError
            else match pchildren L ch [] false with
                 | inl e => inl e
                 | inr (_, true) => inr None
                 | inr (gms, false) => inr (Some [MGroup f r gms])
                 end
        end
    end.

  Lemma pchild_contrib : forall L c acc d,
    pchild L c acc d =
    match contrib L c with
    | inl e => inl e
    | inr None => inr (acc, true)
    | inr (Some ms) => match merge ms acc with inl e => inl e | inr a => inr (a, d) end
    end.
  Proof.
    intros L [n r|cn|n r ch] acc d; simpl.
    - destruct (field_by_name flds n) as [f|]; [|reflexivity]. simpl. destruct (add (MField f r) acc); reflexivity.
    - destruct (L cn); reflexivity.
    - destruct (field_by_name flds n) as [f|]; [|reflexivity].
      destruct (negb (existsb (N.eqb (f_name f)) grp)); [reflexivity|].
      fold (parse_child flds grp L). fold (pchildren L).
      destruct (pchildren L ch [] false) as [e|[gms [|]]]; try reflexivity.
      simpl. destruct (add (MGroup f r gms) acc); reflexivity.
  Qed.

  (* the has_circular_refs flag is never reset *)
  Lemma pchildren_flag : forall L ch acc a d', pchildren L ch acc true = inr (a, d') -> d' = true.
  Proof.
    intros L. induction ch as [|c ch IH]; intros acc a d' H.
    - inversion H. reflexivity.
    - rewrite pchildren_cons, pchild_contrib in H. destruct (contrib L c) as [e|[ms|]]; [discriminate | |].
      + destruct (merge ms acc); [discriminate | apply (IH _ _ _ H)].
      + apply (IH _ _ _ H).
  Qed.

  Section Mono.
    Variables L L' : N -> option (list member).
    Hypothesis HL : sub L L'.

    (* a finished (non-deferred) parse is unchanged when more components are known *)
    Definition mono_prop (c : rchild) : Prop :=
      forall ms, contrib L c = inr (Some ms) -> contrib L' c = inr (Some ms).

    Lemma mono_loop : forall ch, Forall mono_prop ch ->
      forall acc d a, pchildren L ch acc d = inr (a, false) -> pchildren L' ch acc d = inr (a, false).
    Proof.
      induction ch as [|c ch IH]; intros HF acc d a H; [exact H|].
      inversion HF as [|? ? Hc HF']; subst. rewrite pchildren_cons, pchild_contrib in *.
      destruct (contrib L c) as [e|[ms|]] eqn:E; [discriminate | |].
      - rewrite (Hc ms E). destruct (merge ms acc); [discriminate | apply (IH HF' _ _ _ H)].
      - apply pchildren_flag in H. discriminate.
    Qed.

    Lemma mono_child : forall c, mono_prop c.
    Proof.
      induction c as [n r|cn|n r ch IH] using rchild_ind'; intros ms H; simpl in *.
      - exact H.
      - injection H as H. rewrite (HL cn ms H). reflexivity.
      - destruct (field_by_name flds n) as [f|]; [|discriminate].
        destruct (negb (existsb (N.eqb (f_name f)) grp)); [discriminate|].
        fold (parse_child flds grp L) (parse_child flds grp L') in *. fold (pchildren L) (pchildren L') in *.
        destruct (pchildren L ch [] false) as [e|[gms [|]]] eqn:E; try discriminate.
        rewrite (mono_loop ch IH [] false gms E). exact H.
    Qed.

    Lemma mono_children : forall ch acc d a,
      pchildren L ch acc d = inr (a, false) -> pchildren L' ch acc d = inr (a, false).
    Proof. intros ch. apply mono_loop. apply Forall_all. exact mono_child. Qed.

    (* an attempt with fewer components known raises nothing the full attempt does not raise:
           each declaration contributes the same or is deferred *)
    Definition sub_prop (c : rchild) : Prop :=
      forall o2, contrib L' c = inr o2 -> exists o1, contrib L c = inr o1 /\ (o1 = None \/ o1 = o2).

    Lemma sub_loop : forall ch, Forall sub_prop ch ->
      forall acc1 acc2 d1 d2 r2 e2,
        incl (names acc1) (names acc2) -> pchildren L' ch acc2 d2 = inr (r2, e2) ->
        exists r1 e1, pchildren L ch acc1 d1 = inr (r1, e1) /\ incl (names r1) (names r2).
    Proof.
      induction ch as [|c ch IH]; intros HF acc1 acc2 d1 d2 r2 e2 Hi H.
      - inversion H; subst. exists acc1, d1. split; [reflexivity | exact Hi].
      - inversion HF as [|? ? Hc HF']; subst. rewrite pchildren_cons, pchild_contrib in *.
        destruct (contrib L' c) as [e|o2] eqn:E2; [discriminate|].
        destruct (Hc o2 E2) as (o1 & -> & Ho). destruct o2 as [ms|].
        + destruct (merge ms acc2) as [e|a2] eqn:E; [discriminate|]. destruct Ho as [->| ->].
          * apply (IH HF' acc1 a2 true d2 r2 e2); [|exact H].
            eapply incl_tran; [exact Hi | eapply merge_grows; exact E].
          * destruct (merge_sub ms acc1 acc2 a2 Hi E) as (a1 & -> & Hi1). apply (IH HF' a1 a2 d1 d2 r2 e2 Hi1 H).
        + assert (o1 = None) as -> by (destruct Ho; assumption). apply (IH HF' acc1 acc2 true true r2 e2 Hi H).
    Qed.

    Lemma sub_child : forall c, sub_prop c.
    Proof.
      induction c as [n r|cn|n r ch IH] using rchild_ind'; intros o2 H; simpl in *.
      - exists o2. auto.
      - injection H as <-. destruct (L cn) as [ms|] eqn:E; [rewrite (HL cn ms E)|]; eauto.
      - destruct (field_by_name flds n) as [f|]; [|discriminate].
        destruct (negb (existsb (N.eqb (f_name f)) grp)); [discriminate|].
        fold (parse_child flds grp L) (parse_child flds grp L') in *. fold (pchildren L) (pchildren L') in *.
        destruct (pchildren L' ch [] false) as [e|[g2 dd2]] eqn:E2; [discriminate|].
        destruct (sub_loop ch IH [] [] false false g2 dd2 (incl_refl _) E2) as (g1 & dd1 & E1 & _).
        rewrite E1. destruct dd1; [eauto|].
        rewrite (mono_loop ch (Forall_all _ mono_child ch) [] false g1 E1) in E2.
        injection E2 as <- <-. eauto.
    Qed.

    Lemma sub_children : forall ch acc1 acc2 d1 d2 r2 e2,
      incl (names acc1) (names acc2) -> pchildren L' ch acc2 d2 = inr (r2, e2) ->
      exists r1 e1, pchildren L ch acc1 d1 = inr (r1, e1) /\ incl (names r1) (names r2).
    Proof. intros ch. apply sub_loop. apply Forall_all. exact sub_child. Qed.
  End Mono.

  (* only the lookup function matters *)
  Lemma ext_children : forall L L', (forall n, L n = L' n) ->
    forall ch acc d, pchildren L ch acc d = pchildren L' ch acc d.
  Proof. exact (ext_children_by _ _ grp (fun _ => eq_refl)). Qed.

  Lemma ext_messages : forall L L', (forall n, L n = L' n) ->
    forall msgs seen acc, parse_messages flds grp L msgs seen acc = parse_messages flds grp L' msgs seen acc.
  Proof. exact (ext_messages_by _ _ grp (fun _ => eq_refl)). Qed.
End Children.

Lemma has_key_In : forall cm n, has_key cm n = true <-> In n (map fst cm).
Proof. intros cm n. apply (existsb_eqb_map _ _ N.eqb_eq). Qed.

Lemma NoDup_app_disjoint : forall (A : Type) (a b : list A) x, NoDup (a ++ b) -> In x a -> In x b -> False.
Proof.
  induction a as [|y a IH]; simpl; intros b x Hnd Ha Hb; [contradiction|].
  apply NoDup_cons_iff in Hnd. destruct Hnd as [Hn Hnd]. destruct Ha as [->|Ha].
  - apply Hn. apply in_or_app. right. exact Hb.
  - apply (IH b x Hnd Ha Hb).
Qed.

Section Meaning.
  Variable flds : list field.
  Variable grp : list N.
  Variable cs : list rcomp.

  Definition find_decl (n : N) : option (list rchild) := alookup N.eqb cs n.

  (* the members of component n, unfolding references at most k levels deep *)
  Fixpoint expand (k : nat) (n : N) : option (list member) :=
    match k with
    | O => None
    | S k' =>
        match find_decl n with
        | None => None
        | Some ch =>
            match parse_children flds grp (expand k') ch [] false with
            | inr (ms, false) => Some ms
            | _ => None
            end
        end
    end.

  Lemma expand_S : forall k n ms,
    expand (S k) n = Some ms <->
    exists ch, find_decl n = Some ch /\ parse_children flds grp (expand k) ch [] false = inr (ms, false).
  Proof.
    intros k n ms. simpl. destruct (find_decl n) as [ch|].
    - destruct (parse_children flds grp (expand k) ch [] false) as [e|[ms' [|]]] eqn:E; split;
        try discriminate; try (intros (ch' & [= <-] & E'); congruence).
      intros [= ->]. exists ch. auto.
    - split; [discriminate | intros (ch & E & _); discriminate].
  Qed.

  Lemma expand_le : forall k k', k <= k' -> sub (expand k) (expand k').
  Proof.
    assert (Hstep : forall k, sub (expand k) (expand (S k))).
    { induction k as [|k IH]; intros n ms H; [discriminate|].
      apply expand_S in H. destruct H as (ch & Hd & Hp). apply expand_S. exists ch. split; [exact Hd|].
      apply (mono_children flds grp (expand k) (expand (S k)) IH). exact Hp. }
    intros k k' H. induction H as [|k' H IH]; [intros n ms Hn; exact Hn|].
    eapply sub_trans; [exact IH | apply Hstep].
  Qed.

  Lemma expand_fun : forall k k' n a b, expand k n = Some a -> expand k' n = Some b -> a = b.
  Proof.
    intros k k' n a b Ha Hb.
    apply (expand_le k (max k k') (Nat.le_max_l _ _)) in Ha.
    apply (expand_le k' (max k k') (Nat.le_max_r _ _)) in Hb. congruence.
  Qed.

  Hypothesis Hcs : NoDup (map fst cs).

  Lemma find_decl_In : forall n ch, In (n, ch) cs -> find_decl n = Some ch.
  Proof. intros n ch. apply (In_alookup _ _ N.eqb_eq _ _ _ _ Hcs). Qed.

  (* what the table holds is what [expand] says, at some depth *)
  Definition cm_ok (cm : cmap) : Prop := exists K, Forall (fun p => expand K (fst p) = Some (snd p)) cm.

  Lemma cm_bound : forall cm, cm_ok cm -> exists K, sub (lookup cm) (expand K).
  Proof.
    intros cm [K HK]. exists K. intros n ms Hl. apply (alookup_In _ _ N.eqb_eq) in Hl. rewrite Forall_forall in HK.
    apply (HK (n, ms) Hl).
  Qed.

  Lemma cm_ok_snoc : forall cm n ms k, cm_ok cm -> expand k n = Some ms -> cm_ok (cm ++ [(n, ms)]).
  Proof.
    intros cm n ms k [K HK] Hk. exists (max K k). apply Forall_app. split.
    - eapply Forall_impl; [|exact HK]. intros q Hq. apply (expand_le K _ (Nat.le_max_l _ _)). exact Hq.
    - constructor; [|constructor]. apply (expand_le k _ (Nat.le_max_r _ _)). exact Hk.
  Qed.

  Notation attempt' := (attempt flds grp).
  Notation sweep' := (sweep flds grp).
  Notation resolve' := (resolve flds grp).

  Lemma attempt_parsed : forall cm n ch ms,
    cm_ok cm -> In (n, ch) cs -> attempt' cm (n, ch) = AParsed ms -> exists k, expand k n = Some ms.
  Proof.
    intros cm n ch ms Hok Hin H. unfold attempt in H. simpl in H.
    destruct (has_key cm n); [discriminate|].
    destruct (parse_children flds grp (lookup cm) ch [] false) as [e|[ms' [|]]] eqn:E; try discriminate.
    inversion H; subst ms'. destruct (cm_bound cm Hok) as [K HK]. exists (S K).
    apply expand_S. exists ch. split; [apply find_decl_In; exact Hin|].
    apply (mono_children flds grp (lookup cm) (expand K) HK). exact E.
  Qed.

  Lemma sweep_shape : forall pending cm cm' rest,
    sweep' cm pending = inr (cm', rest) ->
    exists parsed, cm' = cm ++ parsed
      /\ Permutation (map fst pending) (map fst parsed ++ map fst rest)
      /\ incl rest pending
      /\ (parsed = [] -> forall c, In c pending -> attempt' cm c = ADefer).
  Proof.
    induction pending as [|c r IH]; intros cm cm' rest H; simpl in H.
    - inversion H; subst. exists []. rewrite app_nil_r. split; [reflexivity|].
      split; [constructor|]. split; [apply incl_refl | intros _ c []].
    - destruct (attempt' cm c) as [ms| |e] eqn:Ea; [| |discriminate].
      + destruct (IH _ _ _ H) as (parsed & -> & Hp & Hi & _). exists ((fst c, ms) :: parsed).
        split; [rewrite <- app_assoc; reflexivity|]. split; [simpl; constructor; exact Hp|].
        split; [apply incl_tl; exact Hi | discriminate].
      + destruct (sweep' cm r) as [e|[cm1 rest1]] eqn:E; [discriminate|]. inversion H; subst.
        destruct (IH _ _ _ E) as (parsed & -> & Hp & Hi & Hd). exists parsed.
        split; [reflexivity|]. split; [simpl; apply Permutation_cons_app; exact Hp|]. split.
        * intros x [<-|Hx]; [left; reflexivity | right; apply Hi; exact Hx].
        * intros Hn c' [<-|Hin]; [exact Ea | apply (Hd Hn c' Hin)].
  Qed.

  Lemma sweep_len : forall pending cm cm' rest,
    sweep' cm pending = inr (cm', rest) -> length rest <= length pending.
  Proof.
    intros pending cm cm' rest H. destruct (sweep_shape _ _ _ _ H) as (parsed & _ & Hp & _).
    apply Permutation_length in Hp. rewrite app_length, !map_length in Hp. unfold rcomp in *. lia.
  Qed.

  Lemma sweep_noprogress : forall pending cm cm' rest,
    sweep' cm pending = inr (cm', rest) -> length rest = length pending ->
    cm' = cm /\ forall c, In c pending -> attempt' cm c = ADefer.
  Proof.
    intros pending cm cm' rest H Hl. destruct (sweep_shape _ _ _ _ H) as (parsed & -> & Hp & _ & Hd).
    apply Permutation_length in Hp. rewrite app_length, !map_length in Hp. unfold rcomp in *.
    destruct parsed; [|simpl in Hp; lia]. rewrite app_nil_r. split; [reflexivity | apply Hd; reflexivity].
  Qed.

  Lemma sweep_ok : forall pending cm cm' rest,
    cm_ok cm -> incl pending cs -> sweep' cm pending = inr (cm', rest) -> cm_ok cm'.
  Proof.
    induction pending as [|[n ch] r IH]; intros cm cm' rest Hok Hi H; simpl in H.
    - inversion H; subst. exact Hok.
    - assert (Hr : incl r cs) by (intros x Hx; apply Hi; right; exact Hx).
      destruct (attempt' cm (n, ch)) as [ms| |e] eqn:Ea; [| |discriminate].
      + destruct (attempt_parsed cm n ch ms Hok (Hi _ (or_introl eq_refl)) Ea) as [k Hk].
        apply (IH _ _ _ (cm_ok_snoc cm n ms k Hok Hk) Hr H).
      + destruct (sweep' cm r) as [e|[cm1 rest1]] eqn:E; [discriminate|]. inversion H; subst.
        apply (IH _ _ _ Hok Hr E).
  Qed.

  Definition inv (cm : cmap) (pending : list rcomp) : Prop :=
    cm_ok cm /\ incl pending cs /\ NoDup (map fst cm ++ map fst pending)
    /\ (forall n, In n (map fst cs) <-> In n (map fst cm ++ map fst pending)).

  Lemma inv_init : inv [] cs.
  Proof.
    split; [exists 0; constructor|]. split; [apply incl_refl|]. split; [exact Hcs|]. intro n. simpl. tauto.
  Qed.

  Lemma inv_sweep : forall cm pending cm' rest,
    inv cm pending -> sweep' cm pending = inr (cm', rest) -> inv cm' rest.
  Proof.
    intros cm pending cm' rest [Hok [Hi [Hnd Hall]]] H.
    destruct (sweep_shape _ _ _ _ H) as (parsed & -> & Hp & Hir & _).
    assert (HP : Permutation (map fst cm ++ map fst pending) (map fst (cm ++ parsed) ++ map fst rest)).
    { rewrite map_app, <- app_assoc. apply Permutation_app_head. exact Hp. }
    split; [eapply sweep_ok; eassumption|].
    split; [eapply incl_tran; eassumption|].
    split; [eapply Permutation_NoDup; eassumption|].
    intro n. rewrite Hall. split; intro Hn.
    - eapply Permutation_in; eassumption.
    - eapply Permutation_in; [apply Permutation_sym; exact HP | exact Hn].
  Qed.

  (* soundness: what the loop returns is the meaning of every declared component *)
  Lemma resolve_sound : forall fuel cm pending cmf,
    inv cm pending -> resolve' fuel cm pending = inr cmf -> inv cmf [].
  Proof.
    induction fuel as [|fuel IH]; intros cm [|c r] cmf Hinv H;
      try (inversion H; subst; exact Hinv).
    cbn [resolve] in H. destruct (sweep' cm (c :: r)) as [e|[cm' rest]] eqn:E; [discriminate|].
    pose proof (inv_sweep _ _ _ _ Hinv E) as Hinv'. destruct rest as [|c' rest'].
    - inversion H; subst. exact Hinv'.
    - destruct (Nat.eqb (length (c' :: rest')) (length (c :: r))); [discriminate|].
      apply (IH _ _ _ Hinv' H).
  Qed.

  Lemma resolve_table : forall cm, resolve' (length cs) [] cs = inr cm ->
    (forall n, In n (map fst cs) -> exists ms k, lookup cm n = Some ms /\ expand k n = Some ms)
    /\ (forall n, ~ In n (map fst cs) -> lookup cm n = None).
  Proof.
    intros cm H. destruct (resolve_sound _ _ _ _ inv_init H) as [Hok [_ [_ Hall]]]. split.
    - intros n Hn. apply Hall in Hn. rewrite app_nil_r in Hn.
      destruct (lookup cm n) as [ms|] eqn:Hl; [|apply (alookup_None _ _ N.eqb_eq) in Hl; contradiction].
      destruct (cm_bound cm Hok) as [K HK]. exists ms, K. auto.
    - intros n Hn. apply (alookup_None _ _ N.eqb_eq). intro Hk. apply Hn. apply Hall. rewrite app_nil_r. exact Hk.
  Qed.

  (* completeness: if every declared component has a meaning the loop finds it *)
  Hypothesis Hall : forall n, In n (map fst cs) -> exists k ms, expand k n = Some ms.

  Lemma attempt_no_error : forall cm n ch e,
    cm_ok cm -> In (n, ch) cs -> ~ In n (map fst cm) -> attempt' cm (n, ch) <> AErr e.
  Proof.
    intros cm n ch e Hok Hin Hnk H. unfold attempt in H. simpl in H.
    destruct (has_key cm n) eqn:Ek; [apply has_key_In in Ek; contradiction|].
    destruct (Hall n) as [k [ms Hk]]; [apply (in_map fst _ _ Hin)|].
    destruct k as [|k]; [discriminate|]. apply expand_S in Hk. destruct Hk as [ch' [Hd Hp]].
    rewrite (find_decl_In n ch Hin) in Hd. inversion Hd; subst ch'.
    destruct (cm_bound cm Hok) as [K HK].
    assert (Hfull : parse_children flds grp (expand (max K k)) ch [] false = inr (ms, false)).
    { apply (mono_children flds grp (expand k) _ (expand_le k _ (Nat.le_max_r _ _))). exact Hp. }
    assert (Hsub : sub (lookup cm) (expand (max K k))).
    { eapply sub_trans; [exact HK | apply expand_le, Nat.le_max_l]. }
    destruct (sub_children flds grp (lookup cm) _ Hsub ch [] [] false false ms false (incl_refl _) Hfull)
      as [r1 [e1 [E1 _]]].
    rewrite E1 in H. destruct e1; discriminate.
  Qed.

  Lemma sweep_no_error : forall pending cm,
    cm_ok cm -> incl pending cs -> NoDup (map fst cm ++ map fst pending) ->
    exists cm' rest, sweep' cm pending = inr (cm', rest).
  Proof.
    induction pending as [|[n ch] r IH]; intros cm Hok Hi Hnd; simpl.
    - eauto.
    - assert (Hr : incl r cs) by (intros x Hx; apply Hi; right; exact Hx).
      assert (Hin : In (n, ch) cs) by (apply Hi; left; reflexivity).
      simpl in Hnd.
      destruct (attempt' cm (n, ch)) as [ms| |e] eqn:Ea.
      + destruct (attempt_parsed cm n ch ms Hok Hin Ea) as [k Hk].
        apply IH; [exact (cm_ok_snoc cm n ms k Hok Hk) | exact Hr |].
        rewrite map_app, <- app_assoc. exact Hnd.
      + destruct (IH cm Hok Hr (NoDup_remove_1 _ _ _ Hnd)) as [cm' [rest E]]. rewrite E. eauto.
      + exfalso. apply (attempt_no_error cm n ch e Hok Hin); [|exact Ea].
        intro Hk. apply (NoDup_app_disjoint _ _ _ n Hnd Hk). left. reflexivity.
  Qed.

  (* when every pending attempt is deferred, the table already holds every meaning there is *)
  Lemma stuck_closed : forall cm pending,
    inv cm pending -> (forall c, In c pending -> attempt' cm c = ADefer) ->
    forall k, sub (expand k) (lookup cm).
  Proof.
    intros cm pending (Hok & Hi & Hnd & Hdecl) Hdefer.
    induction k as [|k IHk]; intros n ms Hk; [discriminate|].
    pose proof Hk as Hk'. apply expand_S in Hk'. destruct Hk' as (ch & Hd & Hp).
    apply (alookup_In _ _ N.eqb_eq) in Hd. pose proof (in_map fst _ _ Hd) as Hn. apply Hdecl, in_app_or in Hn.
    destruct Hn as [Hn|Hn].
    - destruct (lookup cm n) as [ms0|] eqn:Hl; [|apply (alookup_None _ _ N.eqb_eq) in Hl; contradiction]. f_equal.
      destruct (cm_bound cm Hok) as [K HK]. apply (expand_fun K (S k) n _ _ (HK _ _ Hl) Hk).
    - (* n is pending: its attempt finds every reference in the table, so it is not deferred *)
      exfalso. apply in_map_iff in Hn. destruct Hn as ([n' ch'] & E & Hin). simpl in E. subst n'.
      pose proof (find_decl_In n ch' (Hi _ Hin)) as Hd'. rewrite (find_decl_In n ch Hd) in Hd'. injection Hd' as <-.
      pose proof (Hdefer _ Hin) as Ha. unfold attempt in Ha. simpl in Ha.
      destruct (has_key cm n) eqn:Ek.
      + apply has_key_In in Ek. apply (NoDup_app_disjoint _ _ _ n Hnd Ek (in_map fst _ _ Hin)).
      + rewrite (mono_children flds grp (expand k) (lookup cm) IHk ch [] false ms Hp) in Ha. discriminate.
  Qed.

  Lemma no_progress_impossible : forall cm pending cm' rest,
    inv cm pending -> pending <> [] -> sweep' cm pending = inr (cm', rest) ->
    length rest = length pending -> False.
  Proof.
    intros cm pending cm' rest Hinv Hne H Hl.
    destruct (sweep_noprogress _ _ _ _ H Hl) as [-> Hdefer].
    pose proof (stuck_closed cm pending Hinv Hdefer) as Hsub. destruct Hinv as (_ & Hi & Hnd & _).
    destruct pending as [|[n ch] r]; [contradiction|].
    destruct (Hall n) as [k [ms Hk]]; [apply (in_map fst _ (n, ch)), Hi; left; reflexivity|].
    apply Hsub, (alookup_In _ _ N.eqb_eq) in Hk. apply (NoDup_app_disjoint _ _ _ n Hnd (in_map fst _ _ Hk)). left. reflexivity.
  Qed.

  Lemma resolve_complete : forall fuel cm pending,
    inv cm pending -> length pending <= fuel -> exists cmf, resolve' fuel cm pending = inr cmf.
  Proof.
    induction fuel as [|fuel IH]; intros cm [|c r] Hinv Hf; try (eexists; reflexivity); [simpl in Hf; lia|].
    cbn [resolve]. pose proof Hinv as [Hok [Hi [Hnd _]]].
    destruct (sweep_no_error (c :: r) cm Hok Hi Hnd) as [cm' [rest E]]. rewrite E.
    destruct rest as [|c' rest']; [eexists; reflexivity|].
    destruct (Nat.eqb (length (c' :: rest')) (length (c :: r))) eqn:El.
    - exfalso. apply Nat.eqb_eq in El.
      eapply (no_progress_impossible cm (c :: r)); [exact Hinv | discriminate | exact E | exact El].
    - apply IH; [eapply inv_sweep; eassumption|].
      apply Nat.eqb_neq in El. pose proof (sweep_len _ _ _ _ E). simpl in *. lia.
  Qed.
End Meaning.

(* the fuel of [resolve] (= number of declarations) is never exhausted: more fuel changes nothing *)
Lemma resolve_fuel : forall flds grp f1 f2 cm pending,
  length pending <= f1 -> length pending <= f2 ->
  resolve flds grp f1 cm pending = resolve flds grp f2 cm pending.
Proof.
  intros flds grp. induction f1 as [|f1 IH]; intros [|f2] cm [|c r] H1 H2;
    try reflexivity; try (simpl in *; lia). cbn [resolve].
  destruct (sweep flds grp cm (c :: r)) as [e|[cm' rest]] eqn:E; [reflexivity|].
  destruct rest as [|c' rest']; [reflexivity|].
  destruct (Nat.eqb (length (c' :: rest')) (length (c :: r))) eqn:El; [reflexivity|].
  apply Nat.eqb_neq in El. pose proof (sweep_len _ _ _ _ _ _ E) as Hl.
  apply IH; simpl in *; lia.
Qed.

Section Order.
  Variable flds : list field.
  Variable grp : list N.
  Variables cs cs' : list rcomp.
  Hypothesis Hcs : NoDup (map fst cs).
  Hypothesis Hperm : Permutation cs cs'.

  Lemma perm_nodup : NoDup (map fst cs').
  Proof. eapply Permutation_NoDup; [apply Permutation_map; exact Hperm | exact Hcs]. Qed.

  Lemma names_perm : forall n, In n (map fst cs) <-> In n (map fst cs').
  Proof.
    intro n. split; apply Permutation_in; [|apply Permutation_sym]; apply Permutation_map; exact Hperm.
  Qed.

  Lemma find_decl_perm : forall n, find_decl cs n = find_decl cs' n.
  Proof.
    intro n. destruct (find_decl cs n) as [ch|] eqn:E; symmetry.
    - apply (alookup_In _ _ N.eqb_eq) in E. apply (find_decl_In cs' perm_nodup).
      eapply Permutation_in; eassumption.
    - apply (alookup_None _ _ N.eqb_eq) in E. apply (alookup_None _ _ N.eqb_eq).
      intro Hn. apply E, names_perm, Hn.
  Qed.

  Lemma expand_perm : forall k n, expand flds grp cs k n = expand flds grp cs' k n.
  Proof.
    induction k as [|k IH]; intro n; simpl; [reflexivity|].
    rewrite find_decl_perm. destruct (find_decl cs' n) as [ch|]; [|reflexivity].
    rewrite (ext_children flds grp _ _ IH). reflexivity.
  Qed.

  Theorem resolve_perm : forall cm,
    resolve flds grp (length cs) [] cs = inr cm ->
    exists cm', resolve flds grp (length cs') [] cs' = inr cm' /\ forall n, lookup cm n = lookup cm' n.
  Proof.
    intros cm H. destruct (resolve_table flds grp cs Hcs cm H) as [Hdecl Hund].
    assert (Hall' : forall n, In n (map fst cs') -> exists k ms, expand flds grp cs' k n = Some ms).
    { intros n Hn. apply names_perm in Hn. destruct (Hdecl n Hn) as [ms [k [_ Hk]]].
      exists k, ms. rewrite <- expand_perm. exact Hk. }
    destruct (resolve_complete flds grp cs' perm_nodup Hall' (length cs') [] cs'
                (inv_init flds grp cs' perm_nodup) (le_n _)) as [cm' H'].
    exists cm'. split; [exact H'|]. destruct (resolve_table flds grp cs' perm_nodup cm' H') as [Hdecl' Hund'].
    intro n. destruct (in_dec N.eq_dec n (map fst cs)) as [Hn|Hn].
    - destruct (Hdecl n Hn) as [ms [k [Hl Hk]]].
      destruct (Hdecl' n (proj1 (names_perm n) Hn)) as [ms' [k' [Hl' Hk']]].
      rewrite <- expand_perm in Hk'. rewrite Hl, Hl'. f_equal. eapply expand_fun; eassumption.
    - rewrite (Hund n Hn). symmetry. apply Hund'. intro Hn'. apply Hn. apply names_perm. exact Hn'.
  Qed.
End Order.

Theorem parse_order_independent : forall r cs',
  NoDup (map fst (r_comps r)) -> Permutation (r_comps r) cs' ->
  forall s, parse r = inr s -> parse_with r cs' = inr s.
Proof.
  intros r cs' Hnd Hp s H. unfold parse, parse_with in *.
  destruct (parse_children (r_fields r) (r_groupable r) (fun _ => None) (r_header r) [] false)
    as [e|[hms hd]]; [discriminate|].
  destruct (resolve (r_fields r) (r_groupable r) (length (r_comps r)) [] (r_comps r)) as [e|cm] eqn:E;
    [discriminate|].
  destruct (resolve_perm _ _ _ _ Hnd Hp cm E) as [cm' [E' Hl]]. rewrite E'.
  rewrite <- (ext_messages _ _ _ _ Hl). exact H.
Qed.

(* evaluating [parse] on a dictionary: the field table in a trie, the tag table not rebuilt *)
Lemma field_by_name_index : forall flds n, field_by_name flds n = tget (index flds) (ncode n).
Proof.
  assert (H : forall flds n t, find_last n flds (tget t (ncode n)) = tget (index_from t flds) (ncode n)).
  { induction flds as [|f l IH]; intros n t; simpl; [reflexivity|].
    rewrite <- IH, tget_tset, ncode_eqb. reflexivity. }
  intros flds n. apply (H flds n Leaf).
Qed.

Lemma tag2field_of_nodup : forall fs, NoDup (map f_tag fs) -> tag2field_of fs = fs.
Proof.
  assert (Hset : forall f d, ~ In (f_tag f) (map f_tag d) -> tag2field_set f d = d ++ [f]).
  { induction d as [|g d IH]; simpl; intro H; [reflexivity|].
    destruct (str_eqb (f_tag g) (f_tag f)) eqn:E; [apply str_eqb_eq in E; tauto|].
    rewrite IH; [reflexivity | tauto]. }
  assert (H : forall fs d, NoDup (map f_tag (d ++ fs)) ->
                fold_left (fun d f => tag2field_set f d) fs d = d ++ fs).
  { induction fs as [|f fs IH]; intros d H; simpl; [symmetry; apply app_nil_r|].
    rewrite map_app in H. simpl in H. rewrite Hset.
    - rewrite IH, <- app_assoc; [reflexivity|]. rewrite <- app_assoc, map_app. exact H.
    - intro Hin. apply (NoDup_remove_2 _ _ _ H). apply in_or_app. left. exact Hin. }
  intros fs Hnd. apply (H fs [] Hnd).
Qed.

Definition parse_ix (r : raw) : perr + schema :=
  let ix := index (r_fields r) in
  parse_by (fun n => tget ix (ncode n)) (r_groupable r) (r_fields r) r (r_comps r).

Lemma parse_ix_ok : forall r,
  distinct str scode Leaf (map f_tag (r_fields r)) = true -> parse r = parse_ix r.
Proof.
  intros r H. unfold parse, parse_ix. apply (distinct_NoDup _ _ _ _) in H.
  rewrite parse_with_by, (tag2field_of_nodup _ (proj1 H)). apply ext_parse_by. apply field_by_name_index.
Qed.

Lemma fix44_comps_count : length (r_comps GenSchema.FIX44.decls) = 104.
Proof. vm_compute. reflexivity. Qed.
