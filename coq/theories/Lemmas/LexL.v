(* LexL: proofs relating the model Fix/ValidateValue.v (patched SchemaField.validate_value) to the specification
   Fix/Lex.v (FIX 4.4 lexical spaces) - C19.
   One lemma per validator, [accepts_kind k s = xorb (lex d s) (kf d s)], collected in [kind_spec]; [validate_plain]
   lifts it to validate_value and everything after it is a corollary.  For the fixed-width formats both sides are
   brought to the form "[matches] pattern && range checks on [field_at]"; the values of digits matter in
   [year_field] (year 0000) and [hms_ok_spec] (second 60) only. *)
From Coq Require Import ZArith NArith List Bool Lia ZifyBool Btauto.
From AF Require Import Base.Sx Py.Str Fix.Lex Fix.ValidateValue Lemmas.StrB.
Import ListNotations.
Open Scope N_scope.

(* Fix/Lex.v (the specification), Fix/ValidateValue.v and Py/Str.v (the model) each define these on their own *)
Lemma re_digit_dig : re_digit = dig. Proof. reflexivity. Qed.
Lemma dec_digits_num : dec_digits = num. Proof. reflexivity. Qed.
Lemma opt_minus_unsigned : opt_minus = unsigned. Proof. reflexivity. Qed.
Lemma re_alnum_alnum : re_alnum = alnum. Proof. reflexivity. Qed.
Lemma float_const : FLOAT_OVERFLOW = FLOAT_INF. Proof. reflexivity. Qed.

Lemma mem_str_In : forall s l, mem_str s l = true <-> In s l.
Proof.
  intros s l. unfold mem_str. rewrite existsb_exists. split.
  - intros [x [Hin He]]. apply str_eqb_eq in He. subst. exact Hin.
  - intro Hin. exists s. split; [exact Hin | apply str_eqb_refl].
Qed.

Lemma dig_Forall : forall s, forallb dig s = true -> Forall (fun c => is_digit c = true) s.
Proof. intros s H. apply Forall_forall. exact (proj1 (forallb_forall _ _) H). Qed.

Lemma filter_dig : forall s, forallb dig s = true -> filter dig s = s.
Proof. intros s H. exact (filter_digits s (dig_Forall s H)). Qed.

Lemma in_str_outside : forall (P : N -> bool) x s, P x = false -> forallb P s = true -> in_str x s = false.
Proof.
  intros P x s Hx. induction s as [|c s IH]; [reflexivity|]. cbn [forallb]. intro H.
  apply andb_prop in H as [Hc Hs]. unfold in_str in *. cbn [existsb]. rewrite (IH Hs), orb_false_r.
  destruct (N.eqb_spec x c) as [->|]; [congruence | reflexivity].
Qed.

(* 45 = 0b101101: only the bits of "-" have to be looked at *)
Lemma sign_cases : forall s, (exists r, s = 45 :: r) \/ (unsigned s = s /\ is_neg s = false).
Proof.
  intros [|[|p] r]; [right; split; reflexivity ..|].
  do 6 (destruct p as [p|p|]; try (right; split; reflexivity)).
  left. exists r. reflexivity.
Qed.

Lemma py_int_digs : forall (neg : bool) b, digs b = true ->
  py_int (if neg then 45 :: b else b)
  = if 4300 <? N.of_nat (length b) then None else Some (if neg then - Z.of_N (num b) else Z.of_N (num b))%Z.
Proof.
  intros neg b H. apply andb_prop in H as [Hne Hd]. apply (py_int_signed neg b); [|exact (dig_Forall b Hd)].
  destruct b; discriminate.
Qed.

Lemma py_int_layout : forall s, lex_int s = true ->
  py_int s = if too_many_digits s then None else Some (int_value s).
Proof.
  intros s L. unfold lex_int in L. unfold too_many_digits, int_value.
  destruct (sign_cases s) as [[r ->] | [U N]].
  - cbn [unsigned is_neg] in *. change (filter dig (45 :: r)) with (filter dig r).
    rewrite (filter_dig r) by (apply andb_prop in L; apply L).
    exact (py_int_digs true r L).
  - rewrite U in *. rewrite N, (filter_dig s) by (apply andb_prop in L; apply L).
    exact (py_int_digs false s L).
Qed.

Lemma layout_int_lex : forall s, layout_int s = lex_int s.
Proof. intro s. unfold layout_int, lex_int, digs. rewrite opt_minus_unsigned. destruct (unsigned s); reflexivity. Qed.

Definition int_ok (nz nn : bool) (rg : option (Z * Z)) (v : Z) : bool :=
  negb (nz && (v =? 0)%Z) && negb (nn && (v <? 0)%Z)
  && match rg with Some (lo, hi) => (lo <=? v)%Z && (v <=? hi)%Z | None => true end.

Lemma validate_int_spec : forall nz nn rg s,
  validate_int nz nn rg s = negb (lex_int s && negb (too_many_digits s) && int_ok nz nn rg (int_value s)).
Proof.
  intros nz nn rg s. unfold validate_int, int_ok. rewrite layout_int_lex. destruct (lex_int s) eqn:L.
  - rewrite (py_int_layout s L). destruct (too_many_digits s); [reflexivity|]. generalize (int_value s) as v. intro v.
    destruct (nz && (v =? 0)%Z), (nn && (v <? 0)%Z), rg as [[lo hi]|]; try reflexivity.
    destruct ((lo <=? v)%Z && (v <=? hi)%Z); reflexivity.
  - destruct (py_int s) as [v|]; [|reflexivity].
    destruct (nz && (v =? 0)%Z), (nn && (v <? 0)%Z), rg as [[lo hi]|]; try reflexivity.
    destruct ((lo <=? v)%Z && (v <=? hi)%Z); reflexivity.
Qed.

Definition accepts_kind (k : kind) (s : str) : bool := negb (validate_kind k s).

Lemma xorb_absorb : forall a k, xorb a (a && k) = a && negb k.
Proof. destruct a, k; reflexivity. Qed.

Lemma kind_int : forall s, accepts_kind KInt s = xorb (lex DInt s) (kf DInt s).
Proof.
  intro s. unfold accepts_kind. cbn [validate_kind lex kf]. rewrite validate_int_spec, negb_involutive, xorb_absorb.
  apply andb_true_r.
Qed.

Lemma kind_positive : forall s, accepts_kind KPositive s = xorb (lex DSeqNum s) (kf DSeqNum s).
Proof.
  intro s. unfold accepts_kind. cbn [validate_kind lex kf]. rewrite validate_int_spec, negb_involutive, xorb_absorb.
  unfold int_ok, lex_positive. cbn [andb]. rewrite andb_true_r.
  assert (E : negb (int_value s =? 0)%Z && negb (int_value s <? 0)%Z = (0 <? int_value s)%Z) by lia.
  rewrite E. destruct (lex_int s), (too_many_digits s), (0 <? int_value s)%Z; reflexivity.
Qed.

Lemma kind_dayofmonth : forall s, accepts_kind KDayOfMonth s = xorb (lex DDayOfMonth s) (kf DDayOfMonth s).
Proof.
  intro s. unfold accepts_kind. cbn [validate_kind lex kf]. rewrite validate_int_spec, negb_involutive, xorb_absorb.
  unfold int_ok, lex_dayofmonth. cbn [andb negb].
  destruct (lex_int s), (too_many_digits s), (1 <=? int_value s)%Z, (int_value s <=? 31)%Z; reflexivity.
Qed.

Lemma span_digits_spec : forall s ip rest, span_digits s = (ip, rest) ->
  s = ip ++ rest /\ forallb dig ip = true /\ match rest with [] => True | c :: _ => dig c = false end.
Proof.
  induction s as [|c s IH]; intros ip rest H; simpl in H.
  - inversion H; subst. repeat split.
  - rewrite re_digit_dig in H. destruct (dig c) eqn:Hc.
    + destruct (span_digits s) as [a b] eqn:E. inversion H; subst.
      destruct (IH a rest eq_refl) as [H1 [H2 H3]]. subst s. repeat split.
      * simpl. rewrite Hc, H2. reflexivity.
      * exact H3.
    + inversion H; subst. repeat split. exact Hc.
Qed.

Definition dd (c : N) : bool := dig c || (c =? 46).

(* what the float space and its overflow class see of a string that starts with digits *)
Lemma digits_app : forall ip x, forallb dig ip = true ->
  forallb dd (ip ++ x) = forallb dd x /\ existsb dig (ip ++ x) = nonempty ip || existsb dig x
  /\ count_dots (ip ++ x) = count_dots x /\ after_dot (ip ++ x) = after_dot x
  /\ filter dig (ip ++ x) = ip ++ filter dig x.
Proof.
  induction ip as [|c ip IH]; intros x H; [repeat split; reflexivity|].
  cbn [forallb] in H. apply andb_prop in H as [Hc H]. destruct (IH x H) as (A & _ & C & D & F).
  assert (E : (c =? 46) = false) by (unfold dig in Hc; lia).
  unfold count_dots in *. cbn [app forallb existsb filter after_dot nonempty]. unfold dd at 1.
  rewrite (N.eqb_sym 46 c), Hc, E, A, C, D, F. repeat split; reflexivity.
Qed.

Lemma dd_nodots : forall fp, forallb dd fp && (count_dots fp <=? 0)%nat = forallb dig fp.
Proof.
  induction fp as [|c fp IH]; [reflexivity|]. unfold count_dots in *. cbn [forallb filter].
  unfold dd at 1. rewrite (N.eqb_sym 46 c). destruct (dig c) eqn:Hc.
  - assert (E : (c =? 46) = false) by (unfold dig in Hc; lia). rewrite E. exact IH.
  - destruct (c =? 46); [apply andb_false_r | reflexivity].
Qed.

Lemma sign_tail : forall s, after_dot s = after_dot (unsigned s) /\ filter dig s = filter dig (unsigned s).
Proof. intro s. destruct (sign_cases s) as [[r ->] | [-> _]]; split; reflexivity. Qed.

Lemma validate_float_spec : forall s, validate_float s = negb (lex_float s && negb (float_overflows s)).
Proof.
  intro s. unfold validate_float, layout_float_parts, lex_float, float_overflows, float_is_finite.
  destruct (sign_tail s) as [T1 T2]. rewrite T1, T2, opt_minus_unsigned, dec_digits_num, re_digit_dig, float_const.
  fold dd.
  generalize FLOAT_INF as F, (unsigned s) as u. intros F u. cbv zeta.
  destruct (span_digits u) as [ip rest] eqn:E. apply span_digits_spec in E as (-> & Hip & Hrest).
  destruct (digits_app ip rest Hip) as (A & B & C & D & G). rewrite A, B, C, D, G. clear A B C D G.
  destruct rest as [|c fp].
  - destruct ip; [reflexivity|]. cbn. rewrite N.ltb_antisym. reflexivity.
  - cbn [forallb existsb after_dot filter]. unfold dd at 1. rewrite Hrest. cbn [orb].
    destruct (N.eqb_spec c 46) as [->|_]; [cbn [andb]|destruct ip; reflexivity].
    change (Nat.leb (count_dots (46 :: fp)) 1) with (Nat.leb (count_dots fp) 0).
    replace (forallb dd fp && (nonempty ip || existsb dig fp) && (count_dots fp <=? 0)%nat)
      with (forallb dig fp && (nonempty ip || existsb dig fp)) by (rewrite <- dd_nodots; btauto).
    destruct (forallb dig fp) eqn:Hfp; [|rewrite ?andb_false_r; destruct ip; reflexivity].
    rewrite (filter_dig fp Hfp). destruct (digits_app fp [] Hfp) as (_ & X & _). rewrite app_nil_r, orb_false_r in X. rewrite X.
    destruct ip, fp; cbn; rewrite ?N.ltb_antisym; reflexivity.
Qed.

Lemma kind_float : forall s, accepts_kind KFloat s = xorb (lex DFloat s) (kf DFloat s).
Proof. intro s. unfold accepts_kind. cbn [validate_kind lex kf]. rewrite validate_float_spec, negb_involutive. symmetry. apply xorb_absorb. Qed.

Lemma kind_string : forall s, s <> [] -> accepts_kind KString s = xorb (lex DString s) (kf DString s).
Proof.
  intros s Hne. unfold accepts_kind. cbn [validate_kind lex kf]. unfold validate_str, lex_string, has_equals, in_str.
  destruct s as [|c s]; [congruence|]. cbn [nonempty andb].
  destruct (existsb (N.eqb 1) (c :: s)), (existsb (N.eqb 61) (c :: s)); reflexivity.
Qed.

Lemma kind_char : forall s, s <> [] -> accepts_kind KChar s = xorb (lex DChar s) (kf DChar s).
Proof.
  intros s Hne. unfold accepts_kind. cbn [validate_kind lex kf]. unfold validate_str, lex_char, has_equals, in_str.
  destruct s as [|c [|c2 r]]; [congruence| |].
  - cbn [existsb length Nat.ltb Nat.leb orb andb]. rewrite !orb_false_r, (N.eqb_sym c 1).
    destruct (1 =? c), (61 =? c); reflexivity.
  - cbn [length Nat.ltb Nat.leb andb xorb].
    destruct (existsb (N.eqb 1) (c :: c2 :: r)), (existsb (N.eqb 61) (c :: c2 :: r)); reflexivity.
Qed.

Lemma kind_boolean : forall s, accepts_kind KBoolean s = xorb (lex DBoolean s) (kf DBoolean s).
Proof.
  intros s. unfold accepts_kind. cbn [validate_kind lex kf]. rewrite xorb_false_r. unfold validate_str, lex_boolean, in_str, mem_str.
  destruct s as [|c [|c2 r]]; [reflexivity| |].
  - cbn [existsb length Nat.ltb Nat.leb orb andb str_eqb].
    rewrite !orb_false_r, !andb_true_r.
    destruct (1 =? c) eqn:E1, (61 =? c) eqn:E2, (c =? 89) eqn:E3, (c =? 78) eqn:E4; try reflexivity; lia.
  - cbn [length Nat.ltb Nat.leb].
    destruct (existsb (N.eqb 1) (c :: c2 :: r)), (existsb (N.eqb 61) (c :: c2 :: r)); reflexivity.
Qed.

Lemma exists_non_alnum : forall s, existsb (fun c => negb (re_alnum c)) s = negb (forallb alnum s).
Proof.
  induction s as [|c s IH]; [reflexivity|]. cbn [existsb forallb]. rewrite IH, re_alnum_alnum.
  apply eq_sym, negb_andb.
Qed.

Lemma validate_code : forall n s, s <> [] ->
  negb (validate_str (Some n) None true s) = lex_code n s.
Proof.
  intros n s Hne. unfold validate_str, lex_code. rewrite exists_non_alnum.
  assert (El : (n <? length s)%nat = negb (length s <=? n)%nat) by lia.
  rewrite El. destruct s as [|c s]; [congruence|]. cbn [nonempty andb].
  destruct (forallb alnum (c :: s)) eqn:Ha.
  - rewrite (in_str_outside alnum 1 _ eq_refl Ha), (in_str_outside alnum 61 _ eq_refl Ha).
    destruct (length (c :: s) <=? n)%nat; reflexivity.
  - cbn [negb andb]. rewrite andb_false_r.
    destruct (in_str 1 (c :: s)), (in_str 61 (c :: s)), (length (c :: s) <=? n)%nat; reflexivity.
Qed.

Lemma kind_country : forall s, s <> [] -> accepts_kind KCountry s = xorb (lex DCountry s) (kf DCountry s).
Proof. intros s H. rewrite xorb_false_r. exact (validate_code 2 s H). Qed.

Lemma kind_currency : forall s, s <> [] -> accepts_kind KCurrency s = xorb (lex DCurrency s) (kf DCurrency s).
Proof. intros s H. rewrite xorb_false_r. exact (validate_code 3 s H). Qed.

Lemma kind_exchange : forall s, s <> [] -> accepts_kind KExchange s = xorb (lex DExchange s) (kf DExchange s).
Proof. intros s H. rewrite xorb_false_r. exact (validate_code 4 s H). Qed.

(* Length and data are not validated: every non-empty value passes *)
Lemma kind_length : forall s, s <> [] -> accepts_kind KUnchecked s = xorb (lex DLength s) (kf DLength s).
Proof. intros [|c s] H; [congruence|]. cbn [lex kf nonempty andb]. destruct (lex_positive (c :: s)); reflexivity. Qed.

Lemma kind_data : forall s, s <> [] -> accepts_kind KUnchecked s = xorb (lex DData s) (kf DData s).
Proof. intros [|c s] H; [congruence | reflexivity]. Qed.

Lemma split_values : forall s,
  existsb is_nil (split_on 32 s) = negb (values_ok true s)
  /\ existsb is_nil (tl (split_on 32 s)) = negb (values_ok false s).
Proof.
  induction s as [|c s [IH1 IH2]]; [split; reflexivity|].
  cbn [split_on values_ok]. destruct (c =? 32) eqn:E.
  - cbn [existsb is_nil tl negb andb orb]. split; [reflexivity|]. exact IH1.
  - destruct (split_on 32 s) as [|p ps] eqn:Es; [exfalso; exact (split_on_nonempty 32 s Es)|].
    cbn [existsb is_nil tl orb] in *. split; exact IH2.
Qed.

Lemma kind_multi : forall s, s <> [] ->
  accepts_kind KMulti s = xorb (lex DMultipleValueString s) (kf DMultipleValueString s).
Proof.
  intros s Hne. unfold accepts_kind. cbn [validate_kind lex kf]. unfold lex_multi.
  destruct (split_values s) as [E _]. rewrite E.
  unfold validate_str, lex_string, has_equals, in_str.
  destruct s as [|c s]; [congruence|]. cbn [nonempty andb].
  destruct (existsb (N.eqb 1) (c :: s)), (existsb (N.eqb 61) (c :: s)), (values_ok true (c :: s)); reflexivity.
Qed.

Lemma leap_eq : forall y, py_is_leap y = leap_year y.
Proof.
  intro y. unfold py_is_leap, leap_year.
  assert (H4 : y mod 400 = 0 -> y mod 4 = 0 /\ y mod 100 = 0).
  { intro H. apply N.mod_divide in H; [|lia]. destruct H as [k Hk]. split; apply N.mod_divide; try lia.
    - exists (k * 100). lia.
    - exists (k * 4). lia. }
  destruct (y mod 400 =? 0) eqn:E1; destruct (y mod 4 =? 0) eqn:E2; destruct (y mod 100 =? 0) eqn:E3; try reflexivity;
    apply N.eqb_eq in E1; destruct (H4 E1) as [A B]; rewrite ?N.eqb_neq in *; congruence.
Qed.

Lemma py_dim_eq : forall y m, valid_month m = true -> py_days_in_month y m = days_in_month y m.
Proof.
  intros y m H. unfold valid_month in H.
  assert (C : m = 1 \/ m = 2 \/ m = 3 \/ m = 4 \/ m = 5 \/ m = 6 \/ m = 7 \/ m = 8 \/ m = 9 \/ m = 10 \/ m = 11 \/ m = 12) by lia.
  unfold py_days_in_month, days_in_month. rewrite leap_eq.
  repeat (destruct C as [C | C]; [subst m; simpl; try destruct (leap_year y); reflexivity|]).
  subst m; reflexivity.
Qed.

Lemma dim_bounds : forall y m, 28 <= days_in_month y m <= 31.
Proof.
  intros. unfold days_in_month. destruct (m =? 2); [destruct (leap_year y); lia|].
  destruct ((m =? 4) || (m =? 6) || (m =? 9) || (m =? 11)); lia.
Qed.

(* strptime's regexes and the datetime constructor on a date whose year has four digits *)
Lemma date_fields_ok : forall y m d H M S, y <= 9999 ->
  regex_date (mkParts y m d H M S) && check_date_fields (mkParts y m d H M S)
  = valid_month m && valid_day y m d && (1 <=? y).
Proof.
  intros y m d H M S Y. unfold regex_date, check_date_fields, valid_day. cbn [pY pm pd].
  destruct (valid_month m) eqn:V.
  - rewrite (py_dim_eq y m V). pose proof (dim_bounds y m). unfold valid_month in V. lia.
  - unfold valid_month in V. lia.
Qed.

Lemma year_field : forall p s, matches (PD :: PD :: PD :: PD :: p) s = true ->
  field_at 0 4 s <= 9999 /\ (1 <=? field_at 0 4 s) = negb (year0 s).
Proof.
  intros p s H.
  do 4 (destruct s as [|? s]; cbn [matches pc_ok] in H; [discriminate H|]; apply andb_prop in H as [? H]).
  cbv [field_at skipn firstn dec_digits fold_left year0]. unfold re_digit in *. lia.
Qed.

Lemma validate_datetime_eq : forall f s,
  validate_datetime f s
  = negb (layout f (in_str 46 s && has_S f) s && (strptime_regex_ok (fields f s) && datetime_ok (fields f s))).
Proof. intros. unfold validate_datetime. destruct (layout f _ s); reflexivity. Qed.

Lemma matches_length : forall p s, matches p s = true -> length s = length p.
Proof.
  induction p as [|q p IH]; destruct s as [|x s]; simpl; intro H; try discriminate; [reflexivity|].
  apply andb_prop in H. destruct H as [_ H]. f_equal. auto.
Qed.

Lemma matches_app : forall p q s,
  matches (p ++ q) s = matches p (firstn (length p) s) && matches q (skipn (length p) s).
Proof.
  induction p as [|a p IH]; intros q s.
  - reflexivity.
  - destruct s as [|x s]; [reflexivity|]. cbn [app matches length firstn skipn]. rewrite IH, andb_assoc. reflexivity.
Qed.

Lemma matches_not_in : forall c p s,
  forallb (fun q => negb (pc_ok q c)) p = true -> matches p s = true -> in_str c s = false.
Proof.
  intros c. induction p as [|q p IH]; destruct s as [|x s]; cbn [forallb matches]; intros Hp Hm; try discriminate; [reflexivity|].
  apply andb_prop in Hp. destruct Hp as [Hq Hp]. apply andb_prop in Hm. destruct Hm as [Hx Hm].
  unfold in_str in *. cbn [existsb]. rewrite (IH s Hp Hm), orb_false_r.
  destruct (c =? x) eqn:E; [|reflexivity]. apply N.eqb_eq in E. subst x. rewrite Hx in Hq. discriminate.
Qed.

Lemma in_str_app : forall c a b, in_str c (a ++ b) = in_str c a || in_str c b.
Proof. intros. unfold in_str. apply existsb_app. Qed.

Lemma in_str_skip : forall c p n s, forallb (fun q => negb (pc_ok q c)) p = true -> matches p (firstn n s) = true ->
  in_str c s = in_str c (skipn n s).
Proof.
  intros c p n s Hp M. rewrite <- (firstn_skipn n s) at 1. rewrite in_str_app, (matches_not_in c p _ Hp M). reflexivity.
Qed.

Lemma field_at_firstn : forall i n k s, (i + n <= k)%nat -> field_at i n (firstn k s) = field_at i n s.
Proof.
  intros i n k s H. unfold field_at. rewrite skipn_firstn_comm, firstn_firstn.
  replace (Init.Nat.min n (k - i)) with n by lia. reflexivity.
Qed.

Lemma field_at_skipn : forall i n k s, field_at i n (skipn k s) = field_at (k + i) n s.
Proof. intros. unfold field_at. rewrite skipn_skipn'. reflexivity. Qed.

(* a format without %S: no fraction, and the time fields keep strptime's defaults *)
Lemma accept_dateonly : forall f s, has_S f = false ->
  negb (validate_datetime f s) = layout f false s && (regex_date (fields f s) && check_date_fields (fields f s)).
Proof.
  intros f s H. rewrite validate_datetime_eq, negb_involutive, H, andb_false_r.
  unfold strptime_regex_ok, datetime_ok.
  assert (E : regex_time (fields f s) = true /\ check_time_fields (fields f s) = true)
    by (destruct f; try discriminate H; split; reflexivity).
  destruct E as [-> ->]. rewrite !andb_true_r. reflexivity.
Qed.

Lemma lex_date_fields : forall s, lex_date s
  = matches P_Ymd s && valid_month (field_at 4 2 s) && valid_day (field_at 0 4 s) (field_at 4 2 s) (field_at 6 2 s).
Proof.
  intro s. do 8 (destruct s as [|? s]; [cbn [P_Ymd P_Ym app matches]; rewrite ?andb_false_r; reflexivity|]).
  destruct s; [reflexivity|]. cbn [P_Ymd P_Ym app matches]. rewrite ?andb_false_r. reflexivity.
Qed.

Definition date_ok (d : str) : bool :=
  matches P_Ymd d && (regex_date (fields F_Ymd d) && check_date_fields (fields F_Ymd d)).

Lemma date_ok_spec : forall d, date_ok d = lex_date d && negb (year0 d).
Proof.
  intro d. unfold date_ok. rewrite lex_date_fields. destruct (matches P_Ymd d) eqn:M; [|reflexivity].
  destruct (year_field _ _ M) as [Y9 Y0]. rewrite <- Y0. exact (date_fields_ok _ _ _ _ _ _ Y9).
Qed.

Lemma kind_date : forall s, accepts_kind KDate s = xorb (lex DUTCDateOnly s) (kf DUTCDateOnly s).
Proof.
  intro s. unfold accepts_kind. cbn [validate_kind lex kf]. rewrite (accept_dateonly F_Ymd s eq_refl), xorb_absorb.
  apply date_ok_spec.
Qed.

Definition hms_ok (h : str) : bool :=
  matches P_HMS h && (regex_time (fields F_HMS h) && check_time_fields (fields F_HMS h)).
Definition frac_ok (f : str) : bool := is_nil f || matches P_F3 f || matches P_F6 f.

Lemma hms_ok_spec : forall t, hms_ok (firstn 8 t) = lex_time (firstn 8 t) && negb (second60 (firstn 8 t)).
Proof.
  intros [|h1 [|h2 [|c1 [|m1 [|m2 [|c2 [|s1 [|s2 t]]]]]]]].
  1-8: unfold hms_ok, P_HMS; cbn [firstn matches]; rewrite ?andb_false_r; reflexivity.
  cbv [hms_ok regex_time check_time_fields P_HMS matches pc_ok fields field_at skipn firstn
       pY pm pd pH pM pS lex_time lex_millis second60 forallb].
  rewrite dec_digits_num, re_digit_dig.
  (* hours and minutes are tested alike on both sides.  Seconds: strptime allows 61 and datetime 59, the
     specification 60; a two-digit number is 60 only as "60" *)
  generalize (num [h1; h2]) as H, (num [m1; m2]) as M. intros H M. cbv [num fold_left dig]. lia.
Qed.

Lemma lex_time_split : forall t, lex_time t = lex_time (firstn 8 t) && lex_millis (skipn 8 t).
Proof.
  intro t. do 8 (destruct t as [|? t]; [reflexivity|]).
  cbn [firstn skipn]. unfold lex_time. cbn [lex_millis]. rewrite andb_true_r. reflexivity.
Qed.

Lemma second60_firstn : forall t, second60 t = second60 (firstn 8 t).
Proof. intro t. do 8 (destruct t as [|? t]; [reflexivity|]). reflexivity. Qed.

Lemma lex_millis_frac : forall f, lex_millis f = is_nil f || matches P_F3 f.
Proof.
  intro f.
  do 4 (destruct f as [|? f];
        [cbv [lex_millis is_nil orb matches P_F3 pc_ok]; rewrite ?andb_false_r; reflexivity|]).
  destruct f as [|? f].
  - cbv [lex_millis is_nil orb matches P_F3 pc_ok]. rewrite re_digit_dig, andb_true_r, !andb_assoc. reflexivity.
  - cbv [lex_millis is_nil orb matches P_F3 pc_ok]. rewrite !andb_false_r. reflexivity.
Qed.

Lemma frac_exclusive : forall f, matches P_F6 f = true -> is_nil f = false /\ matches P_F3 f = false.
Proof.
  intros f H. apply matches_length in H. split.
  - destruct f; [discriminate H | reflexivity].
  - destruct (matches P_F3 f) eqn:E; [|reflexivity]. apply matches_length in E. rewrite E in H. discriminate H.
Qed.

Lemma frac_layout : forall f,
  (if in_str 46 f then matches P_F3 f || matches P_F6 f else is_nil f) = frac_ok f.
Proof.
  intro f. unfold frac_ok. destruct f as [|p r]; [reflexivity|].
  unfold in_str. cbn [existsb is_nil orb]. cbv [P_F6 P_F3 app]. cbn [matches pc_ok]. rewrite (N.eqb_sym 46 p).
  destruct (p =? 46); cbn [andb orb]; [reflexivity|].
  destruct (existsb (N.eqb 46) r); reflexivity.
Qed.

(* the time part of a layout: the fraction is looked for exactly when what follows the seconds holds a dot *)
Lemma accept_hms : forall t,
  layout F_HMS (in_str 46 t) t && (regex_time (fields F_HMS t) && check_time_fields (fields F_HMS t))
  = hms_ok (firstn 8 t) && frac_ok (skipn 8 t).
Proof.
  intro t. unfold hms_ok.
  assert (EF : fields F_HMS (firstn 8 t) = fields F_HMS t).
  { unfold fields. rewrite !field_at_firstn by lia. reflexivity. }
  rewrite EF.
  assert (EL : forall dot, layout F_HMS dot t = matches P_HMS (firstn 8 t)
               && (if dot then matches P_F3 (skipn 8 t) || matches P_F6 (skipn 8 t) else is_nil (skipn 8 t))).
  { intro dot. unfold layout. destruct dot.
    - rewrite !matches_app. change (length P_HMS) with 8%nat. rewrite andb_orb_distrib_r. reflexivity.
    - rewrite <- (app_nil_r P_HMS) at 1. rewrite matches_app. change (length P_HMS) with 8%nat.
      destruct (skipn 8 t); reflexivity. }
  rewrite EL. destruct (matches P_HMS (firstn 8 t)) eqn:M; [|reflexivity].
  rewrite (in_str_skip 46 P_HMS 8 t eq_refl M), frac_layout. apply andb_comm.
Qed.

Lemma accept_time : forall t, negb (validate_datetime F_HMS t) = hms_ok (firstn 8 t) && frac_ok (skipn 8 t).
Proof.
  intro t. rewrite validate_datetime_eq, negb_involutive. cbn [has_S]. rewrite andb_true_r. apply accept_hms.
Qed.

Definition micros_time (t : str) : bool := micros (fun b => lex_time b && negb (second60 b)) 12 t.

Lemma micros_time_spec : forall t,
  micros_time t = lex_time (firstn 8 t) && negb (second60 (firstn 8 t)) && matches P_F6 (skipn 8 t).
Proof.
  intro t. unfold micros_time, micros.
  do 15 (destruct t as [|? t];
    [ cbv [length Nat.eqb Nat.add firstn skipn P_F6 P_F3 app matches pc_ok lex_time lex_millis]; cbn [andb];
      rewrite ?andb_false_r; reflexivity |]).
  destruct t as [|? t].
  - cbv [length Nat.eqb Nat.add firstn skipn P_F6 P_F3 app matches pc_ok lex_time lex_millis forallb second60 num fold_left].
    rewrite re_digit_dig. btauto.
  - cbv [length Nat.eqb Nat.add firstn skipn P_F6 P_F3 app matches pc_ok]. cbn [andb]. rewrite ?andb_false_r. reflexivity.
Qed.

Lemma time_ok_spec : forall t,
  hms_ok (firstn 8 t) && frac_ok (skipn 8 t) = xorb (lex_time t) (lex_time t && second60 t || micros_time t).
Proof.
  intro t. rewrite micros_time_spec, hms_ok_spec, (lex_time_split t), (second60_firstn t), lex_millis_frac. unfold frac_ok.
  pose proof (frac_exclusive (skipn 8 t)) as X.
  destruct (lex_time (firstn 8 t)), (second60 (firstn 8 t)), (is_nil (skipn 8 t)), (matches P_F3 (skipn 8 t)),
    (matches P_F6 (skipn 8 t)); try reflexivity; destruct (X eq_refl); discriminate.
Qed.

Lemma kind_time : forall t, accepts_kind KTimeOnly t = xorb (lex DUTCTimeOnly t) (kf DUTCTimeOnly t).
Proof. intro t. unfold accepts_kind. cbn [validate_kind]. rewrite accept_time. apply time_ok_spec. Qed.

Lemma ts_prefix : forall q s,
  matches (P_Ymd ++ [PC 45] ++ q) s
  = matches P_Ymd (firstn 8 s) && matches [PC 45] (firstn 1 (skipn 8 s)) && matches q (skipn 9 s).
Proof.
  intros q s. rewrite (matches_app P_Ymd), (matches_app [PC 45]), skipn_skipn'. apply andb_assoc.
Qed.

Lemma layout_ts_split : forall dot s,
  layout F_YmdHMS dot s
  = matches P_Ymd (firstn 8 s) && matches [PC 45] (firstn 1 (skipn 8 s)) && layout F_HMS dot (skipn 9 s).
Proof.
  intros dot s. unfold layout. destruct dot; rewrite <- ?app_assoc, !ts_prefix; [symmetry; apply andb_orb_distrib_r | reflexivity].
Qed.

Lemma fields_ts : forall s,
  let p := fields F_YmdHMS s in let d := fields F_Ymd (firstn 8 s) in let t := fields F_HMS (skipn 9 s) in
  regex_date p = regex_date d /\ check_date_fields p = check_date_fields d
  /\ regex_time p = regex_time t /\ check_time_fields p = check_time_fields t.
Proof.
  intro s. unfold regex_date, check_date_fields, regex_time, check_time_fields, fields. cbn [pY pm pd pH pM pS].
  rewrite !field_at_firstn by lia. rewrite !field_at_skipn. repeat split; reflexivity.
Qed.

Lemma accept_ts : forall s,
  negb (validate_datetime F_YmdHMS s)
  = date_ok (firstn 8 s) && matches [PC 45] (firstn 1 (skipn 8 s))
    && (hms_ok (firstn 8 (skipn 9 s)) && frac_ok (skipn 8 (skipn 9 s))).
Proof.
  intro s. rewrite validate_datetime_eq, negb_involutive. cbn [has_S]. rewrite andb_true_r.
  rewrite layout_ts_split. unfold strptime_regex_ok, datetime_ok, date_ok.
  destruct (fields_ts s) as (-> & -> & -> & ->).
  destruct (matches P_Ymd (firstn 8 s)) eqn:A; [|reflexivity].
  destruct (matches [PC 45] (firstn 1 (skipn 8 s))) eqn:B; [|cbn [andb]; rewrite andb_false_r; reflexivity].
  rewrite (in_str_skip 46 P_Ymd 8 s eq_refl A), (in_str_skip 46 [PC 45] 1 _ eq_refl B), skipn_skipn'.
  change (8 + 1)%nat with 9%nat. rewrite <- accept_hms. btauto.
Qed.

Lemma lex_ts_split : forall s,
  lex_timestamp s = lex_date (firstn 8 s) && matches [PC 45] (firstn 1 (skipn 8 s)) && lex_time (skipn 9 s).
Proof.
  intro s. do 8 (destruct s as [|? s]; [reflexivity|]).
  destruct s as [|? s].
  - cbn [firstn skipn matches]. rewrite andb_false_r. reflexivity.
  - cbn [firstn skipn matches pc_ok]. unfold lex_timestamp. rewrite andb_true_r. reflexivity.
Qed.

Lemma year0_firstn : forall s, year0 s = year0 (firstn 8 s).
Proof. intro s. do 4 (destruct s as [|? s]; [reflexivity|]). reflexivity. Qed.

Definition micros_ts (s : str) : bool :=
  micros (fun b => lex_timestamp b && negb (year0 b) && negb (second60 (skipn 9 b))) 21 s.

Lemma micros_ts_spec : forall s,
  micros_ts s = lex_date (firstn 8 s) && negb (year0 (firstn 8 s)) && matches [PC 45] (firstn 1 (skipn 8 s))
                && micros_time (skipn 9 s).
Proof.
  intro s. unfold micros_ts, micros_time, micros.
  rewrite (lex_ts_split (firstn 21 s)), (year0_firstn (firstn 21 s)), skipn_length, skipn_skipn'.
  rewrite !skipn_firstn_comm, !firstn_firstn. cbn [Nat.sub Nat.add Nat.min].
  replace (length s - 9 =? 15)%nat with (length s =? 24)%nat by lia.
  btauto.
Qed.

Lemma kind_timestamp : forall s, accepts_kind KTimestamp s = xorb (lex DUTCTimestamp s) (kf DUTCTimestamp s).
Proof.
  intro s. unfold accepts_kind. cbn [validate_kind lex kf]. rewrite accept_ts, time_ok_spec, date_ok_spec.
  fold (micros_ts s). rewrite micros_ts_spec, (lex_ts_split s), (year0_firstn s). btauto.
Qed.

Definition ym_ok (v : str) : bool :=
  matches P_Ym v && (regex_date (fields F_Ym v) && check_date_fields (fields F_Ym v)).

Lemma ym_ok_len : forall v, ym_ok v = true -> length v = 6%nat.
Proof.
  intros v H. unfold ym_ok in H. apply andb_prop in H. destruct H as [H _]. apply matches_length in H. exact H.
Qed.

Lemma ym_ok_spec : forall v, ym_ok v = matches P_Ym v && valid_month (field_at 4 2 v) && negb (year0 v).
Proof.
  intro v. unfold ym_ok. destruct (matches P_Ym v) eqn:M; [|reflexivity].
  destruct (year_field _ _ M) as [Y9 Y0]. rewrite <- Y0. unfold fields. rewrite (date_fields_ok _ _ 1 0 0 0 Y9).
  unfold valid_day. pose proof (dim_bounds (field_at 0 4 v) (field_at 4 2 v)) as B.
  assert (E : (1 <=? days_in_month (field_at 0 4 v) (field_at 4 2 v)) = true) by lia. rewrite E, andb_true_r. reflexivity.
Qed.

Lemma weeks_spec : forall a b, mem_str [a; b] WEEKS = (a =? 119) && (49 <=? b) && (b <=? 53).
Proof. intros a b. cbv [mem_str existsb WEEKS str_eqb]. lia. Qed.

Lemma monthyear6 : forall c1 c2 c3 c4 c5 c6, let s := [c1; c2; c3; c4; c5; c6] in
  negb (validate_monthyear s) = lex_monthyear s && negb (year0 s).
Proof.
  intros. change (lex_monthyear s) with (matches P_Ym s && valid_month (field_at 4 2 s)).
  unfold validate_monthyear. change (length s =? 6)%nat with true. destruct (in_str 119 s) eqn:W.
  - destruct (matches P_Ym s) eqn:M; [rewrite (matches_not_in 119 P_Ym s eq_refl M) in W; discriminate W|].
    destruct (negb (mem_str _ WEEKS)); reflexivity.
  - rewrite (accept_dateonly F_Ym s eq_refl). apply ym_ok_spec.
Qed.

Lemma lex_monthyear8 : forall c1 c2 c3 c4 c5 c6 c7 c8, let s := [c1; c2; c3; c4; c5; c6; c7; c8] in
  lex_monthyear s
  = if in_str 119 s then mem_str [c7; c8] WEEKS && lex_monthyear [c1; c2; c3; c4; c5; c6] else lex_date s.
Proof.
  intros. set (ym := lex_monthyear [c1; c2; c3; c4; c5; c6]).
  set (day := dig c7 && dig c8 && valid_day (num [c1; c2; c3; c4]) (num [c5; c6]) (num [c7; c8])).
  assert (D : ym && day = lex_date s).
  { cbv [lex_date lex_monthyear s ym day forallb]. btauto. }
  change (lex_monthyear s) with (ym && (day || (c7 =? 119) && (49 <=? c8) && (c8 <=? 53))).
  rewrite <- weeks_spec, <- D. clearbody ym day. destruct (in_str 119 s) eqn:W.
  - assert (L : lex_date s = false).
    { rewrite lex_date_fields. destruct (matches P_Ymd s) eqn:M; [|reflexivity].
      rewrite (matches_not_in 119 P_Ymd s eq_refl M) in W. discriminate W. }
    rewrite L in D. destruct ym, day, (mem_str [c7; c8] WEEKS); try reflexivity; discriminate D.
  - change s with ([c1; c2; c3; c4; c5; c6] ++ [c7; c8]) in W. rewrite in_str_app in W.
    apply orb_false_elim in W as [_ W]. apply orb_false_elim in W as [W _].
    rewrite weeks_spec, (N.eqb_sym c7 119), W. apply f_equal, orb_false_r.
Qed.

Lemma monthyear8 : forall c1 c2 c3 c4 c5 c6 c7 c8, let s := [c1; c2; c3; c4; c5; c6; c7; c8] in
  negb (validate_monthyear s) = lex_monthyear s && negb (year0 s).
Proof.
  intros. subst s. rewrite lex_monthyear8. unfold validate_monthyear. cbn [length Nat.sub skipn firstn Nat.eqb negb].
  destruct (in_str 119 _); [destruct (mem_str [c7; c8] WEEKS)|]; cbn [negb andb].
  - rewrite (accept_dateonly F_Ym _ eq_refl). exact (ym_ok_spec [c1; c2; c3; c4; c5; c6]).
  - reflexivity.
  - rewrite (accept_dateonly F_Ymd _ eq_refl). apply date_ok_spec.
Qed.

Lemma validate_monthyear_len : forall s, length s <> 6%nat -> length s <> 8%nat -> validate_monthyear s = true.
Proof.
  intros s L6 L8. unfold validate_monthyear. destruct (in_str 119 s).
  - destruct (negb (mem_str _ WEEKS)); [reflexivity|]. rewrite firstn_length.
    replace (Init.Nat.min (length s - 2) (length s) =? 6)%nat with false by (symmetry; apply Nat.eqb_neq; lia).
    reflexivity.
  - replace (length s =? 6)%nat with false by (symmetry; apply Nat.eqb_neq; exact L6).
    unfold validate_datetime, layout. cbn [has_S]. rewrite andb_false_r.
    destruct (matches P_Ymd s) eqn:M; [apply matches_length in M; contradiction | reflexivity].
Qed.

Lemma kind_monthyear : forall s, accepts_kind KMonthYear s = xorb (lex DMonthYear s) (kf DMonthYear s).
Proof.
  intro s. unfold accepts_kind. cbn [validate_kind lex kf]. rewrite xorb_absorb.
  destruct s as [|c1 [|c2 [|c3 [|c4 [|c5 [|c6 [|c7 [|c8 [|c9 s]]]]]]]]].
  9: apply monthyear8. 7: apply monthyear6.
  all: rewrite validate_monthyear_len by discriminate; reflexivity.
Qed.

Definition plain (tag ty : str) : field := mkField tag ty [].

Definition kind_of (d : datatype) : kind :=
  match d with
  | DInt => KInt
  | DLength | DData => KUnchecked
  | DNumInGroup | DSeqNum => KPositive
  | DDayOfMonth => KDayOfMonth
  | DFloat | DQty | DPrice | DPriceOffset | DAmt | DPercentage => KFloat
  | DChar => KChar
  | DBoolean => KBoolean
  | DString => KString
  | DMultipleValueString => KMulti
  | DCountry => KCountry
  | DCurrency => KCurrency
  | DExchange => KExchange
  | DMonthYear => KMonthYear
  | DUTCTimestamp => KTimestamp
  | DUTCTimeOnly => KTimeOnly
  | DUTCDateOnly | DLocalMktDate => KDate
  end.

Lemma code_eqb_true : forall a b, code_eqb a b = true -> a = b.
Proof.
  unfold code_eqb. induction a as [|x a IH]; destruct b as [|y b]; try discriminate; [reflexivity|].
  cbn [length combine forallb fst snd Nat.eqb]. intro H. apply andb_prop in H as [L H]. apply andb_prop in H as [E H].
  apply N.eqb_eq in E. subst y. f_equal. apply IH. rewrite L. exact H.
Qed.

Lemma assoc_name_In : forall n l d, assoc_name n l = Some d -> In (n, d) l.
Proof.
  intros n l d. induction l as [|[k e] l IH]; [discriminate|]. cbn [assoc_name In].
  destruct (code_eqb n k) eqn:E; [|right; auto].
  apply code_eqb_true in E. intros [= ->]. left. subst k. reflexivity.
Qed.

Lemma names_classified : Forall (fun p => classify (upper (fst p)) = kind_of (snd p)) datatype_names.
Proof. repeat constructor. Qed.

(* the dispatch of validate_value sends every dictionary name of a FIX datatype to the validator of that datatype *)
Lemma classify_ok : forall n d, datatype_of_name n = Some d -> classify (upper n) = kind_of d.
Proof. intros n d H. exact (proj1 (Forall_forall _ _) names_classified (n, d) (assoc_name_In _ _ _ H)). Qed.

Lemma kind_spec : forall d s, s <> [] -> accepts_kind (kind_of d) s = xorb (lex d s) (kf d s).
Proof.
  intros d s Hne. destruct d.
  - apply kind_int.
  - apply (kind_length s Hne).
  - apply kind_positive.
  - apply kind_positive.
  - apply kind_dayofmonth.
  - apply kind_float.
  - apply kind_float.
  - apply kind_float.
  - apply kind_float.
  - apply kind_float.
  - apply kind_float.
  - apply (kind_char s Hne).
  - apply kind_boolean.
  - apply (kind_string s Hne).
  - apply (kind_multi s Hne).
  - apply (kind_country s Hne).
  - apply (kind_currency s Hne).
  - apply (kind_exchange s Hne).
  - apply kind_monthyear.
  - apply kind_timestamp.
  - apply kind_time.
  - apply kind_date.
  - apply kind_date.
  - apply (kind_data s Hne).
Qed.

Lemma kind_of_supported : forall d, match kind_of d with KUnsupported => true | _ => false end = false.
Proof. destruct d; reflexivity. Qed.

Definition is_endseqno_zero (tag s : str) : bool := str_eqb tag TAG_16 && str_eqb s [48].

Lemma validate_plain : forall tag n d s, datatype_of_name n = Some d ->
  validate_value (plain tag n) s
  = if xorb (lex d s) (kf d s) || (is_endseqno_zero tag s) then Accept false else Raise EFIXMessageError.
Proof.
  intros tag n d s Hd. unfold validate_value, is_endseqno_zero.
  destruct s as [|c s].
  - rewrite andb_false_r, orb_false_r. destruct d; reflexivity.
  - cbn [is_nil plain f_values f_type negb]. rewrite (classify_ok n d Hd), kind_of_supported.
    assert (K := kind_spec d (c :: s) ltac:(discriminate)). unfold accepts_kind in K.
    rewrite <- K. unfold special_cases. cbn [f_tag plain].
    destruct (str_eqb tag TAG_16), (str_eqb (c :: s) [48]), (validate_kind (kind_of d) (c :: s)); reflexivity.
Qed.

Lemma validate_off16 : forall tag n d s, datatype_of_name n = Some d -> tag <> TAG_16 ->
  validate_value (plain tag n) s = if xorb (lex d s) (kf d s) then Accept false else Raise EFIXMessageError.
Proof.
  intros tag n d s Hd Ht. rewrite (validate_plain tag n d s Hd). unfold is_endseqno_zero.
  rewrite (proj2 (str_eqb_neq tag TAG_16) Ht), orb_false_r. reflexivity.
Qed.

Lemma validate_exact : forall tag n d s, datatype_of_name n = Some d -> tag <> TAG_16 ->
  (validate_value (plain tag n) s = Accept false <-> xorb (lex d s) (kf d s) = true).
Proof.
  intros tag n d s Hd Ht. rewrite (validate_off16 tag n d s Hd Ht).
  destruct (xorb (lex d s) (kf d s)); split; intro H; try reflexivity; discriminate.
Qed.

Lemma validate_lexical : forall tag n d s, datatype_of_name n = Some d -> tag <> TAG_16 -> kf d s = false ->
  (validate_value (plain tag n) s = Accept false <-> lex d s = true).
Proof.
  intros tag n d s Hd Ht Hk. rewrite (validate_exact tag n d s Hd Ht), Hk, xorb_false_r. reflexivity.
Qed.

Lemma validate_endseqno : forall n d s, datatype_of_name n = Some d ->
  (validate_value (plain TAG_16 n) s = Accept false <-> xorb (lex d s) (kf d s) = true \/ s = [48]).
Proof.
  intros n d s Hd. rewrite (validate_plain TAG_16 n d s Hd), <- (str_eqb_eq s [48]). unfold is_endseqno_zero.
  rewrite str_eqb_refl. destruct (xorb (lex d s) (kf d s)), (str_eqb s [48]); cbn [andb orb]; intuition discriminate.
Qed.

Lemma validate_enum : forall f s, f_values f <> [] ->
  (validate_value f s = Accept false <-> s <> [] /\ In s (f_values f)).
Proof.
  intros f s Hv. unfold validate_value.
  destruct s as [|c s]; cbn [is_nil].
  - split; [discriminate | intros [H _]; congruence].
  - destruct (f_values f) as [|v vs] eqn:E; [congruence|]. cbn [is_nil negb].
    destruct (mem_str (c :: s) (v :: vs)) eqn:M.
    + apply mem_str_In in M. split; [intros _; split; [discriminate | exact M] | reflexivity].
    + split; [discriminate|]. intros [_ H]. apply mem_str_In in H. congruence.
Qed.

Lemma class_member_refused : forall tag n d s, datatype_of_name n = Some d -> tag <> TAG_16 ->
  lex d s = true -> kf d s = true -> validate_value (plain tag n) s = Raise EFIXMessageError.
Proof.
  intros tag n d s Hd Ht L K. rewrite (validate_off16 tag n d s Hd Ht), L, K. reflexivity.
Qed.

(* the tag of the witnesses of the known findings (Props/C19.v): any tag but 16 *)
Definition TAG_1 : str := [49].
Definition refused (r : result) : bool := match r with Raise EFIXMessageError => true | _ => false end.

(* huge numbers: more than 4300 digits "1"; the count stays in binary and is never expanded *)
Lemma ones_long : forall n, 4300 < n ->
  lex_int (repeat 49 (N.to_nat n)) = true /\ too_many_digits (repeat 49 (N.to_nat n)) = true.
Proof.
  intros n H.
  assert (D : forallb dig (repeat 49 (N.to_nat n)) = true).
  { apply forallb_forall. intros x Hx. apply repeat_spec in Hx. subst x. reflexivity. }
  split.
  - destruct (N.to_nat n) eqn:E; [lia | exact D].
  - unfold too_many_digits. rewrite (filter_dig _ D), repeat_length, N2Nat.id. apply N.ltb_lt. exact H.
Qed.

Lemma float_digits : forall s, digs s = true -> lex_float s = true /\ float_overflows s = (FLOAT_INF <=? num s).
Proof.
  intros s H. apply andb_prop in H as [Hne Hd].
  destruct (digits_app s [] Hd) as (A & B & C & D & _). rewrite app_nil_r in *.
  assert (U : unsigned s = s) by (destruct (sign_cases s) as [[r ->] | [U _]]; [discriminate Hd | exact U]).
  unfold lex_float, float_overflows. fold dd. cbv zeta. rewrite U, A, B, C, D, (filter_dig s Hd), Hne.
  cbn [after_dot length N.of_nat]. rewrite N.pow_0_r, N.mul_1_r. split; reflexivity.
Qed.

Lemma float_literal : forall n,
  validate_value (plain TAG_1 n_FLOAT) (Sx.n_to_dec n) = if FLOAT_INF <=? n then Raise EFIXMessageError else Accept false.
Proof.
  intro n. destruct (n_to_dec_spec n) as (Hne & Hd & Hv & _).
  assert (D : digs (Sx.n_to_dec n) = true).
  { apply andb_true_intro. split; [destruct (Sx.n_to_dec n); [congruence | reflexivity]|].
    apply forallb_forall. exact (proj1 (Forall_forall _ _) Hd). }
  destruct (float_digits _ D) as [L O]. change (num (Sx.n_to_dec n)) with (dval (Sx.n_to_dec n) 0) in O. rewrite Hv in O.
  rewrite (validate_off16 TAG_1 n_FLOAT DFloat _ eq_refl) by discriminate. cbn [lex kf]. rewrite L, O.
  destruct (FLOAT_INF <=? n); reflexivity.
Qed.

Lemma lexical_outside : forall tag n d (c : str -> bool) s, datatype_of_name n = Some d -> tag <> TAG_16 ->
  kf d s = lex d s && c s -> c s = false ->
  (validate_value (plain tag n) s = Accept false <-> lex d s = true).
Proof.
  intros tag n d c s Hd Ht E K. apply (validate_lexical tag n d s Hd Ht). rewrite E, K. apply andb_false_r.
Qed.

Lemma nonempty_iff : forall s : str, nonempty s = true <-> s <> [].
Proof. destruct s; split; intro H; try reflexivity; try discriminate; congruence. Qed.

Lemma positive_partial : forall tag name s, In name [n_SEQNUM; n_NUMINGROUP] -> tag <> TAG_16 ->
  too_many_digits s = false ->
  (validate_value (plain tag name) s = Accept false <-> lex_positive s = true).
Proof.
  intros tag name s [<- | [<- | []]] H K.
  - exact (lexical_outside tag n_SEQNUM DSeqNum too_many_digits s eq_refl H eq_refl K).
  - exact (lexical_outside tag n_NUMINGROUP DNumInGroup too_many_digits s eq_refl H eq_refl K).
Qed.

Lemma float_partial : forall tag name s,
  In name [n_FLOAT; n_QTY; n_PRICE; n_PRICEOFFSET; n_AMT; n_PERCENTAGE] -> tag <> TAG_16 ->
  float_overflows s = false ->
  (validate_value (plain tag name) s = Accept false <-> lex_float s = true).
Proof.
  intros tag name s [<- | [<- | [<- | [<- | [<- | [<- | []]]]]]] H K.
  - exact (lexical_outside tag n_FLOAT DFloat float_overflows s eq_refl H eq_refl K).
  - exact (lexical_outside tag n_QTY DQty float_overflows s eq_refl H eq_refl K).
  - exact (lexical_outside tag n_PRICE DPrice float_overflows s eq_refl H eq_refl K).
  - exact (lexical_outside tag n_PRICEOFFSET DPriceOffset float_overflows s eq_refl H eq_refl K).
  - exact (lexical_outside tag n_AMT DAmt float_overflows s eq_refl H eq_refl K).
  - exact (lexical_outside tag n_PERCENTAGE DPercentage float_overflows s eq_refl H eq_refl K).
Qed.

Lemma string_partial : forall tag s, tag <> TAG_16 -> has_equals s = false ->
  (validate_value (plain tag n_STRING) s = Accept false <-> lex_string s = true)
  /\ (validate_value (plain tag n_CHAR) s = Accept false <-> lex_char s = true)
  /\ (validate_value (plain tag n_MULTIPLEVALUESTRING) s = Accept false <-> lex_multi s = true)
  /\ (validate_value (plain tag n_MULTIPLESTRINGVALUE) s = Accept false <-> lex_multi s = true).
Proof.
  intros tag s H K. split; [|split; [|split]].
  - exact (lexical_outside tag n_STRING DString has_equals s eq_refl H eq_refl K).
  - exact (lexical_outside tag n_CHAR DChar has_equals s eq_refl H eq_refl K).
  - exact (lexical_outside tag n_MULTIPLEVALUESTRING DMultipleValueString has_equals s eq_refl H eq_refl K).
  - exact (lexical_outside tag n_MULTIPLESTRINGVALUE DMultipleValueString has_equals s eq_refl H eq_refl K).
Qed.

