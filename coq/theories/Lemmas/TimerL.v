(* Proofs about the watchdog model Fix/Timer.v (C12). *)
From Coq Require Import ZArith List Bool Lia ZifyBool.
From AF Require Import Base.Sx Py.Str Fix.Timer Lemmas.StrB.
From AFGen Require Import GenTimer.
Import ListNotations.
Open Scope Z_scope.

(* These equalities are re-checked against the regenerated GenTimer on every run: an edit of a
   threshold, of the sleep period or of the state numbering breaks them (and what follows). *)
Lemma thr_probe_eq hb : thr thr_probe hb = (hb - 1) * 1000.
Proof. unfold thr, thr_probe; cbn [fst snd]; lia. Qed.
Lemma thr_dead_eq hb : thr thr_dead hb = 2 * hb * 1000.
Proof. unfold thr, thr_dead; cbn [fst snd]; lia. Qed.
Lemma thr_treq_eq hb : thr thr_treq hb = 2 * hb * 1000.
Proof. unfold thr, thr_treq; cbn [fst snd]; lia. Qed.
Lemma thr_treq_silence_eq hb : thr thr_treq_silence hb = 2 * hb * 1000.
Proof. unfold thr, thr_treq_silence; cbn [fst snd]; lia. Qed.
Lemma tick_ms_eq : tick_ms = 1000. Proof. reflexivity. Qed.
Lemma st_order : ST_DISCONNECTED_BROKEN_CONN < ST_NETWORK_CONN_ESTABLISHED <= ST_ACTIVE.
Proof. unfold ST_DISCONNECTED_BROKEN_CONN, ST_NETWORK_CONN_ESTABLISHED, ST_ACTIVE; lia. Qed.

Lemma constants :
  (forall hb, thr thr_probe hb = (hb - 1) * 1000) /\ (forall hb, thr thr_dead hb = 2 * hb * 1000)
  /\ (forall hb, thr thr_treq hb = 2 * hb * 1000) /\ (forall hb, thr thr_treq_silence hb = 2 * hb * 1000)
  /\ tick_ms = 1000.
Proof. exact (conj thr_probe_eq (conj thr_dead_eq (conj thr_treq_eq (conj thr_treq_silence_eq tick_ms_eq)))). Qed.

Definition live (s : st) : Prop := s_conn s = true /\ s_state s = ST_ACTIVE.
Definition awaiting (s : st) : Prop := s_conn s = true /\ s_state s = ST_RESENDREQ_AWAITING.
Definition dead_st (hb : Z) : st := mkSt ST_DISCONNECTED_BROKEN_CONN hb 0 None false 0.

Definition is_testreq (o : out) : bool :=
  match o with OWire KTestRequest _ => true | _ => false end.

(* logged on: ACTIVE, or RESENDREQ_AWAITING (a ResendRequest is out) - the states in which the watchdog probes *)
Definition up (s : st) : Prop := s_conn s = true /\ session_up s = true.

Lemma live_up s : live s -> up s.
Proof. intros [Hc Hs]. split; [assumption|]. unfold session_up. rewrite Hs. reflexivity. Qed.

Lemma awaiting_up s : awaiting s -> up s.
Proof. intros [Hc Hs]. split; [assumption|]. unfold session_up. rewrite Hs. reflexivity. Qed.

Lemma up_above s : session_up s = true -> ST_DISCONNECTED_BROKEN_CONN < s_state s.
Proof. unfold session_up, ST_ACTIVE, ST_RESENDREQ_AWAITING, ST_DISCONNECTED_BROKEN_CONN. lia. Qed.

Lemma disconnect_above s l : ST_DISCONNECTED_BROKEN_CONN < s_state s ->
  disconnect s l = (dead_st (s_hb s), (if l then [OWire KLogout None] else []) ++ [ODisconnect]).
Proof. intro H. unfold disconnect. rewrite (proj2 (Z.ltb_lt _ _) H). reflexivity. Qed.

Lemma disconnect_cases s l :
  disconnect s l = (s, []) \/
  disconnect s l = (dead_st (s_hb s), (if l then [OWire KLogout None] else []) ++ [ODisconnect]).
Proof. unfold disconnect. destruct (_ <? _); auto. Qed.

(* the two dead-peer tests that end an iteration, as one condition: the clock (last valid message, or the probe if
   that is later) is more than 2 hb s old, and either it was ever set or the outstanding id is that old too *)
Definition expired (now : Z) (s : st) : bool :=
  (2 * s_hb s * 1000 <? now - s_mlt s)
  && (negb (s_mlt s =? 0)
      || match s_id s with
         | Some n => negb (n =? 0) && (2 * s_hb s * 1000 <? now - n * 1000)
         | None => false
         end).

Definition watchdog (now : Z) (s : st) (o : list out) : st * list out :=
  if expired now s then let '(s', o') := disconnect s false in (s', o ++ o') else (s, o).

Definition probing_of (s : st) (now : Z) : st :=
  mkSt (s_state s) (s_hb s) now (Some (now / 1000)) true (s_gap s).

(* closed form of one iteration on a connected session, in any state *)
Lemma tick_eq now s : s_conn s = true ->
  tick now s =
  if session_up s && ((s_hb s - 1) * 1000 <? now - s_mlt s) then
    match s_id s with
    | None => watchdog now (probing_of s now) [testreq_frame (now / 1000)]
    | Some n => if n =? 0 then (s, [OSpin]) else watchdog now s []
    end
  else watchdog now s [].
Proof.
  intro Hc.
  assert (W : forall s1 o1,
    (let '(s2, o2) :=
       if negb (s_mlt s1 =? 0) && (thr thr_dead (s_hb s1) <? now - s_mlt s1)
       then disconnect s1 false else (s1, []) in
     let '(s3, o3) :=
       match s_id s2 with
       | Some n =>
           if negb (n =? 0) && (thr thr_treq (s_hb s2) <? now - n * 1000)
              && (thr thr_treq_silence (s_hb s2) <? now - s_mlt s2)
           then disconnect s2 false else (s2, [])
       | None => (s2, [])
       end in
     (s3, o1 ++ o2 ++ o3)) = watchdog now s1 o1).
  { intros s1 o1. unfold watchdog, expired. rewrite thr_dead_eq.
    (* if the first test drops the session the second one sees no id; if disconnect does nothing, neither does *)
    destruct (disconnect_cases s1 false) as [E | E]; rewrite E;
      destruct (2 * s_hb s1 * 1000 <? now - s_mlt s1) eqn:D, (negb (s_mlt s1 =? 0)); cbn [andb orb s_id dead_st];
      destruct (s_id s1) as [n|]; rewrite ?thr_treq_eq, ?D, ?E, ?andb_true_r, ?andb_false_r;
      try destruct (_ && _); rewrite ?E, ?app_nil_r; reflexivity. }
  unfold tick. rewrite Hc, thr_probe_eq. cbn [negb].
  destruct (session_up s && _); [|apply W].
  destruct (s_id s) as [n|]; cbn [truthy]; [destruct (n =? 0); [reflexivity | apply W] |].
  replace (probing_of s now) with (set_mlt (set_id s (Some (now / 1000))) now)
    by (unfold probing_of, set_mlt, set_id; cbn; rewrite Hc; reflexivity).
  apply W.
Qed.

Lemma tick_off now s : s_conn s = false -> tick now s = (s, []).
Proof. intro H. unfold tick. rewrite H. reflexivity. Qed.

Lemma watchdog_cases now s o :
  watchdog now s o = (s, o)
  \/ 2 * s_hb s * 1000 < now - s_mlt s /\ watchdog now s o = (dead_st (s_hb s), o ++ [ODisconnect]).
Proof.
  unfold watchdog, expired. destruct (_ <? _) eqn:D; [|auto]. destruct (_ || _); [|auto].
  destruct (disconnect_cases s false) as [E | E]; rewrite E; [rewrite app_nil_r; auto | right; split; [lia | reflexivity]].
Qed.

Lemma watchdog_young now s o : now - s_mlt s <= 2 * s_hb s * 1000 -> watchdog now s o = (s, o).
Proof. intro H. destruct (watchdog_cases now s o) as [W | [D _]]; [exact W | lia]. Qed.

Definition idle_up (s : st) (hb t0 : Z) : Prop :=
  up s /\ s_hb s = hb /\ s_id s = None /\ s_mlt s = t0.

Lemma tick_idle now s hb t0 :
  idle_up s hb t0 -> 0 <= hb -> now - t0 <= (hb - 1) * 1000 -> tick now s = (s, []).
Proof.
  intros ([Hc Hs] & Hh & Hi & Hm) Hhb Hle. rewrite tick_eq, Hs, Hh, Hm by assumption.
  rewrite (proj2 (Z.ltb_ge _ _)) by lia. apply watchdog_young. lia.
Qed.

Lemma tick_probe now s hb t0 :
  idle_up s hb t0 -> 0 <= hb -> (hb - 1) * 1000 < now - t0 ->
  tick now s = (probing_of s now, [testreq_frame (now / 1000)]).
Proof.
  intros ([Hc Hs] & Hh & Hi & Hm) Hhb Hgt. rewrite tick_eq, Hs, Hi, Hh, Hm by assumption.
  rewrite (proj2 (Z.ltb_lt _ _)) by lia. apply watchdog_young. cbn [probing_of s_mlt s_hb]. lia.
Qed.

(* a probe is outstanding and the clock (probe time or last valid message) is at most 2 hb s old: nothing happens *)
Lemma tick_waiting now s n :
  up s -> s_id s = Some n -> n <> 0 -> now - s_mlt s <= 2 * s_hb s * 1000 -> tick now s = (s, []).
Proof.
  intros [Hc Hs] Hi Hn Hle. rewrite tick_eq, Hi, (proj2 (Z.eqb_neq n 0)), watchdog_young by assumption.
  destruct (_ && _); reflexivity.
Qed.

(* ... and the first iteration that finds it older disconnects *)
Lemma tick_timeout now s n :
  up s -> s_id s = Some n -> n <> 0 -> s_mlt s <> 0 -> 2 * s_hb s * 1000 < now - s_mlt s ->
  tick now s = (dead_st (s_hb s), [ODisconnect]).
Proof.
  intros [Hc Hs] Hi Hn Hm Hlt. rewrite tick_eq, Hi, (proj2 (Z.eqb_neq n 0)) by assumption.
  unfold watchdog, expired. rewrite (disconnect_above s false (up_above s Hs)).
  rewrite (proj2 (Z.ltb_lt (2 * _ * _) _)), (proj2 (Z.eqb_neq (s_mlt s) 0)) by assumption.
  destruct (_ && _); reflexivity.
Qed.

(* hb is never changed; a connected session is ACTIVE or awaiting a resend (other states are not entered by
   the modelled events) *)
Definition ok (hb : Z) (s : st) : Prop := s_hb s = hb /\ (s_conn s = true -> session_up s = true).

(* when the watchdog drops a logged-on session a probe is outstanding and the clock - the time of the last valid
   message, or of the probe if that is later - is more than 2 hb s old *)
Lemma drop_reason hb s t s' o :
  0 <= hb -> ok hb s -> tick t s = (s', o) -> In ODisconnect o ->
  s_conn s = true /\ exists n, s_id s = Some n /\ 2 * hb * 1000 < t - s_mlt s.
Proof.
  intros Hhb [<- Hs] E D.
  destruct (s_conn s) eqn:Hc; [|rewrite tick_off in E by assumption; inversion E; subst o; destruct D].
  split; [reflexivity|]. rewrite tick_eq, (Hs eq_refl) in E by assumption. cbn [andb] in E.
  (* the disconnect comes from the last stage, and then the state that stage saw is old *)
  assert (W : forall s1 o1, watchdog t s1 o1 = (s', o) -> ~ In ODisconnect o1 -> 2 * s_hb s1 * 1000 < t - s_mlt s1).
  { intros s1 o1 E1 N. destruct (watchdog_cases t s1 o1) as [W | [L W]]; rewrite W in E1; inversion E1; subst; tauto. }
  destruct (s_id s) as [n|], (_ <? _) eqn:P.
  - exists n. split; [reflexivity|].
    destruct (n =? 0); [inversion E; subst o; cbn in D; intuition discriminate | apply (W s [] E); auto].
  - exists n. split; [reflexivity | apply (W s [] E); auto].
  - (* just probed: that state is young *)
    apply W in E; cbn [probing_of s_hb s_mlt] in E; [lia | cbn; intuition discriminate].
  - apply W in E; [lia | auto].
Qed.

Definition outs (s : st) (evs : list ev) : list (list out) := map r_out (trace s evs).

(* k iterations one sleep period apart, the first at time p *)
Fixpoint ticks (p : Z) (k : nat) : list ev :=
  match k with
  | O => []
  | S k' => Tick p :: ticks (p + tick_ms) k'
  end.

Lemma trace_app a : forall s b, trace s (a ++ b) = trace s a ++ trace (final s a) b.
Proof.
  induction a as [|e a IH]; intros s b; [reflexivity|].
  cbn [app trace]. unfold final. cbn [fold_left]. destruct (step s e) as [s' o]. cbn [fst]. rewrite IH. reflexivity.
Qed.

Lemma final_app a s b : final s (a ++ b) = final (final s a) b.
Proof. apply fold_left_app. Qed.

Lemma outs_app a s b : outs s (a ++ b) = outs s a ++ outs (final s a) b.
Proof. unfold outs. rewrite trace_app. apply map_app. Qed.

Lemma trace_ev evs : forall s, map r_ev (trace s evs) = evs.
Proof.
  induction evs as [|e evs IH]; intro s; [reflexivity|].
  cbn [trace]. destruct (step s e) as [s' o]. cbn [map r_ev]. rewrite IH. reflexivity.
Qed.

Lemma outs_cons s e r : outs s (e :: r) = snd (step s e) :: outs (fst (step s e)) r.
Proof. unfold outs; cbn [trace]; destruct (step s e); reflexivity. Qed.

Lemma final_cons s e r : final s (e :: r) = final (fst (step s e)) r.
Proof. reflexivity. Qed.

Lemma ticks_app a : forall p b, ticks p (a + b) = ticks p a ++ ticks (p + Z.of_nat a * 1000) b.
Proof.
  induction a as [|a IH]; intros p b.
  - cbn. f_equal. lia.
  - cbn [Nat.add ticks app]. rewrite IH, tick_ms_eq. do 3 f_equal. lia.
Qed.

(* k iterations that change nothing and emit nothing, then one that does *)
Lemma stable_then s k s' o : forall p,
  (forall t, p <= t <= p + (Z.of_nat k - 1) * 1000 -> tick t s = (s, [])) -> tick (p + Z.of_nat k * 1000) s = (s', o) ->
  outs s (ticks p (k + 1)) = repeat [] k ++ [o] /\ final s (ticks p (k + 1)) = s'.
Proof.
  induction k as [|k IH]; intros p H E; cbn [Nat.add ticks repeat app]; rewrite outs_cons, final_cons; cbn [step].
  - replace (tick p s) with (s', o) by (rewrite <- E; f_equal; lia). split; reflexivity.
  - rewrite (H p) by lia. cbn [fst snd].
    destruct (IH (p + tick_ms)) as [A B];
      [rewrite tick_ms_eq; intros t Ht; apply H; lia | rewrite tick_ms_eq, <- E; f_equal; lia |].
    rewrite A, B. split; reflexivity.
Qed.

Lemma probe_run hb s t0 p (k : nat) :
  1 <= hb -> idle_up s hb t0 ->
  let tp := p + Z.of_nat k * 1000 in
  tp - 1000 - t0 <= (hb - 1) * 1000 < tp - t0 ->
  outs s (ticks p (k + 1)) = repeat [] k ++ [[testreq_frame (tp / 1000)]]
  /\ final s (ticks p (k + 1)) = probing_of s tp
  /\ t0 + (hb - 1) * 1000 < tp <= t0 + hb * 1000.
Proof.
  intros Hhb I tp [Hprev Hfire].
  destruct (stable_then s k (probing_of s tp) [testreq_frame (tp / 1000)] p) as [A B].
  - intros t Ht. apply (tick_idle t s hb t0); lia || assumption.
  - apply (tick_probe tp s hb t0 I); lia.
  - repeat split; try assumption; lia.
Qed.

(* the peer stays silent: exactly 2 hb quiet iterations follow the probe and the next one disconnects *)
Lemma dead_peer_run hb s t0 p (k m : nat) :
  1 <= hb -> idle_up s hb t0 -> 1000 <= p ->
  let tp := p + Z.of_nat k * 1000 in
  let td := tp + (2 * hb + 1) * 1000 in
  tp - 1000 - t0 <= (hb - 1) * 1000 < tp - t0 ->
  Z.of_nat m = 2 * hb ->
  outs s (ticks p (k + 1 + (m + 1))) =
    repeat [] k ++ [[testreq_frame (tp / 1000)]] ++ repeat [] m ++ [[ODisconnect]]
  /\ final s (ticks p (k + 1 + (m + 1))) = dead_st hb
  /\ t0 + 3 * hb * 1000 < td <= t0 + (3 * hb + 1) * 1000.
Proof.
  intros Hhb I Hp tp td Hk Hm.
  destruct (probe_run hb s t0 p k Hhb I Hk) as (A & B & C). fold tp in A, B, C.
  rewrite (ticks_app (k + 1)), outs_app, final_app, A, B.
  replace (p + Z.of_nat (k + 1) * 1000) with (tp + 1000) by (subst tp; lia).
  destruct I as ([Hc Hs] & Hh & Hi & Hmlt). assert (U : up (probing_of s tp)) by (split; [reflexivity | exact Hs]).
  assert (Hn : tp / 1000 <> 0) by (pose proof (Z.div_le_lower_bound tp 1000 1); subst tp; lia).
  destruct (stable_then (probing_of s tp) m (dead_st hb) [ODisconnect] (tp + 1000)) as [W F].
  - intros t Ht. apply (tick_waiting _ _ (tp / 1000)); try assumption; cbn [probing_of s_id s_hb s_mlt]; (reflexivity || lia).
  - rewrite <- Hh. apply (tick_timeout _ (probing_of s tp) (tp / 1000)); try assumption; cbn [probing_of s_id s_hb s_mlt]; try reflexivity; subst tp; lia.
  - rewrite W, F, <- app_assoc. repeat split; subst td; lia.
Qed.

Definition plain (m : msg) : bool := match m with MGapFill _ => false | _ => true end.

(* the messages that are finalized: in sequence, a SequenceReset only when NewSeqNo moves forward *)
Definition refresh (e : ev) : bool :=
  match e with
  | Recv _ d m => (d =? 0) && match m with MGapFill nw => 1 <=? nw | _ => true end
  | _ => false
  end.

(* outside the logged-on states, or numbered below the expected number, the heartbeat protocol sees nothing *)
Lemma recv_guard now d m s :
  up s /\ 0 <= d
  \/ (up s -> d < 0) /\ (recv now d m s = (s, []) \/ recv now d m s = (s, [OUnmodelled])).
Proof.
  pose proof (up_above s). unfold recv, up. destruct (negb (s_conn s) || _) eqn:A; [right; split; [lia | auto]|].
  destruct (negb (session_up s) || _) eqn:B; [right; split; [lia | auto]|]. left. lia.
Qed.

(* closed form on a logged-on session.  A message numbered above the expected number asks for a resend once
   (RESENDREQ_AWAITING), is still dispatched, and is NOT finalized (last-message clock untouched). *)
Lemma recv_up now d m s : up s -> 0 <= d -> plain m = true ->
  recv now d m s =
  let gap := (0 <? d) && negb (s_state s =? ST_RESENDREQ_AWAITING) in
  let '(s1, o1) := dispatch m (if gap then set_state s ST_RESENDREQ_AWAITING d else s) in
  ((if d =? 0 then finalize now 1 s1 else s1), (if gap then [OWire KResendRequest None] else []) ++ o1).
Proof.
  intros [Hc Hs] Hd Hp. unfold recv, check_gap.
  rewrite Hc, Hs, (proj2 (Z.leb_gt _ _) (up_above s Hs)), (proj2 (Z.ltb_ge d 0)) by assumption.
  cbn [negb orb andb].
  destruct m; [| | | discriminate Hp];
    (destruct (0 <? d) eqn:G;
     [replace (d =? 0) with false by lia; destruct (s_state s =? _) | replace (d =? 0) with true by lia]);
    cbn [negb andb]; destruct (dispatch _ _); reflexivity.
Qed.

Lemma recv_gapfill_up now d nw s : up s -> 0 <= d ->
  recv now d (MGapFill nw) s =
  if refresh (Recv now d (MGapFill nw)) then (finalize now nw s, []) else (s, [OUnmodelled]).
Proof.
  intros [Hc Hs] Hd. unfold recv, refresh.
  rewrite Hc, Hs, (proj2 (Z.leb_gt _ _) (up_above s Hs)), (proj2 (Z.ltb_ge d 0)) by assumption.
  cbn [negb orb]. destruct (d =? 0), (nw <? 1) eqn:N; cbn [negb orb andb];
    [replace (1 <=? nw) with false by lia | replace (1 <=? nw) with true by lia | |]; reflexivity.
Qed.

(* finalizing (b = true) touches the state number, the gap and the clock; nothing else the watchdog looks at *)
Lemma finalize_keeps (b : bool) now adv s :
  let s' := if b then finalize now adv s else s in
  s_hb s' = s_hb s /\ s_conn s' = s_conn s /\ s_id s' = s_id s
  /\ s_mlt s' = (if b then now else s_mlt s) /\ session_up s' = session_up s.
Proof.
  destruct b; cbv zeta; [|auto]. unfold finalize, session_up.
  destruct (s_state s =? ST_RESENDREQ_AWAITING) eqn:A; [destruct (_ <=? _)|];
    cbn [set_mlt set_state s_state s_hb s_conn s_id s_mlt]; rewrite ?A, ?orb_true_r; auto.
Qed.

(* what the dispatch can do to a logged-on session: nothing, clear the id a Heartbeat echoes, or drop the session
   for a wrong id *)
Lemma dispatch_cases m s s1 o1 : session_up s = true -> dispatch m s = (s1, o1) ->
  existsb is_testreq o1 = false /\
  (s1 = s \/ (s1 = set_id s None /\ exists v, m = MHeartbeat (Some v) /\ s_id s = Some (parse_id v))
   \/ s1 = dead_st (s_hb s)).
Proof.
  intros Hs E. destruct m as [[v|] | r | |]; cbn [dispatch] in E; try (inversion E; auto).
  - destruct (s_id s) as [n|] eqn:Hi; [|inversion E; auto].
    destruct (n =? parse_id v) eqn:Q.
    + inversion E. split; [reflexivity|]. right; left. split; [reflexivity|]. exists v. split; [reflexivity|]. f_equal. lia.
    + rewrite (disconnect_above s true (up_above s Hs)) in E. inversion E. auto.
  - destruct (s_id s); inversion E; auto.
Qed.

Lemma dispatch_answer v s : s_id s = Some (parse_id v) -> dispatch (MHeartbeat (Some v)) s = (set_id s None, []).
Proof. intro H. cbn [dispatch]. rewrite H, Z.eqb_refl. reflexivity. Qed.

Lemma dispatch_wrong v s n : up s -> s_id s = Some n -> parse_id v <> n ->
  dispatch (MHeartbeat (Some v)) s = (dead_st (s_hb s), [OWire KLogout None; ODisconnect]).
Proof.
  intros [_ Hs] Hi Hne. cbn [dispatch].
  rewrite Hi, (proj2 (Z.eqb_neq n _)), disconnect_above by (congruence || apply up_above, Hs). reflexivity.
Qed.

(* in sequence on an ACTIVE session: dispatched, clock restarted *)
Lemma recv_live_eq now m s : live s -> plain m = true ->
  recv now 0 m s = let '(s1, o) := dispatch m s in (set_mlt s1 now, o).
Proof.
  intros L Hp. rewrite recv_up by (lia || assumption || apply live_up, L). cbn.
  destruct (dispatch m s) as [s1 o] eqn:D. apply dispatch_cases in D; [|apply live_up, L].
  (* none of the three results is awaiting a resend: finalizing only restarts the clock *)
  unfold finalize. rewrite (proj2 (Z.eqb_neq (s_state s1) _)); [reflexivity|].
  destruct L as [_ Hs], D as [_ [-> | [[-> _] | ->]]]; cbn; try rewrite Hs; discriminate.
Qed.

Lemma unsolicited_id_ignored : forall now v s, live s -> s_id s = None ->
  recv now 0 (MHeartbeat (Some v)) s = (set_mlt s now, []).
Proof.
  intros now v s L Hi. rewrite recv_live_eq by (assumption || reflexivity). cbn [dispatch]. rewrite Hi. reflexivity.
Qed.

(* behind a gap on an ACTIVE session: a ResendRequest is sent and the state becomes RESENDREQ_AWAITING; the message
   is still dispatched; it is NOT finalized (last-message clock untouched) *)
Lemma recv_behind_gap_active now d m s : live s -> 0 < d -> plain m = true ->
  recv now d m s =
  let '(s1, o) := dispatch m (set_state s ST_RESENDREQ_AWAITING d) in (s1, OWire KResendRequest None :: o).
Proof.
  intros L Hd Hp. rewrite recv_up by (lia || assumption || apply live_up, L). destruct L as [_ Hs].
  rewrite Hs, (proj2 (Z.ltb_lt 0 d)), (proj2 (Z.eqb_neq d 0)) by lia. reflexivity.
Qed.

(* behind a gap while the resend is awaited: only dispatched *)
Lemma recv_behind_gap_awaiting now d m s : awaiting s -> 0 < d -> plain m = true ->
  recv now d m s = dispatch m s.
Proof.
  intros A Hd Hp. rewrite recv_up by (lia || assumption || apply awaiting_up, A). destruct A as [_ Hs].
  rewrite Hs, (proj2 (Z.ltb_lt 0 d)), (proj2 (Z.eqb_neq d 0)) by lia. cbn. destruct (dispatch m s). reflexivity.
Qed.

(* the gap is closed: an in-sequence message, or a gap fill, that reaches the number that opened the gap brings the
   session back to ACTIVE; in-sequence messages are finalized (clock refreshed) also while the resend is awaited *)
Lemma finalize_awaiting now adv s : s_state s = ST_RESENDREQ_AWAITING ->
  finalize now adv s =
  if s_gap s <=? adv - 1 then set_mlt (set_state s ST_ACTIVE 0) now
  else set_mlt (set_state s ST_RESENDREQ_AWAITING (s_gap s - adv)) now.
Proof. intro H. unfold finalize. rewrite H, Z.eqb_refl. destruct (_ <=? _); reflexivity. Qed.

Lemma gap_closes : forall now m s, awaiting s -> plain m = true ->
  (forall n v, s_id s = Some n -> m = MHeartbeat (Some v) -> n = parse_id v) ->
  let '(s1, o) := dispatch m s in
  recv now 0 m s =
  ((if s_gap s <=? 0 then set_mlt (set_state s1 ST_ACTIVE 0) now
    else set_mlt (set_state s1 ST_RESENDREQ_AWAITING (s_gap s - 1)) now), o).
Proof.
  intros now m s A Hp Hm. rewrite recv_up by (lia || assumption || apply awaiting_up, A). cbn. destruct A as [_ Hs].
  (* the hypothesis excludes the one message that drops the session: a Heartbeat with a wrong id *)
  assert (D : exists o, dispatch m s = (s, o) \/ dispatch m s = (set_id s None, o)).
  { destruct m as [[v|] | r | |]; cbn [dispatch]; try destruct (s_id s) as [n|];
      try rewrite (Hm n v eq_refl eq_refl), Z.eqb_refl; eauto. }
  destruct D as [o [D | D]]; rewrite D, finalize_awaiting by exact Hs; reflexivity.
Qed.

Definition writes_testreq (r : row) : bool := existsb is_testreq (r_out r).
Definition is_tick (e : ev) : bool := match e with Tick _ => true | _ => false end.
Definition is_raw (e : ev) : bool := match e with AppRaw _ _ => true | _ => false end.
Definition is_app_probe (e : ev) : bool := match e with AppProbe _ => true | _ => false end.

(* The effect of a step on what the heartbeat protocol looks at: connection, heartbeat interval, clock, outstanding
   id, TestRequest frames.  The state number within the logged-on states, the gap width and the other frames are
   left out. *)
Inductive effect (s : st) (e : ev) (s' : st) (o : list out) : Prop :=
| eff_idle : s' = s -> existsb is_testreq o = false -> (up s -> refresh e = false) -> effect s e s' o
| eff_drop : s_conn s = true -> s_conn s' = false -> s_hb s' = s_hb s ->
    (* the second alternative, probe and drop in one iteration, arises only with hb < 0: the probe restarts the clock *)
    (existsb is_testreq o = false \/ s_id s = None /\ o = [testreq_frame (ev_time e / 1000); ODisconnect]) ->
    effect s e s' o
| eff_probe t : e = Tick t -> up s -> s_id s = None -> s' = probing_of s t -> o = [testreq_frame (t / 1000)] ->
    effect s e s' o
| eff_app_probe t : e = AppProbe t -> s_id s = None -> s' = set_id s (Some (t / 1000)) ->
    (up s /\ o = [testreq_frame (t / 1000)] \/ existsb is_testreq o = false) -> effect s e s' o
| eff_app_raw t n : e = AppRaw t (z_to_dec n) -> up s -> s_id s = Some n -> s' = s -> o = [testreq_frame n] ->
    effect s e s' o
| eff_recv t d m : e = Recv t d m -> up s -> up s' -> s_hb s' = s_hb s ->
    s_mlt s' = (if refresh e then t else s_mlt s) ->
    (s_id s' = s_id s \/ s_id s' = None /\ exists v, m = MHeartbeat (Some v) /\ s_id s = Some (parse_id v)) ->
    existsb is_testreq o = false -> effect s e s' o.

Lemma frame_written o f : In f o -> is_testreq f = true -> existsb is_testreq o = true.
Proof. intros Hf Hq. apply existsb_exists. exists f. split; assumption. Qed.

(* a plain message: dispatched on the session s0 that the gap check leaves (s itself, or s with the resend asked for),
   then finalized if it was in sequence *)
Lemma dispatched_effect t d m s s0 o0 s1 o1 :
  up s -> plain m = true -> up s0 -> s_hb s0 = s_hb s -> s_mlt s0 = s_mlt s -> s_id s0 = s_id s ->
  existsb is_testreq o0 = false -> dispatch m s0 = (s1, o1) ->
  effect s (Recv t d m) (if d =? 0 then finalize t 1 s1 else s1) (o0 ++ o1).
Proof.
  intros U Hp [Hc Hs] Hh Hm Hi O0 D. apply dispatch_cases in D; [|exact Hs]. destruct D as [O1 D].
  assert (O : existsb is_testreq (o0 ++ o1) = false) by (rewrite existsb_app, O0, O1; reflexivity).
  assert (R : refresh (Recv t d m) = (d =? 0)) by (destruct m; try discriminate Hp; apply andb_true_r).
  destruct (finalize_keeps (d =? 0) t 1 s1) as (F1 & F2 & F3 & F4 & F5).
  destruct D as [-> | [[-> A] | ->]].
  - apply (eff_recv _ _ _ _ t d m); unfold up; rewrite ?R, ?F1, ?F2, ?F3, ?F4, ?F5, ?Hm; auto.
  - apply (eff_recv _ _ _ _ t d m); unfold up; rewrite ?R, ?F1, ?F2, ?F3, ?F4, ?F5; cbn [set_id s_mlt s_id]; rewrite ?Hm; auto.
    right. rewrite <- Hi. auto.
  - apply eff_drop; [apply U | rewrite F2; reflexivity | rewrite F1; exact Hh | auto].
Qed.

Lemma recv_effect t d m s s' o : up s -> 0 <= d -> recv t d m s = (s', o) -> effect s (Recv t d m) s' o.
Proof.
  intros U Hd E. destruct (plain m) eqn:Hp.
  - rewrite recv_up in E by assumption. cbv zeta in E.
    destruct (dispatch m _) as [s1 o1] eqn:D in E. inversion E.
    eapply dispatched_effect; [exact U | exact Hp | .. | exact D]; destruct U; destruct (_ && _); repeat split; auto.
  - destruct m as [| | | nw]; try discriminate Hp.
    rewrite recv_gapfill_up in E by assumption. destruct (refresh _) eqn:R; inversion E; [|apply eff_idle; auto].
    destruct (finalize_keeps true t nw s) as (F1 & F2 & F3 & F4 & F5), U as [Hc Hs].
    apply (eff_recv _ _ _ _ t d (MGapFill nw)); unfold up; rewrite ?R, ?F2, ?F5; auto.
Qed.

Lemma step_effect s e s' o : step s e = (s', o) -> effect s e s' o.
Proof.
  destruct e as [t | t d m | t | t rid]; cbn [step]; intro E.
  - destruct (s_conn s) eqn:Hc; [|rewrite tick_off in E by assumption; inversion E; apply eff_idle; auto].
    assert (W : watchdog t s [] = (s', o) -> effect s (Tick t) s' o).
    { destruct (watchdog_cases t s []) as [W | [_ W]]; rewrite W; intro X; inversion X; [apply eff_idle; auto|].
      apply eff_drop; auto. }
    rewrite tick_eq in E by assumption. destruct (session_up s && _) eqn:P; [|auto].
    destruct (s_id s) as [n|] eqn:Hi; [destruct (n =? 0); [inversion E; apply eff_idle|]; auto|].
    assert (U : up s) by (unfold up; lia).
    destruct (watchdog_cases t (probing_of s t) [testreq_frame (t / 1000)]) as [W1 | [_ W1]];
      rewrite W1 in E; inversion E; [apply (eff_probe _ _ _ _ t); auto|].
    apply eff_drop; auto.
  - destruct (recv_guard t d m s) as [[U Hd] | [N R]]; [apply recv_effect; assumption|].
    apply eff_idle; [| | intro U; apply N in U; unfold refresh; destruct (d =? 0) eqn:Q; [lia | reflexivity]];
      destruct R as [R | R]; rewrite R in E; inversion E; reflexivity.
  - unfold app_probe in E. destruct (s_id s) eqn:Hi; [inversion E; apply eff_idle; auto|].
    destruct (negb (s_conn s) || _) eqn:G; [|destruct (session_up s) eqn:Hs]; inversion E;
      apply (eff_app_probe _ _ _ _ t); auto.
    left. unfold up. split; [lia | reflexivity].
  - unfold app_raw in E.
    destruct (negb (s_conn s) || _) eqn:G, (session_up s) eqn:Hs, (s_id s) as [n|] eqn:Hi;
      try (inversion E; apply eff_idle; auto; fail).
    destruct (str_eqb rid (z_to_dec n)) eqn:Q; inversion E; [|apply eff_idle; auto].
    apply str_eqb_eq in Q. subst. apply (eff_app_raw _ _ _ _ t n); auto. split; [lia | exact Hs].
Qed.

Lemma dead_step s e s' o :
  s_conn s = false -> step s e = (s', o) -> existsb is_testreq o = false /\ s_conn s' = false.
Proof.
  intros Hc E.
  destruct (step_effect s e s' o E) as [-> Ho _ | C | t _ [C _] | t _ Hi -> [[[C _] _] | Ho] | t n _ [C _] | t d m _ [C _]];
    try congruence.
  - (* nothing happens *) auto.
  - (* the application probes: only the id is set, and nothing is written without a connection *) auto.
Qed.

Lemma conn_step s e s' o : step s e = (s', o) -> s_conn s' = true -> s_conn s = true.
Proof.
  intros E H. destruct (s_conn s) eqn:C; [reflexivity|].
  destruct (dead_step s e s' o C E) as [_ X]. congruence.
Qed.

(* a TestRequest frame that is written carries the id that is outstanding afterwards, and no other id was
   outstanding before (send_msg lets only the pending id through) *)
Lemma frame_step s e s' o f :
  step s e = (s', o) -> In f o -> is_testreq f = true ->
  exists n, f = testreq_frame n /\ (s_id s = None \/ s_id s = Some n) /\ (s_id s' = Some n \/ s_conn s' = false).
Proof.
  intros E Hf Hq. pose proof (frame_written o f Hf Hq) as W.
  destruct (step_effect s e s' o E) as [_ Ho _ | _ C _ [Ho | [Hi ->]] | t _ _ Hi -> -> | t _ Hi -> [[_ ->] | Ho] | t n _ _ Hi -> -> | t d m _ _ _ _ _ _ Ho];
    try congruence.
  - (* probe and drop in one iteration *) destruct Hf as [<- | [<- | []]]; [eauto 6 | discriminate Hq].
  - (* watchdog probe *) destruct Hf as [<- | []]. eauto 6.
  - (* application probe *) destruct Hf as [<- | []]. eauto 6.
  - (* the pending id repeated by the application *) destruct Hf as [<- | []]. eauto 6.
Qed.

(* an outstanding id survives unless a Heartbeat echoing it arrives (in sequence or behind a gap) or the
   connection is dropped *)
Lemma pending_step s e n s' o :
  s_id s = Some n -> step s e = (s', o) ->
  s_id s' = Some n \/ s_conn s' = false \/ exists ta da v, e = Recv ta da (MHeartbeat (Some v)) /\ parse_id v = n.
Proof.
  intros Hi E.
  destruct (step_effect s e s' o E) as [| | | | | t d m -> _ _ _ _ [Q | [_ (v & -> & Q)]] _]; subst; auto; try congruence.
  - left. congruence.
  - right; right. exists t, d, v. split; congruence.
Qed.

Lemma ok_step hb s e s' o : ok hb s -> step s e = (s', o) -> ok hb s'.
Proof.
  intros [Hh Hs] E. unfold ok.
  destruct (step_effect s e s' o E) as [-> _ _ | _ C -> _ | t _ [_ U] _ -> _ | t _ _ -> _ | t k _ _ _ -> _ | t d m _ _ [_ U] -> _ _ _].
  - (* nothing happens *) auto.
  - (* dropped: no longer connected *) split; [assumption | congruence].
  - (* probe, application probe, repeated id: state number, hb and connection are untouched *) auto.
  - auto.
  - auto.
  - (* message read: hb is kept and the session is still logged on *) auto.
Qed.

(* the time at which the watchdog wrote a probe in this row *)
Definition probe_row (r : row) : option Z :=
  match r_ev r with
  | Tick t => if writes_testreq r then Some t else None
  | _ => None
  end.

Definition new_clock (e : ev) (o : list out) (last : Z) : Z :=
  match e with
  | Tick t => if existsb is_testreq o then t else last
  | Recv t _ _ => if refresh e then t else last
  | _ => last
  end.

(* the last-message clock of a session that stays connected: restarted by every message that is finalized and by
   every TestRequest the watchdog writes *)
Lemma clock_step hb s e s' o :
  ok hb s -> step s e = (s', o) -> s_conn s' = true -> up s /\ s_mlt s' = new_clock e o (s_mlt s).
Proof.
  intros [_ Hs] E C'. assert (U : up s) by (split; [|apply Hs]; apply (conn_step s e s' o E C')).
  split; [exact U|].
  destruct (step_effect s e s' o E) as [-> Ho R | | | | |]; subst; try reflexivity; try congruence; try assumption.
  destruct e; cbn [new_clock]; rewrite ?Ho, ?(R U); reflexivity.
Qed.

(* where an outstanding id comes from: it was there before, or the watchdog wrote the probe in this very step *)
Lemma id_origin_step s e s' o n :
  is_app_probe e = false -> step s e = (s', o) -> s_conn s' = true -> s_id s' = Some n ->
  s_id s = Some n \/ exists t, probe_row (mkRow e o s') = Some t /\ n = t / 1000.
Proof.
  intros Ha E C' Hn.
  destruct (step_effect s e s' o E) as [| | t | | | t d m ? ? ? ? ? [Q | [Q _]]]; subst; auto; try congruence;
    try discriminate Ha.
  - right. exists t. split; [reflexivity | inversion Hn; reflexivity].
  - left. congruence.
Qed.

(* a Heartbeat echoing the outstanding id clears it - in sequence or BEHIND A GAP *)
Lemma answer_clears s ta d v s' o :
  up s -> 0 <= d -> s_id s = Some (parse_id v) ->
  step s (Recv ta d (MHeartbeat (Some v))) = (s', o) -> s_id s' = None.
Proof.
  intros U Hd Hi E. cbn [step] in E. rewrite recv_up in E by (assumption || reflexivity). cbv zeta in E.
  rewrite dispatch_answer in E by (destruct (_ && _); exact Hi).
  inversion E. apply (finalize_keeps (d =? 0)).
Qed.

Fixpoint sorted (evs : list ev) : Prop :=
  match evs with
  | [] => True
  | e :: r => (forall e', In e' r -> ev_time e <= ev_time e') /\ sorted r
  end.

Definition wd_disconnect (r : row) : Prop := is_tick (r_ev r) = true /\ In ODisconnect (r_out r).

(* (A) the clock form.  The clock is restarted by every message that is finalized (in sequence; a SequenceReset
   counts when NewSeqNo moves forward) and by every TestRequest the watchdog writes.  A peer for which no watchdog
   iteration finds the clock more than 2 hb s old is never dropped - whether or not it answers TestRequests. *)
Fixpoint clock_ok (hb last : Z) (tr : list row) : Prop :=
  match tr with
  | [] => True
  | r :: rest =>
      match r_ev r with Tick t => t - last <= 2 * hb * 1000 | _ => True end
      /\ clock_ok hb (new_clock (r_ev r) (r_out r) last) rest
  end.

Lemma new_clock_cases e o a : new_clock e o a = a \/ new_clock e o a = ev_time e.
Proof. destruct e; cbn [new_clock ev_time]; auto; [destruct (existsb _ _) | destruct (refresh _)]; auto. Qed.

(* no hypothesis on the outstanding id or on the times: the epoch quirk (id 0) makes the loop spin, not disconnect *)
Lemma clock_no_wd hb evs : forall s last,
  0 <= hb -> ok hb s -> (s_conn s = true -> last <= s_mlt s) -> clock_ok hb last (trace s evs) ->
  Forall (fun r => ~ wd_disconnect r) (trace s evs).
Proof.
  induction evs as [|e evs IH]; intros s last Hhb Hok HP HC; [constructor|].
  cbn [trace] in *. destruct (step s e) as [s' o] eqn:E.
  cbn [clock_ok r_ev r_out] in HC. destruct HC as [H0 HC].
  constructor.
  - intros [Htick Hdisc]. cbn [r_ev r_out] in Htick, Hdisc.
    destruct e as [t | | |]; try discriminate Htick.
    destruct (drop_reason hb s t s' o Hhb Hok E Hdisc) as [Hc [n [_ Hold]]]. specialize (HP Hc). lia.
  - apply (IH s' (new_clock e o last)); try assumption; [eapply ok_step; eassumption|].
    intro Hc'. destruct (clock_step hb s e s' o Hok E Hc') as [[Hc _] ->]. specialize (HP Hc).
    destruct e; cbn [new_clock]; try assumption; [destruct (existsb _ _) | destruct (refresh _)]; lia.
Qed.

(* (B) the answering form.  Every TestRequest the watchdog writes at time t (id t/1000) is answered later in the run
   by a Heartbeat echoing the id - numbered in sequence or behind a gap - that arrives no later than t + 2 hb s. *)
Definition is_answer (hb n dl : Z) (r : row) : Prop :=
  exists ta da v, r_ev r = Recv ta da (MHeartbeat (Some v)) /\ 0 <= da /\ parse_id v = n
                  /\ ta <= dl + 2 * hb * 1000.

Fixpoint answers (hb : Z) (tr : list row) : Prop :=
  match tr with
  | [] => True
  | r :: rest =>
      (forall t, probe_row r = Some t -> exists r', In r' rest /\ is_answer hb (t / 1000) t r')
      /\ answers hb rest
  end.

Definition pending_ok (hb : Z) (s : st) (tr : list row) : Prop :=
  s_conn s = true -> forall n, s_id s = Some n -> exists r, In r tr /\ is_answer hb n (s_mlt s) r.

Lemma probe_row_clock r t last : probe_row r = Some t -> new_clock (r_ev r) (r_out r) last = t.
Proof.
  unfold probe_row, writes_testreq, new_clock. destruct (r_ev r); try discriminate.
  destruct (existsb _ _); congruence.
Qed.

Lemma answering_no_wd hb evs : forall s,
  0 <= hb -> ok hb s -> sorted evs -> Forall (fun e => is_app_probe e = false) evs ->
  (s_conn s = true -> Forall (fun e => s_mlt s <= ev_time e) evs) ->
  answers hb (trace s evs) -> pending_ok hb s (trace s evs) ->
  Forall (fun r => ~ wd_disconnect r) (trace s evs).
Proof.
  induction evs as [|e evs IH]; intros s Hhb Hok Hso Hna Hml Han Hpe; [constructor|].
  cbn [trace] in *. destruct (step s e) as [s' o] eqn:E.
  destruct Hso as [Hhd Hso], Han as [Hprobe Han]. inversion Hna as [|? ? Ha Hna']; subst.
  constructor.
  - (* the head row is not a watchdog disconnect: the answer to the outstanding probe is still to come *)
    intros [Htick Hdisc]. cbn [r_ev r_out] in Htick, Hdisc.
    destruct e as [t | | |]; try discriminate Htick.
    destruct (drop_reason hb s t s' o Hhb Hok E Hdisc) as [Hc [n [Hn Hlate]]].
    destruct (Hpe Hc n Hn) as [r [[Hr | Hr] (ta & da & v & Hev & Hda & Hpar & Hdl)]].
    + subst r. discriminate Hev.
    + apply (in_map r_ev) in Hr. rewrite trace_ev in Hr. specialize (Hhd _ Hr). rewrite Hev in Hhd. cbn [ev_time] in Hhd. lia.
  - (* a session that stays connected: its clock stays where it was or moves to this event *)
    assert (K : s_conn s' = true ->
                up s /\ s_mlt s' = new_clock e o (s_mlt s) /\ s_mlt s <= s_mlt s'
                /\ Forall (fun e' => s_mlt s' <= ev_time e') evs).
    { intro Hc'. destruct (clock_step hb s e s' o Hok E Hc') as [U M].
      specialize (Hml (proj1 U)). inversion Hml as [|? ? Hm0 Hml']; subst.
      split; [exact U|]. split; [exact M|]. rewrite M.
      destruct (new_clock_cases e o (s_mlt s)) as [-> | ->]; (split; [lia|]); [assumption|].
      apply Forall_forall. exact Hhd. }
    apply IH; try assumption; [eapply ok_step; eassumption | apply K |].
    intros Hc' n Hn. destruct (K Hc') as (U & M & Hle & _).
    destruct (id_origin_step s e s' o n Ha E Hc' Hn) as [Hold | [t [Hp Hnt]]].
    + destruct (Hpe (proj1 U) n Hold) as [r [[Hr | Hr] (ta & da & v & Hev & Hda & Hpar & Hdl)]].
      * (* the answer would be this very step: then the id is cleared *)
        subst r. cbn [r_ev] in Hev. subst e n.
        pose proof (answer_clears s ta da v s' o U Hda Hold E). congruence.
      * exists r. split; [assumption|]. exists ta, da, v. repeat split; try assumption. lia.
    + subst n. rewrite M, (probe_row_clock _ t _ Hp). apply Hprobe, Hp.
Qed.

Definition idle_at (s : st) (hb t0 : Z) : Prop :=
  live s /\ s_hb s = hb /\ s_id s = None /\ s_mlt s = t0 /\ s_gap s = 0.

(* traffic at most hb - 1 s apart: the watchdog emits nothing at all *)
Fixpoint fed (G last : Z) (evs : list ev) : Prop :=
  match evs with
  | [] => True
  | Tick t :: r => t - last <= G /\ fed G last r
  | Recv t d m :: r => d = 0 /\ plain m = true /\ fed G t r
  | AppProbe _ :: _ => False
  | AppRaw _ _ :: r => fed G last r
  end.

Lemma fed_rows hb G evs : forall s t0,
  0 <= hb -> G <= (hb - 1) * 1000 -> idle_at s hb t0 -> fed G t0 evs ->
  Forall (fun r => (is_tick (r_ev r) = true -> r_out r = []) /\ ~ In ODisconnect (r_out r) /\ writes_testreq r = false)
         (trace s evs).
Proof.
  induction evs as [|e evs IH]; intros s t0 Hhb HG I F; [constructor|].
  pose proof I as (L & Hh & Hi & Hm & Hg).
  destruct e as [t | t d m | t | t rid]; cbn [fed] in F; cbn [trace step].
  - rewrite (tick_idle t s hb t0 (conj (live_up s L) (conj Hh (conj Hi Hm))) Hhb) by lia.
    constructor; [cbn; auto | apply (IH s t0); tauto].
  - destruct F as (-> & Hp & F). rewrite recv_live_eq by assumption.
    (* nothing is outstanding, so the dispatch at most answers a TestRequest *)
    assert (D : exists o, dispatch m s = (s, o) /\ ~ In ODisconnect o /\ existsb is_testreq o = false).
    { destruct m as [[v|] | r | |]; [| | | | discriminate Hp]; cbn [dispatch]; rewrite ?Hi;
        eexists; (split; [reflexivity|]); cbn; intuition discriminate. }
    destruct D as (o & -> & D). constructor; [split; [discriminate | exact D]|].
    apply (IH _ t); try assumption. repeat split; try apply L; assumption.
  - destruct F.
  - replace (app_raw t rid s) with (s, [ORaise])
      by (destruct L as [Hc Hs]; unfold app_raw, session_up; rewrite Hc, Hs, Hi; reflexivity).
    constructor; [cbn; intuition discriminate | apply (IH s t0); assumption].
Qed.

Lemma dead_silent evs : forall s r f,
  s_conn s = false -> In r (trace s evs) -> In f (r_out r) -> is_testreq f = false.
Proof.
  induction evs as [|e evs IH]; intros s r f Hc Hin Hf; [destruct Hin|].
  cbn [trace] in Hin. destruct (step s e) as [s' o] eqn:E.
  destruct (dead_step s e s' o Hc E) as [W C], Hin as [<- | Hr]; [|eauto].
  destruct (is_testreq f) eqn:Q; [|reflexivity]. cbn [r_out] in Hf. rewrite (frame_written o f Hf Q) in W. discriminate W.
Qed.

(* a Heartbeat echoing id n was received in a row whose index satisfies P *)
Definition echoed (n : Z) (tr : list row) (P : nat -> Prop) : Prop :=
  exists j rj ta da v, P j /\ nth_error tr j = Some rj /\ r_ev rj = Recv ta da (MHeartbeat (Some v)) /\ parse_id v = n.

Lemma echoed_cons n r tr (P Q : nat -> Prop) : (forall j, P j -> Q (S j)) -> echoed n tr P -> echoed n (r :: tr) Q.
Proof. intros H (j & rj & ta & da & v & Hj & Hr). exists (S j), rj, ta, da, v. split; [apply H, Hj | exact Hr]. Qed.

(* while id n is outstanding, a TestRequest frame carries n unless a Heartbeat echoing n came first *)
Lemma pending_blocks evs : forall s n k rk f,
  s_id s = Some n ->
  nth_error (trace s evs) k = Some rk -> In f (r_out rk) -> is_testreq f = true ->
  f = testreq_frame n \/ echoed n (trace s evs) (fun j => (j < k)%nat).
Proof.
  induction evs as [|e evs IH]; intros s n k rk f Hi Hk Hf Hq; [destruct k; discriminate Hk|].
  cbn [trace] in *. destruct (step s e) as [s' o] eqn:E.
  destruct k as [|k].
  - cbn in Hk. inversion Hk; subst rk. left.
    destruct (frame_step s e s' o f E Hf Hq) as (n' & -> & [Q | Q] & _); congruence.
  - cbn [nth_error] in Hk.
    destruct (pending_step s e n s' o Hi E) as [Hsame | [Hdead | (ta & da & v & He & Hp)]].
    + destruct (IH s' n k rk f Hsame Hk Hf Hq) as [Q | Q]; [left; exact Q | right].
      apply (echoed_cons n _ _ (fun j => (j < k)%nat)); [lia | exact Q].
    + rewrite (dead_silent evs s' rk f Hdead (nth_error_In _ _ Hk) Hf) in Hq. discriminate Hq.
    + right. exists 0%nat, (mkRow e o s'), ta, da, v. repeat split; try assumption. lia.
Qed.

(* at most one TestReqID outstanding: of two TestRequest frames the later one repeats the id of the earlier one unless
   a Heartbeat echoing that id was received in between - application calls of send_msg included.  In any state, at
   any times. *)
Lemma single_outstanding evs : forall s i k ri rk fi fk,
  (i < k)%nat ->
  nth_error (trace s evs) i = Some ri -> nth_error (trace s evs) k = Some rk ->
  In fi (r_out ri) -> is_testreq fi = true -> In fk (r_out rk) -> is_testreq fk = true ->
  exists n, fi = testreq_frame n /\ (fk = fi \/ echoed n (trace s evs) (fun j => (i < j < k)%nat)).
Proof.
  induction evs as [|e evs IH]; intros s i k ri rk fi fk Hik Hi Hk Hfi Hqi Hfk Hqk; [destruct i; discriminate Hi|].
  cbn [trace] in *. destruct (step s e) as [s' o] eqn:E.
  destruct k as [|k]; [lia|]. cbn [nth_error] in Hk.
  destruct i as [|i].
  - cbn in Hi. inversion Hi; subst ri. cbn [r_out] in Hfi.
    destruct (frame_step s e s' o fi E Hfi Hqi) as (n & Hfn & _ & [Hnew | Hdead]).
    + exists n. split; [assumption|].
      destruct (pending_blocks evs s' n k rk fk Hnew Hk Hfk Hqk) as [Q | Q]; [left; congruence | right].
      apply (echoed_cons n _ _ (fun j => (j < k)%nat)); [lia | exact Q].
    + rewrite (dead_silent evs s' rk fk Hdead (nth_error_In _ _ Hk) Hfk) in Hqk. discriminate Hqk.
  - cbn [nth_error] in Hi.
    destruct (IH s' i k ri rk fi fk ltac:(lia) Hi Hk Hfi Hqi Hfk Hqk) as [n [Hfn [Q | Q]]];
      exists n; (split; [assumption|]); [left; exact Q | right].
    apply (echoed_cons n _ _ (fun j => (i < j < k)%nat)); [lia | exact Q].
Qed.

(* merge of a tick train and a train of messages, time ordered, ticks first at equal times *)
Fixpoint merge_fuel (fuel : nat) (a b : list ev) : list ev :=
  match fuel with
  | O => []
  | S f =>
      match a, b with
      | [], _ => b
      | _, [] => a
      | x :: a', y :: b' =>
          if ev_time x <=? ev_time y then x :: merge_fuel f a' b else y :: merge_fuel f a b'
      end
  end.
Definition merge (a b : list ev) : list ev := merge_fuel (length a + length b) a b.

Fixpoint app_msgs (t period : Z) (k : nat) : list ev :=
  match k with O => [] | S k' => Recv t 0 MApp :: app_msgs (t + period) period k' end.

Definition active0 (hb t0 : Z) : st := mkSt ST_ACTIVE hb t0 None true 0.

Lemma active0_ok hb t0 : ok hb (active0 hb t0).
Proof. split; [reflexivity | intros _; reflexivity]. Qed.

(* sortedness checked on neighbours (linear, where the definition compares every pair) *)
Fixpoint ascb (evs : list ev) : bool :=
  match evs with
  | e :: (e' :: _) as r => (ev_time e <=? ev_time e') && ascb r
  | _ => true
  end.

Lemma ascb_sorted evs : ascb evs = true -> sorted evs.
Proof.
  induction evs as [|e r IH]; intro H; [exact I|].
  destruct r as [|e' r]; [split; [intros x [] | exact I]|].
  cbn [ascb] in H. apply andb_true_iff in H. destruct H as [A B]. specialize (IH B).
  split; [|exact IH]. intros x [<- | Hx]; [lia|]. pose proof (proj1 IH x Hx). lia.
Qed.

(* maximal pause of valid inbound traffic before any event of the run (boolean form) *)
Fixpoint gap_le (G last : Z) (evs : list ev) : bool :=
  match evs with
  | [] => true
  | Recv t _ _ :: r => (t - last <=? G) && gap_le G t r
  | e :: r => (ev_time e - last <=? G) && gap_le G last r
  end.

Definition only_app (evs : list ev) : bool :=
  forallb (fun e => match e with Tick _ | Recv _ 0 MApp => true | _ => false end) evs.

Fixpoint clock_okb (hb last : Z) (tr : list row) : bool :=
  match tr with
  | [] => true
  | r :: rest =>
      match r_ev r with Tick t => t - last <=? 2 * hb * 1000 | _ => true end
      && clock_okb hb (new_clock (r_ev r) (r_out r) last) rest
  end.

Lemma clock_okb_ok hb tr : forall last, clock_okb hb last tr = true -> clock_ok hb last tr.
Proof.
  induction tr as [|r rest IH]; intros last H; [exact I|].
  cbn [clock_okb] in H. apply andb_true_iff in H. destruct H as [A B]. cbn [clock_ok]. split; [|auto].
  destruct (r_ev r); try exact I. lia.
Qed.

Fixpoint answersb (hb : Z) (tr : list row) : bool :=
  match tr with
  | [] => true
  | r :: rest =>
      match probe_row r with
      | Some t =>
          existsb (fun r' => match r_ev r' with
                             | Recv ta da (MHeartbeat (Some v)) =>
                                 (0 <=? da) && (parse_id v =? t / 1000) && (ta <=? t + 2 * hb * 1000)
                             | _ => false end) rest
      | None => true
      end && answersb hb rest
  end.

Lemma answersb_ok hb tr : answersb hb tr = true -> answers hb tr.
Proof.
  induction tr as [|r rest IH]; intro H; [exact I|].
  cbn [answersb] in H. apply andb_true_iff in H. destruct H as [A B]. split; [|auto].
  intros t Ht. rewrite Ht in A. apply existsb_exists in A. destruct A as [r' [Hin Hr']].
  exists r'. split; [assumption|].
  destruct (r_ev r') as [| ta da [[v|] | | |] | |] eqn:Ev; try discriminate.
  exists ta, da, v. split; [exact Ev|]. repeat split; lia.
Qed.

(* D19, hb = 30, repaired: application traffic every 29.5 s, never a pause above one interval; the probe written at
   +29.25 s is never answered - and the peer is NOT dropped, because the clock never gets 2 hb s old *)
Definition d19_evs : list ev := merge (ticks 1000000250 150) (app_msgs 1000029500 29500 5).

Lemma active0_clock hb t0 evs :
  0 <= hb -> clock_ok hb t0 (trace (active0 hb t0) evs) ->
  Forall (fun r => ~ wd_disconnect r) (trace (active0 hb t0) evs).
Proof. intros Hhb C. apply (clock_no_wd hb evs _ t0); [assumption | apply active0_ok | intros _; apply Z.le_refl | exact C]. Qed.

Example unanswered_probe_spared :
  sorted d19_evs /\ only_app d19_evs = true /\ gap_le (30 * 1000) 1000000000 d19_evs = true
  /\ clock_ok 30 1000000000 (trace (active0 30 1000000000) d19_evs)
  /\ (length (filter writes_testreq (trace (active0 30 1000000000) d19_evs)) = 1)%nat
  /\ Forall (fun r => ~ wd_disconnect r) (trace (active0 30 1000000000) d19_evs).
Proof.
  set (tr := trace (active0 30 1000000000) d19_evs).
  assert (T : clock_okb 30 1000000000 tr = true /\ length (filter writes_testreq tr) = 1%nat)
    by (vm_compute; split; reflexivity).
  destruct T as [C L]. apply clock_okb_ok in C.
  split; [apply ascb_sorted; vm_compute; reflexivity|].
  split; [vm_compute; reflexivity|]. split; [vm_compute; reflexivity|]. split; [exact C|]. split; [exact L|].
  apply active0_clock; [lia | exact C].
Qed.

(* hb = 1 (probe threshold 0): traffic every 0.5 s, probed at the first iteration, never answered, not dropped *)
Definition d19_hb1_evs : list ev := merge (ticks 1000000250 8) (app_msgs 1000000500 500 15).

Example unanswered_probe_hb1_spared :
  sorted d19_hb1_evs /\ only_app d19_hb1_evs = true /\ gap_le 500 1000000000 d19_hb1_evs = true
  /\ (length (filter writes_testreq (trace (active0 1 1000000000) d19_hb1_evs)) = 1)%nat
  /\ Forall (fun r => ~ wd_disconnect r) (trace (active0 1 1000000000) d19_hb1_evs).
Proof.
  set (tr := trace (active0 1 1000000000) d19_hb1_evs).
  assert (T : clock_okb 1 1000000000 tr = true /\ length (filter writes_testreq tr) = 1%nat)
    by (vm_compute; split; reflexivity).
  destruct T as [C L].
  split; [apply ascb_sorted; vm_compute; reflexivity|].
  split; [vm_compute; reflexivity|]. split; [vm_compute; reflexivity|]. split; [exact L|].
  apply active0_clock; [lia | apply clock_okb_ok, C].
Qed.

(* the TESTREQUEST gate of send_msg, repaired: while the watchdog's probe 1000005 is outstanding an application
   TestRequest with another id is refused; one repeating the pending id is let through *)
Definition raw_evs : list ev :=
  ticks 1000000000 6 ++ [AppRaw 1000006000 [88; 49]%N; AppRaw 1000006500 [49; 48; 48; 48; 48; 48; 53]%N].

Example raw_testrequest_refused :
  map r_out (skipn 5 (trace (active0 5 1000000000) raw_evs)) =
  [[testreq_frame 1000005]; [ORaise]; [testreq_frame 1000005]].
Proof. vm_compute. reflexivity. Qed.

(* hb = 30, first iteration at +0.25 s: k = 29 quiet iterations, probe at +29.25 s, m = 60 more, dropped at +90.25 s *)
Example dead_peer_instance :
  outs (active0 30 1000000000) (ticks 1000000250 (29 + 1 + (60 + 1))) =
    repeat [] 29 ++ [[testreq_frame 1000029]] ++ repeat [] 60 ++ [[ODisconnect]]
  /\ final (active0 30 1000000000) (ticks 1000000250 (29 + 1 + (60 + 1))) = dead_st 30.
Proof.
  pose proof (dead_peer_run 30 (active0 30 1000000000) 1000000000 1000000250 29 60
                ltac:(lia) ltac:(repeat split; reflexivity) ltac:(lia)
                ltac:(split; [vm_compute; discriminate | vm_compute; reflexivity])
                ltac:(reflexivity)) as (A & B & _).
  split; [exact A | exact B].
Qed.

(* a peer that answers: silent but for a Heartbeat echoing each probe 50 s after it (hb = 30, two probe cycles) *)
Definition answering_evs : list ev :=
  merge (ticks 1000000250 170)
        [Recv 1000079250 0 (MHeartbeat (Some [49;48;48;48;48;50;57]%N));
         Recv 1000158250 0 (MHeartbeat (Some [49;48;48;48;49;48;57]%N))].

Lemma active0_answers hb t0 evs :
  0 <= hb -> sorted evs -> forallb (fun e => negb (is_app_probe e) && (t0 <=? ev_time e)) evs = true ->
  answers hb (trace (active0 hb t0) evs) ->
  Forall (fun r => ~ wd_disconnect r) (trace (active0 hb t0) evs).
Proof.
  intros Hhb S F A. rewrite forallb_forall in F.
  apply (answering_no_wd hb); try assumption; [apply active0_ok | | intros _ | intros _ n Hn; discriminate Hn];
    apply Forall_forall; intros e He; specialize (F e He); cbn [active0 s_mlt]; lia.
Qed.

Example live_peer_nonvacuous :
  sorted answering_evs /\ answers 30 (trace (active0 30 1000000000) answering_evs)
  /\ (length (filter writes_testreq (trace (active0 30 1000000000) answering_evs)) = 2)%nat
  /\ Forall (fun r => ~ wd_disconnect r) (trace (active0 30 1000000000) answering_evs).
Proof.
  set (tr := trace (active0 30 1000000000) answering_evs).
  assert (T : answersb 30 tr = true /\ length (filter writes_testreq tr) = 2%nat) by (vm_compute; split; reflexivity).
  destruct T as [A L]. apply answersb_ok in A.
  assert (S : sorted answering_evs) by (apply ascb_sorted; vm_compute; reflexivity).
  split; [exact S|]. split; [exact A|]. split; [exact L|].
  apply active0_answers; [lia | exact S | vm_compute; reflexivity | exact A].
Qed.

(* hb = 30: the probe written at +29.25 s is answered at +31 s by a Heartbeat numbered one above the expected
   number (the message before it was lost); the peer gap-fills at +33 s; the second probe (+62.25 s) is answered in
   sequence.  The answer behind the gap counts: the peer is never dropped. *)
Definition gap_answer_evs : list ev :=
  merge (ticks 1000000250 95)
        [Recv 1000031000 1 (MHeartbeat (Some [49;48;48;48;48;50;57]%N));
         Recv 1000033000 0 (MGapFill 2);
         Recv 1000070000 0 (MHeartbeat (Some [49;48;48;48;48;54;50]%N))].

Example answer_behind_gap_instance :
  sorted gap_answer_evs
  /\ answers 30 (trace (active0 30 1000000000) gap_answer_evs)
  /\ (2 <= length (filter writes_testreq (trace (active0 30 1000000000) gap_answer_evs)))%nat
  /\ Forall (fun r => ~ wd_disconnect r) (trace (active0 30 1000000000) gap_answer_evs).
Proof.
  set (tr := trace (active0 30 1000000000) gap_answer_evs).
  assert (T : answersb 30 tr = true /\ (2 <=? length (filter writes_testreq tr))%nat = true)
    by (vm_compute; split; reflexivity).
  destruct T as [A L]. apply answersb_ok in A. apply Nat.leb_le in L.
  assert (S : sorted gap_answer_evs) by (apply ascb_sorted; vm_compute; reflexivity).
  split; [exact S|]. split; [exact A|]. split; [exact L|].
  apply active0_answers; [lia | exact S | vm_compute; reflexivity | exact A].
Qed.

(* "a peer whose traffic is all behind an unfilled gap IS probed and, if it answers the probes, not dropped":
   hb = 30, an application message numbered +1 at +5 s opens the gap, which is never filled; the watchdog probes at
   +29.25, +59.25 and +89.25 s although the state is RESENDREQ_AWAITING; each probe is answered 1.75 s later by a
   Heartbeat numbered behind the gap; the peer is never dropped. *)
Definition gap_all_evs : list ev :=
  merge (ticks 1000000250 100)
        [Recv 1000005000 1 MApp;
         Recv 1000031000 2 (MHeartbeat (Some [49;48;48;48;48;50;57]%N));
         Recv 1000061000 3 (MHeartbeat (Some [49;48;48;48;48;53;57]%N));
         Recv 1000091000 4 (MHeartbeat (Some [49;48;48;48;48;56;57]%N))].

Definition behind_gapb (e : ev) : bool :=
  match e with Tick _ => true | Recv _ d _ => 0 <? d | _ => false end.

Example unfilled_gap_probed_and_spared :
  sorted gap_all_evs /\ forallb behind_gapb gap_all_evs = true
  /\ answers 30 (trace (active0 30 1000000000) gap_all_evs)
  /\ (length (filter writes_testreq (trace (active0 30 1000000000) gap_all_evs)) = 3)%nat
  /\ s_state (final (active0 30 1000000000) gap_all_evs) = ST_RESENDREQ_AWAITING
  /\ Forall (fun r => ~ wd_disconnect r) (trace (active0 30 1000000000) gap_all_evs).
Proof.
  set (tr := trace (active0 30 1000000000) gap_all_evs).
  assert (T : answersb 30 tr = true /\ length (filter writes_testreq tr) = 3%nat) by (vm_compute; split; reflexivity).
  destruct T as [A L]. apply answersb_ok in A.
  assert (S : sorted gap_all_evs) by (apply ascb_sorted; vm_compute; reflexivity).
  split; [exact S|]. split; [vm_compute; reflexivity|]. split; [exact A|].
  split; [exact L|]. split; [vm_compute; reflexivity|].
  apply active0_answers; [lia | exact S | vm_compute; reflexivity | exact A].
Qed.

Example traffic_instance :
  let evs := merge (ticks 1000000250 12) (app_msgs 1000004000 4000 3) in
  fed ((5 - 1) * 1000) 1000000000 evs
  /\ Forall (fun r => is_tick (r_ev r) = true -> r_out r = []) (trace (active0 5 1000000000) evs).
Proof.
  intro evs.
  assert (F : fed ((5 - 1) * 1000) 1000000000 evs) by (vm_compute; repeat split; discriminate).
  split; [exact F|].
  eapply Forall_impl; [|apply (fed_rows 5 ((5 - 1) * 1000) evs _ 1000000000); [lia | lia | repeat split; reflexivity | exact F]].
  intros r H. apply H.
Qed.
