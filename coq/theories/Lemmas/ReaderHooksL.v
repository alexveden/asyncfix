(* A dispatcher that raises loses nothing: what the raising pass leaves in the buffer, decoded by a later pass,
   completes exactly the deliveries of the pass whose dispatcher never raises. *)
From Coq Require Import ZArith NArith List Bool Lia.
From AF Require Import Base.Sx Py.Str Fix.Codec Fix.ReaderHooks.
From AF Require Lemmas.DecodeTotalL.
Import ListNotations.
Open Scope N_scope.

(* one iteration of reader_loop, written as reader_loop_h writes it *)
Lemma reader_loop_S : forall G bs f buf acc,
  reader_loop G bs (S f) buf acc =
  match decode G bs buf true with
  | Exc _ => (buf, rev acc, 1)
  | Ok (m, n, raw) =>
      let buf' := if (0 <? n)%Z then skipn (Z.to_nat n) buf else buf in
      match m with
      | Some m => reader_loop G bs f buf' ((m, match raw with Some r => r | None => [] end) :: acc)
      | None => if (0 <? n)%Z then reader_loop G bs f buf' acc else (buf', rev acc, 0)
      end
  end.
Proof. intros. cbn [reader_loop]. destruct (decode G bs buf true) as [[[[m|] n] [r|]]|]; reflexivity. Qed.

Theorem reader_loop_h_loses_nothing : forall raises G bs f buf acc b1 o1 s1,
  reader_loop_h raises G bs f buf acc = (b1, o1, s1) ->
  reader_loop G bs f buf acc = (b1, o1, s1)
  \/ exists f' b2 o2 s2, (f' <= f)%nat /\ s1 = 1 /\ reader_loop G bs f' b1 [] = (b2, o2, s2)
                         /\ reader_loop G bs f buf acc = (b2, o1 ++ o2, s2).
Proof.
  intros raises G bs f. induction f as [|f IH]; intros buf acc b1 o1 s1 H; [left; exact H|].
  (* where no dispatch raises, the two loops go on alike and the induction hypothesis applies with one more step *)
  assert (Step : forall buf' acc', reader_loop_h raises G bs f buf' acc' = (b1, o1, s1) ->
            reader_loop G bs f buf' acc' = (b1, o1, s1)
            \/ exists f' b2 o2 s2, (f' <= S f)%nat /\ s1 = 1 /\ reader_loop G bs f' b1 [] = (b2, o2, s2)
                                   /\ reader_loop G bs f buf' acc' = (b2, o1 ++ o2, s2)).
  { intros buf' acc' H'. destruct (IH _ _ _ _ _ H') as [L|[f' [b2 [o2 [s2 [Hle R]]]]]]; [left; exact L|].
    right. exists f', b2, o2, s2. split; [lia | exact R]. }
  cbn [reader_loop_h] in H. rewrite reader_loop_S.
  destruct (decode G bs buf true) as [[[[m|] n] raw]|e]; cbv zeta in *; [| |left; exact H].
  - destruct (raises (length acc)); [|apply Step; exact H].
    (* the dispatch raises: the rest of the never-raising pass is a pass over the buffer left behind *)
    right. injection H as -> <- <-. destruct (reader_loop G bs f b1 []) as [[b2 o2] s2] eqn:E2.
    exists f, b2, o2, s2. split; [lia|]. split; [reflexivity|]. split; [exact E2|]. rewrite DecodeTotalL.reader_loop_acc, E2. reflexivity.
  - destruct (0 <? n)%Z; [apply Step; exact H | left; exact H].
Qed.

(* refinement: a dispatcher that never raises is the model of Fix/Codec.v *)
Theorem reader_loop_h_never : forall raises G bs f buf acc,
  (forall k, raises k = false) -> reader_loop_h raises G bs f buf acc = reader_loop G bs f buf acc.
Proof.
  intros raises G bs f. induction f as [|f IH]; intros buf acc Hn; [reflexivity|].
  rewrite reader_loop_S. cbn [reader_loop_h]. destruct (decode G bs buf true) as [[[[m|] n] raw]|e]; [| |reflexivity].
  - rewrite Hn. apply IH. exact Hn.
  - destruct (0 <? n)%Z; [apply IH; exact Hn|reflexivity].
Qed.

(* ... and so are the read step and the fold over the reads *)
Lemma reader_run_h_never : forall raises G bs chunks done buf,
  (forall k, raises k = false) -> reader_run_h raises G bs done buf chunks = reader_run G bs buf chunks.
Proof.
  intros raises G bs chunks. induction chunks as [|c cs IH]; intros done buf Hn; [reflexivity|].
  cbn [reader_run_h reader_run]. unfold reader_step_h, reader_step.
  rewrite reader_loop_h_never by (intro k; apply Hn).
  destruct (reader_loop G bs _ (buf ++ c) []) as [[buf1 out1] st1]. rewrite (IH _ _ Hn). reflexivity.
Qed.
