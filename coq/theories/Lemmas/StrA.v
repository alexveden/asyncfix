(* The length of a join, utf-8 and bytes on ASCII text. *)
From Coq Require Import ZArith NArith List Bool Lia.
From AF Require Import Base.Sx Py.Str Py.Utf8 Fix.Framing Lemmas.StrB.
Import ListNotations.
Open Scope N_scope.

Lemma length_join sep ps :
  length (join sep ps) = (list_sum (map (@length N) ps) + length sep * (length ps - 1))%nat.
Proof.
  induction ps as [|p ps IH]; [cbn; lia|].
  destruct ps as [|p' ps].
  - cbn. lia.
  - rewrite join_cons by discriminate. rewrite !app_length, IH. cbn [map list_sum length].
    replace (S (length ps) - 1)%nat with (length ps) by lia.
    replace (S (S (length ps)) - 1)%nat with (S (length ps)) by lia.
    rewrite Nat.mul_succ_r. unfold list_sum. cbn [fold_right]. lia.
Qed.

Lemma utf8_ascii s : forallb (fun c => c <? 128) s = true -> utf8 s = Some s.
Proof.
  induction s as [|c s IH]; [reflexivity|]. cbn [forallb utf8]. rewrite andb_true_iff.
  intros [A B]. unfold utf8_cp. rewrite A, (IH B). reflexivity.
Qed.

Lemma ascii_is_byte s : forallb (fun c => c <? 128) s = true -> forallb is_byte s = true.
Proof.
  rewrite !forallb_forall. intros H c Hc. specialize (H c Hc). unfold is_byte.
  apply N.ltb_lt in H. apply N.ltb_lt. lia.
Qed.
