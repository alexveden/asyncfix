(* C18 - message containers behave as ordered tag maps with strict duplicate rules.
   The theorems (the lemmas they follow from are in AF.Lemmas.ContainerL).  They are about the executable model
   Fix/Container.v of asyncfix/message.py (FIXContainer, FIXMessage, the repeating group
   container); harness/c18.py runs that model against the implementation.

   A container is `C msg_type items`, items an insertion-ordered list (key string, value);
   `keys c = map fst (items c)`; mutating methods return (container afterwards, outcome).
   The model describes message.py with all repairs of ledger D18 applied: fixes/C18-*.patch (dict
   equality ignores the framing tags, add_group on a plain tag, get_group_by_index below -len,
   integer check of group tags) and fixes/R11-container-equality-is-structural.patch (== with a
   container compares content, not rendered text).  Every part of the property is stated at full
   strength; no `_partial` / `_refuted` theorem is left. *)
From Coq Require Import ZArith NArith List Bool.
From AF Require Import Lemmas.StrB Base.Sx Py.Str Fix.Container Fix.ContainerRun Lemmas.ContainerL.
From AFGen Require Import GenEnums.
Import ListNotations.
Open Scope N_scope.

(* ------------------------------------------------------------------ tags: one key per number *)

(* every method sees a tag only through str(tag): two spellings with the same text are the same tag *)
Theorem C18_spelling_independent : forall t1 t2,
  tag_str t1 = tag_str t2 ->
  (forall v r c, c_set t1 v r c = c_set t2 v r c) /\
  (forall d c, c_get t1 d c = c_get t2 d c) /\
  (forall c, c_del t1 c = c_del t2 c) /\
  (forall c, c_contains t1 c = c_contains t2 c) /\
  (forall c, c_is_group t1 c = c_is_group t2 c) /\
  (forall it idx c, c_add_group t1 it idx c = c_add_group t2 it idx c) /\
  (forall g c, c_set_group t1 g c = c_set_group t2 g c) /\
  (forall c, c_get_group_list t1 c = c_get_group_list t2 c) /\
  (forall idx c, c_get_group_by_index t1 idx c = c_get_group_by_index t2 idx c) /\
  (forall t gv c, c_get_group_by_tag t1 t gv c = c_get_group_by_tag t2 t gv c) /\
  (forall t gv c, c_get_group_by_tag t t1 gv c = c_get_group_by_tag t t2 gv c).
Proof.
  intros t1 t2 H.
  (* where the tag is the method's own, it enters only as tag_str t *)
  repeat (split; [intros; unfold c_get_group_by_tag, c_get_group_by_index, c_get_group_list, c_set_group,
                    c_add_group, c_is_group, c_contains, c_del, c_get, c_set, tag_ok; now rewrite H|]).
  (* the inner tag of get_group_by_tag is read by find_group, item by item *)
  intros t gv c. unfold c_get_group_by_tag.
  destruct (c_get_group_list t c); [now apply find_group_spelling|reflexivity].
Qed.
Print Assumptions C18_spelling_independent.

(* an int and its decimal string are the same tag *)
Theorem C18_int_is_decimal_string : forall z, tag_str (TInt z) = tag_str (TStr (z_to_dec z)).
Proof. reflexivity. Qed.
Print Assumptions C18_int_is_decimal_string.

(* every member of the FTag table regenerated from fixtags.py spells an accepted integer tag,
   the same one as the int and the decimal string of its number *)
Theorem C18_ftag_spelling : forall name v,
  In (name, v) ftag ->
  tag_str (TFTag name) = v /\ tag_ok (TFTag name) = true /\
  exists z, tag_str (TFTag name) = tag_str (TInt z) /\ tag_str (TFTag name) = tag_str (TStr (z_to_dec z)).
Proof.
  intros name v H. pose proof (proj1 (forallb_forall _ _) ftag_table_ok _ H) as G. cbn [fst snd] in G.
  apply andb_true_iff in G. destruct G as [G1 G2]. apply StrB.str_eqb_eq in G1. unfold tag_ok, key_ok, canonical in *.
  rewrite G1. destruct (py_int v) as [z|]; [|discriminate]. apply StrB.str_eqb_eq in G2.
  split; [reflexivity|]. split; [reflexivity|]. exists z. rewrite <- G2. split; reflexivity.
Qed.
Print Assumptions C18_ftag_spelling.

(* int tags are accepted (below CPython's 4300 digit limit of str/int) and distinct ints are distinct keys *)
Theorem C18_int_tag_accepted : forall z, (length (z_to_dec z) <= 4300)%nat -> tag_ok (TInt z) = true.
Proof. intros z L. unfold tag_ok, key_ok. cbn [tag_str]. now rewrite py_int_z_to_dec. Qed.
Print Assumptions C18_int_tag_accepted.

Theorem C18_int_tags_distinct : forall a b, tag_str (TInt a) = tag_str (TInt b) -> a = b.
Proof. exact z_to_dec_inj. Qed.
Print Assumptions C18_int_tags_distinct.

(* ------------------------------------------------------------------ set / get *)

(* a value read back is the string written, for any spelling of the tag and any default *)
Theorem C18_get_after_set : forall t t' s r d c c',
  c_set t (SVal s) r c = (c', Ok tt) -> tag_str t' = tag_str t -> c_get t' d c' = Ok (RvStr s).
Proof.
  intros t t' s r d c c' H E. apply set_inv in H. destruct H as [_ ->]. unfold c_get.
  now rewrite E, lookup_upd_same.
Qed.
Print Assumptions C18_get_after_set.

(* ... and no other tag is affected *)
Theorem C18_get_other_after_set : forall t t' v r d c c',
  c_set t v r c = (c', Ok tt) -> tag_str t' <> tag_str t -> c_get t' d c' = c_get t' d c.
Proof.
  intros t t' v r d c c' H E. apply set_inv in H. destruct H as [_ ->]. unfold c_get. now rewrite lookup_upd_other.
Qed.
Print Assumptions C18_get_other_after_set.

(* set succeeds on an integer tag that is new or when replacement is requested *)
Theorem C18_set_succeeds : forall t s r c,
  tag_ok t = true -> r = true \/ has (tag_str t) (items c) = false ->
  c_set t (SVal s) r c = (with_items c (assign (tag_str t) (VStr s) (items c)), Ok tt).
Proof. exact set_ok. Qed.
Print Assumptions C18_set_succeeds.

(* a refused set leaves the container unchanged; it is refused only for a non-integer tag
   (FIXMessageError) or an existing tag without replace (DuplicatedTagError) *)
Theorem C18_set_refused_unchanged : forall t v r c c' e,
  c_set t v r c = (c', Exc e) ->
  c' = c /\
  ((e = EFIXMessage /\ tag_ok t = false) \/
   (e = EDuplicatedTag /\ tag_ok t = true /\ r = false /\ has (tag_str t) (items c) = true
    /\ exists s, v = SVal s)).
Proof.
  intros t v r c c' e.
  unfold c_set. destruct (tag_ok t), v as [s|k x], r, (has (tag_str t) (items c)); intros [= <- <-]; eauto 8.
Qed.
Print Assumptions C18_set_refused_unchanged.

Theorem C18_nonint_tag_refused : forall t v r c, tag_ok t = false -> c_set t v r c = (c, Exc EFIXMessage).
Proof. intros t v r c H. unfold c_set. now rewrite H. Qed.
Print Assumptions C18_nonint_tag_refused.

Theorem C18_duplicate_refused : forall t s c,
  tag_ok t = true -> has (tag_str t) (items c) = true -> c_set t (SVal s) false c = (c, Exc EDuplicatedTag).
Proof. intros t s c T H. unfold c_set. now rewrite T, H. Qed.
Print Assumptions C18_duplicate_refused.

(* ------------------------------------------------------------------ order *)

(* replace=True rewrites the value where the key stands *)
Theorem C18_replace_in_place : forall t s c,
  tag_ok t = true -> has (tag_str t) (items c) = true ->
  exists l1 v0 l2,
    items c = l1 ++ (tag_str t, v0) :: l2 /\ ~ In (tag_str t) (map fst l1) /\
    c_set t (SVal s) true c = (with_items c (l1 ++ (tag_str t, VStr s) :: l2), Ok tt).
Proof.
  intros t s c T H. destruct (has_split _ _ H) as (l1 & v0 & l2 & A & N & B & _).
  exists l1, v0, l2. rewrite set_ok by auto. unfold upd. now rewrite B.
Qed.
Print Assumptions C18_replace_in_place.

Theorem C18_replace_keeps_order : forall t s c c',
  c_set t (SVal s) true c = (c', Ok tt) -> has (tag_str t) (items c) = true ->
  keys c' = keys c /\ mt c' = mt c /\
  forall k, lookup k (items c') = if str_eqb (tag_str t) k then Some (VStr s) else lookup k (items c).
Proof.
  intros t s c c' H E. apply set_inv in H. destruct H as [_ ->]. rewrite keys_upd, E.
  repeat split. intros k. apply lookup_upd.
Qed.
Print Assumptions C18_replace_keeps_order.

(* a new key goes to the end *)
Theorem C18_new_key_at_end : forall t s r c,
  tag_ok t = true -> has (tag_str t) (items c) = false ->
  c_set t (SVal s) r c = (with_items c (items c ++ [(tag_str t, VStr s)]), Ok tt).
Proof. exact set_new_at_end. Qed.
Print Assumptions C18_new_key_at_end.

(* delete removes exactly that key and keeps the order of the others ... *)
Theorem C18_delete_keeps_others : forall t c c',
  NoDup (keys c) -> c_del t c = (c', Ok tt) ->
  keys c' = filter (fun k => negb (str_eqb k (tag_str t))) (keys c) /\ mt c' = mt c /\
  c_contains t c' = false /\
  forall k, k <> tag_str t -> lookup k (items c') = lookup k (items c).
Proof. exact del_keeps_others. Qed.
Print Assumptions C18_delete_keeps_others.

(* ... deleting a missing key raises (KeyError) and changes nothing ... *)
Theorem C18_delete_missing : forall t c c' e,
  c_del t c = (c', Exc e) -> c' = c /\ e = EKeyError /\ c_contains t c = false.
Proof. intros t c c' e. unfold c_del, c_contains. now destruct (has (tag_str t) (items c)); intros [= <- <-]. Qed.
Print Assumptions C18_delete_missing.

(* ... and delete followed by set puts the key at the end *)
Theorem C18_delete_readd_at_end : forall t s r c c1,
  NoDup (keys c) -> tag_ok t = true -> c_del t c = (c1, Ok tt) ->
  c_set t (SVal s) r c1 = (with_items c (remove (tag_str t) (items c) ++ [(tag_str t, VStr s)]), Ok tt).
Proof.
  intros t s r c c1 ND T H. destruct (del_keeps_others _ _ _ ND H) as (_ & _ & G & _).
  rewrite del_spec in H. destruct (has (tag_str t) (items c)); [|discriminate]. inversion H; subst.
  (* G: the key is absent after the delete, so set appends it *)
  apply set_new_at_end; [exact T|exact G].
Qed.
Print Assumptions C18_delete_readd_at_end.

(* keys are unique and integer in every variable and every nested container after every operation
   sequence (wfc: NoDup keys and int()-accepted keys at every depth) *)
Theorem C18_keys_unique : forall n ops, Forall wfc (run_state n ops).
Proof. exact reachable_wf. Qed.
Print Assumptions C18_keys_unique.

(* wfc also says that every key is an integer key: since set, set_group and add_group all refuse a
   non-integer tag, no such key is ever stored *)
Theorem C18_keys_unique_top : forall n ops c,
  In c (run_state n ops) -> NoDup (keys c) /\ Forall (fun k => key_ok k = true) (keys c).
Proof.
  intros n ops c H. pose proof (reachable_wf n ops) as F. rewrite Forall_forall in F.
  split; [apply wfc_keys|apply wfc_int_keys]; now apply F.
Qed.
Print Assumptions C18_keys_unique_top.

(* ------------------------------------------------------------------ missing / plain / group *)

Theorem C18_contains : forall t c, c_contains t c = true <-> In (tag_str t) (keys c).
Proof. intros t c. apply has_In. Qed.
Print Assumptions C18_contains.

Theorem C18_get_classes : forall t c,
  c_get t DRaise c = match lookup (tag_str t) (items c) with
                     | None => Exc ETagNotFound
                     | Some (VStr s) => Ok (RvStr s)
                     | Some (VGrp _) => Exc EFIXMessage
                     | Some (VCls KTagNotFound _) => Exc ETagNotFound
                     | Some (VCls KRepeating _) => Exc ERepeatingTag
                     | Some (VCls k x) => Ok (RvCls k x)
                     end.
Proof. intros t c. unfold c_get. destruct (lookup (tag_str t) (items c)) as [[s|g|[] x]|]; reflexivity. Qed.
Print Assumptions C18_get_classes.

Theorem C18_get_default : forall t d c,
  lookup (tag_str t) (items c) = None ->
  c_get t d c = match d with DRaise => Exc ETagNotFound | DNone => Ok RvNone | DStr s => Ok (RvStr s) end.
Proof. intros t d c. unfold c_get. now intros ->. Qed.
Print Assumptions C18_get_default.

(* get_group_list: TagNotFoundError / UnmappedRepeatedGrpError / the items *)
Theorem C18_group_list_classes : forall t c,
  c_get_group_list t c = match lookup (tag_str t) (items c) with
                         | None => Exc ETagNotFound
                         | Some (VGrp g) => Ok g
                         | Some _ => Exc EUnmappedGrp
                         end.
Proof. exact group_list_classes. Qed.
Print Assumptions C18_group_list_classes.

(* ------------------------------------------------------------------ groups keep index order *)

(* add_group inserts at the position list.insert would (clamped; -1 appends); the old items keep
   their relative order *)
Theorem C18_insert_position : forall idx (x : container) l,
  let len := Z.of_nat (length l) in
  exists a b, l = a ++ b /\ py_insert idx x l = a ++ x :: b /\
    Z.of_nat (length a) =
      (if idx =? -1 then len else if 0 <=? idx then Z.min idx len else Z.max 0 (len + idx))%Z.
Proof. exact (@py_insert_spec container). Qed.
Print Assumptions C18_insert_position.

Theorem C18_add_group_then_list : forall t it idx c c',
  c_add_group t (Ok it) idx c = (c', Ok tt) ->
  c_get_group_list t c' =
    Ok (py_insert idx it (match c_get_group_list t c with Ok g => g | Exc _ => [] end))
  /\ keys c' = (if c_contains t c then keys c else keys c ++ [tag_str t])
  /\ forall k, k <> tag_str t -> lookup k (items c') = lookup k (items c).
Proof.
  intros t it idx c c' H. pose proof (add_group_inv _ _ _ _ _ H) as [T N]. rewrite add_group_ok in H by assumption.
  injection H as <-. rewrite group_list_classes, lookup_upd_same, keys_upd. repeat split.
  intros k N'. now apply lookup_upd_other.
Qed.
Print Assumptions C18_add_group_then_list.

(* add_group succeeds exactly on an integer tag that is missing or a group *)
Theorem C18_add_group_succeeds : forall t it idx c,
  tag_ok t = true -> c_is_group t c <> Some false ->
  let g := match c_get_group_list t c with Ok g => g | Exc _ => [] end in
  c_add_group t (Ok it) idx c =
    (with_items c (assign (tag_str t) (VGrp (py_insert idx it g)) (items c)), Ok tt).
Proof. exact add_group_ok. Qed.
Print Assumptions C18_add_group_succeeds.

(* a refused add_group changes nothing; the reasons: non-integer tag (FIXMessageError), the item
   is not a container / its dict cannot be built (that error), or the tag holds a plain value
   (FIXMessageError; was AttributeError before fixes/C18-add-group-on-plain-tag.patch) *)
Theorem C18_add_group_refused_unchanged : forall t item idx c c' e,
  c_add_group t item idx c = (c', Exc e) ->
  c' = c /\
  ((e = EFIXMessage /\ tag_ok t = false) \/
   (tag_ok t = true /\ item = Exc e) \/
   (e = EFIXMessage /\ tag_ok t = true /\ c_is_group t c = Some false)).
Proof.
  intros t item idx c c' e.
  rewrite add_group_eq. destruct (tag_ok t), item as [it|e'], (c_is_group t c) as [[|]|]; intros [= <- <-]; auto 6.
Qed.
Print Assumptions C18_add_group_refused_unchanged.

Theorem C18_add_group_plain_refused : forall t item idx c,
  c_is_group t c = Some false ->
  exists e, c_add_group t item idx c = (c, Exc e) /\ (e = EFIXMessage \/ item = Exc e).
Proof. intros t item idx c G. rewrite add_group_eq, G. destruct (tag_ok t), item; eauto. Qed.
Print Assumptions C18_add_group_plain_refused.

(* a refused set_group (non-integer tag: FIXMessageError; existing tag: DuplicatedTagError; bad
   item: its error) changes nothing *)
Theorem C18_set_group_refused_unchanged : forall t g c c' e,
  c_set_group t g c = (c', Exc e) ->
  c' = c /\
  ((e = EFIXMessage /\ tag_ok t = false) \/
   (e = EDuplicatedTag /\ tag_ok t = true /\ c_contains t c = true) \/
   (tag_ok t = true /\ c_contains t c = false /\ g = Exc e)).
Proof.
  intros t g c c' e.
  unfold c_set_group, c_contains.
  destruct (tag_ok t), (has (tag_str t) (items c)), g as [g|e']; intros [= <- <-]; auto 6.
Qed.
Print Assumptions C18_set_group_refused_unchanged.

Theorem C18_set_group_succeeds : forall t g c,
  tag_ok t = true -> c_contains t c = false ->
  c_set_group t (Ok g) c = (with_items c (items c ++ [(tag_str t, VGrp g)]), Ok tt).
Proof.
  intros t g c.
  unfold c_set_group, c_contains. intros T H. rewrite T, H. cbn [negb]. now rewrite assign_new.
Qed.
Print Assumptions C18_set_group_succeeds.

Theorem C18_set_group_then_list : forall t g c c',
  c_set_group t (Ok g) c = (c', Ok tt) ->
  tag_ok t = true /\ c_get_group_list t c' = Ok g /\ keys c' = keys c ++ [tag_str t].
Proof.
  intros t g c c'.
  unfold c_set_group. destruct (tag_ok t); cbn [negb]; [|discriminate].
  destruct (has (tag_str t) (items c)) eqn:E; [discriminate|]. intros [= <-]. fold (upd (tag_str t) (VGrp g) c).
  now rewrite group_list_classes, lookup_upd_same, keys_upd, E.
Qed.
Print Assumptions C18_set_group_then_list.

(* non-integer tags are refused as group tags too (fixes/C18-group-tag-validated.patch) *)
Theorem C18_group_nonint_tag_refused : forall t,
  tag_ok t = false ->
  (forall g c, c_set_group t g c = (c, Exc EFIXMessage)) /\
  (forall it idx c, c_add_group t it idx c = (c, Exc EFIXMessage)).
Proof. intros t T. unfold c_set_group, c_add_group. rewrite T. now split. Qed.
Print Assumptions C18_group_nonint_tag_refused.

(* get_group_by_index: Python indexing from -len to len-1, TagNotFoundError outside *)
Theorem C18_group_by_index_nonneg : forall t idx c g,
  c_get_group_list t c = Ok g -> (0 <= idx < Z.of_nat (length g))%Z ->
  exists x, nth_error g (Z.to_nat idx) = Some x /\ c_get_group_by_index t idx c = Ok x.
Proof. exact group_by_index_nonneg. Qed.
Print Assumptions C18_group_by_index_nonneg.

Theorem C18_group_by_index_negative : forall t idx c g,
  c_get_group_list t c = Ok g -> (- Z.of_nat (length g) <= idx < 0)%Z ->
  exists x, nth_error g (Z.to_nat (Z.of_nat (length g) + idx)) = Some x
            /\ c_get_group_by_index t idx c = Ok x.
Proof. exact group_by_index_negative. Qed.
Print Assumptions C18_group_by_index_negative.

(* outside [-len, len): TagNotFoundError on both sides (fixes/C18-group-index-below-minus-len.patch) *)
Theorem C18_group_by_index_out_of_range : forall t idx c g,
  c_get_group_list t c = Ok g -> (Z.of_nat (length g) <= idx \/ idx < - Z.of_nat (length g))%Z ->
  c_get_group_by_index t idx c = Exc ETagNotFound.
Proof. exact group_by_index_out_of_range. Qed.
Print Assumptions C18_group_by_index_out_of_range.

Theorem C18_group_by_index_no_group : forall t idx c e,
  c_get_group_list t c = Exc e -> c_get_group_by_index t idx c = Exc e.
Proof. intros t idx c e G. now rewrite group_by_index_spec, G. Qed.
Print Assumptions C18_group_by_index_no_group.

(* for every index and every container the only errors are the two documented ones *)
Theorem C18_group_by_index_errors : forall t idx c e,
  c_get_group_by_index t idx c = Exc e -> e = ETagNotFound \/ e = EUnmappedGrp.
Proof.
  intros t idx c e. rewrite group_by_index_spec, group_list_classes.
  destruct (lookup (tag_str t) (items c)) as [[s|g|k x]|]; try (intros [= <-]; auto).
  destruct (idx_pos_cases idx (length g)) as [[-> _]|(-> & L & _)]; [intros [= <-]; auto|].
  destruct (nth_res_ok _ _ L) as (x & _ & ->). discriminate.
Qed.
Print Assumptions C18_group_by_index_errors.

(* get_group_by_tag returns the first item in index order whose inner tag holds the value;
   TagNotFoundError exactly when no item does (items whose inner tag is plain or missing) *)
Theorem C18_group_by_tag_first : forall t gt gv c g,
  c_get_group_list t c = Ok g -> Forall (plain_at (tag_str gt)) g ->
  (forall x, c_get_group_by_tag t gt gv c = Ok x ->
     exists a b, g = a ++ x :: b /\ lookup (tag_str gt) (items x) = Some (VStr gv)
                 /\ Forall (fun y => lookup (tag_str gt) (items y) <> Some (VStr gv)) a)
  /\ (c_get_group_by_tag t gt gv c = Exc ETagNotFound <->
      Forall (fun y => lookup (tag_str gt) (items y) <> Some (VStr gv)) g)
  /\ (forall e, c_get_group_by_tag t gt gv c = Exc e -> e = ETagNotFound).
Proof.
  intros t gt gv c g G P. unfold c_get_group_by_tag. rewrite G. pose proof (find_group_first gt gv g P) as F. cbv zeta in F.
  destruct (find_group gt gv g) as [x|e].
  - split; [now intros y [= <-]|]. split; [|discriminate]. split; [discriminate|]. intros A.
    destruct F as (a & b & -> & L & _). now apply Forall_elt in A.
  - destruct F as [-> F]. split; [discriminate|]. split; [now split|]. now intros e [= <-].
Qed.
Print Assumptions C18_group_by_tag_first.

(* ------------------------------------------------------------------ items handed out by the accessors *)

(* The accessors return the stored item objects; a method called on such an item changes the
   container.  `at_path path f c` is the container after calling f on the item reached from c by a
   path of get_group_by_index / get_group_by_tag / get_group_list(..)[n] calls (OAt in the operation
   language, so all sequence theorems - C18_keys_unique - cover these mutations too). *)

(* the position `locate` computes is the very item the accessor returns *)
Theorem C18_locate_by_index : forall t idx c,
  c_get_group_by_index t idx c =
  match locate (SIdx t idx) c with Ok (_, _, _, x) => Ok x | Exc e => Exc e end.
Proof. exact locate_by_index. Qed.
Print Assumptions C18_locate_by_index.

Theorem C18_locate_by_tag : forall t gt gv c,
  c_get_group_by_tag t gt gv c =
  match locate (STag t gt gv) c with Ok (_, _, _, x) => Ok x | Exc e => Exc e end.
Proof. exact locate_by_tag. Qed.
Print Assumptions C18_locate_by_tag.

(* a change made through an accessor is a change of the container: the group holds the changed item
   at the same position (so every later accessor, == and str see it), nothing else moves *)
Theorem C18_nested_mutation_visible : forall (s : pstep) (f : container -> container * outcome) c k g n x,
  locate s c = Ok (k, g, n, x) ->
  let c' := fst (at_path [s] f c) in
  at_path [s] f c = (with_items c (assign k (VGrp (set_nth n (fst (f x)) g)) (items c)), Ok (snd (f x)))
  /\ c_get_group_list (step_tag s) c' = Ok (set_nth n (fst (f x)) g)
  /\ nth_error (set_nth n (fst (f x)) g) n = Some (fst (f x))
  /\ keys c' = keys c /\ mt c' = mt c
  /\ forall k', k' <> k -> lookup k' (items c') = lookup k' (items c).
Proof.
  intros s f c k g n x L. destruct (locate_inv _ _ _ _ _ _ L) as (Ek & Lk & Ln).
  cbn [at_path]. rewrite L. destruct (f x) as [x' r]. cbn [fst snd]. fold (upd k (VGrp (set_nth n x' g)) c).
  split; [reflexivity|]. rewrite group_list_classes, <- Ek, lookup_upd_same, keys_upd.
  unfold has. rewrite Lk. repeat split; [now apply (nth_error_set_nth _ _ x)|].
  intros k' N. now apply lookup_upd_other.
Qed.
Print Assumptions C18_nested_mutation_visible.

(* a failing accessor on the way, or a call that leaves the item unchanged (a read, a refused set),
   leaves the whole container unchanged *)
Theorem C18_nested_error_unchanged : forall path (f : container -> container * outcome) c c' e,
  at_path path f c = (c', Exc e) -> c' = c.
Proof. intros path f c c' e H. pose proof (at_path_reach path f c) as G. now rewrite H in G. Qed.
Print Assumptions C18_nested_error_unchanged.

Theorem C18_nested_noop_unchanged : forall path (f : container -> container * outcome) c,
  (forall x, fst (f x) = x) -> fst (at_path path f c) = c.
Proof.
  intros path f c F. pose proof (at_path_reach path f c) as G. destruct (snd (at_path path f c)); [|exact G].
  destruct G as (x & _ & H). apply H, F.
Qed.
Print Assumptions C18_nested_noop_unchanged.

(* == has no memory: it follows the current content through a history of comparisons and in-place
   changes (append to an existing group, set / delete inside an item reached by each accessor) *)
Example C18_eq_follows_history :
  outcomes (init 2) hist_ops =
  [RNone; RNone; RBool true;
   RNone; RBool false; RBool false;
   RNone; RBool true;
   RNone; RBool false; RBool false;
   RNone; RBool true;
   RNone; RBool false;
   RExc ETagNotFound].
Proof. vm_compute. reflexivity. Qed.
Print Assumptions C18_eq_follows_history.

(* ------------------------------------------------------------------ query *)

Theorem C18_query_int : forall z c,
  c_query [TInt z] c = match c_get (TInt z) DNone c with
                       | Ok r => Ok [(z_to_dec z, r)]
                       | Exc e => Exc e
                       end.
Proof.
  intros z c.
  unfold c_query. cbn [query_loop]. unfold query_key. cbn [tag_str].
  assert (E : c_get (TStr (z_to_dec z)) DNone c = c_get (TInt z) DNone c) by reflexivity.
  destruct (in_ftag (z_to_dec z)); rewrite E; destruct (c_get (TInt z) DNone c); reflexivity.
Qed.
Print Assumptions C18_query_int.

(* recorded behaviour, not alarmed (DESIGN.md section 8: non-canonical spellings are distinct keys):
   query() normalises a spelling with int(), so it reads key "5" where set/get use " 5" *)
Example C18_query_noncanonical :
  let c := C None [([32; 53], VStr [97])] in
  c_get (TStr [32; 53]) DNone c = Ok (RvStr [97]) /\ c_get (TInt 5) DNone c = Ok RvNone
  /\ c_query [TStr [32; 53]] c = Ok [([53], RvNone)] /\ c_query [] c = Ok [([53], RvNone)].
Proof. vm_compute. repeat split. Qed.
Print Assumptions C18_query_noncanonical.

(* ------------------------------------------------------------------ equality with a container *)

(* for ALL containers: == is exactly equality of content - the ordered list of (tag, value) pairs,
   a group being the list of its items' contents and every error-class marker the same token *)
Theorem C18_eq_iff_content : forall a b, c_eq a b = true <-> content a = content b.
Proof. exact c_eq_iff_content. Qed.
Print Assumptions C18_eq_iff_content.

(* for containers of strings and plain FIXContainer items (no class objects, no FIXMessage as a group
   item) the content is the items themselves *)
Theorem C18_eq_iff_items : forall a b,
  pure a = true -> pure b = true -> (c_eq a b = true <-> items a = items b).
Proof.
  intros a b Pa Pb. split; [|apply c_eq_same_items]. rewrite c_eq_iff_content, !content_items. intros H.
  (* pure looks at the items only: it is pureb of the same items without a msg_type, and content_inj is about pureb *)
  assert (E : C None (items a) = C None (items b)) by (apply content_inj; assumption). now injection E.
Qed.
Print Assumptions C18_eq_iff_items.

Theorem C18_eq_same_items : forall a b, items a = items b -> c_eq a b = true.
Proof. exact c_eq_same_items. Qed.
Print Assumptions C18_eq_same_items.

(* equal containers list the same tags in the same order *)
Theorem C18_eq_keys : forall a b, c_eq a b = true -> keys a = keys b.
Proof.
  intros a b.
  rewrite c_eq_iff_content, !content_items. unfold keys. intros H.
  apply (f_equal (map fst)) in H. now rewrite !map_map in H.
Qed.
Print Assumptions C18_eq_keys.

(* == is an equivalence *)
Theorem C18_eq_equivalence :
  (forall a, c_eq a a = true) /\ (forall a b, c_eq a b = c_eq b a)
  /\ (forall a b c, c_eq a b = true -> c_eq b c = true -> c_eq a c = true).
Proof. exact (conj c_eq_refl (conj c_eq_sym c_eq_trans)). Qed.
Print Assumptions C18_eq_equivalence.

(* the former D18 collisions: same text, different content -> not equal; order matters; an error
   marker is not the string "#err#" but equals any other error marker; the msg_type of a group item
   and of the container itself is not content *)
Example C18_eq_no_collision :
  render w_a = render w_b /\ c_eq w_a w_b = false
  /\ render w_c = render w_d /\ c_eq w_c w_d = false
  /\ c_eq w_b w_e = false
  /\ render w_err1 = render w_errs /\ c_eq w_err1 w_errs = false /\ c_eq w_err1 w_err2 = true
  /\ c_eq w_m1 w_m2 = true.
Proof. vm_compute. repeat split. Qed.
Print Assumptions C18_eq_no_collision.

(* about __str__ (no longer about ==): the rendering is injective on containers whose tags, values
   and nested msg types contain none of | = > [ ] , and space *)
Theorem C18_str_injective_clean : forall a b,
  clean a = true -> clean b = true -> (render a = render b <-> items a = items b).
Proof.
  intros a b Ca Cb. rewrite !render_items. split; [|now intros ->]. intros H.
  apply (f_equal (fun s => s ++ [])) in H. apply items_inj in H; [now destruct H| |exact Ca|exact Cb|exact I|exact I].
  apply Forall_forall. intros kv _. apply value_inj.
Qed.
Print Assumptions C18_str_injective_clean.

(* canonical decimal tags are always clean keys *)
Theorem C18_decimal_tag_clean : forall z, clean_tag (z_to_dec z) = true.
Proof. exact clean_tag_z_to_dec. Qed.
Print Assumptions C18_decimal_tag_clean.

(* ------------------------------------------------------------------ equality with a dict *)

(* full strength (fixes/C18-eq-dict-ignores-framing-tags.patch): == dict is True exactly when tags
   and values are the same, the framing tags 8, 9, 10, 35 ignored on both sides *)
Theorem C18_eq_dict_iff : forall other c, c_eq_dict other c = Ok true <-> dict_content_eq other c.
Proof.
  intros other c.
  unfold c_eq_dict, dict_content_eq, same_core_keys, keys.
  change (map (fun tv => tag_str (fst tv)) other) with (map dict_key other).
  destruct (set_eqb _ _).
  - rewrite eq_dict_loop_true. split; [now split|now intros [_ H]].
  - split; [discriminate|intros [H _]; discriminate].
Qed.
Print Assumptions C18_eq_dict_iff.

(* it returns a bool when the message holds plain values only ... *)
Theorem C18_eq_dict_total : forall other c,
  Forall (fun kv => exists s, snd kv = VStr s) (items c) -> exists b, c_eq_dict other c = Ok b.
Proof.
  intros other c PV. unfold c_eq_dict. destruct (set_eqb _ _) eqn:S; [|now exists false].
  destruct (eq_dict_loop_res other c) as [->|(tv & I & ->)]; [now exists true|].
  pose proof (core_key_present other c tv S I) as K. unfold verdict.
  destruct (mem _ _); [now exists true|]. destruct (lookup _ _) as [v|] eqn:L; [|now destruct K].
  apply lookup_In in L. rewrite Forall_forall in PV. destruct (PV _ L) as [s E]. cbn [snd] in E. subst. eauto.
Qed.
Print Assumptions C18_eq_dict_total.

(* ... and otherwise the only error is the documented FIXMessageError for a compared group tag
   (never TagNotFoundError), unless the message holds class objects as values *)
Theorem C18_eq_dict_errors : forall other c,
  Forall (fun kv => forall k x, snd kv <> VCls k x) (items c) ->
  forall e, c_eq_dict other c = Exc e -> e = EFIXMessage.
Proof.
  intros other c NC e. unfold c_eq_dict. destruct (set_eqb _ _) eqn:S; [|discriminate].
  destruct (eq_dict_loop_res other c) as [->|(tv & I & ->)]; [discriminate|].
  pose proof (core_key_present other c tv S I) as K. unfold verdict.
  destruct (mem _ _); [discriminate|]. destruct (lookup _ _) as [[s|g|k x]|] eqn:L; [discriminate| | |now destruct K].
  - now intros [= <-].
  - apply lookup_In in L. rewrite Forall_forall in NC. now destruct (NC _ L k x).
Qed.
Print Assumptions C18_eq_dict_errors.

(* the former D18 witnesses on the repaired model *)
Example C18_repaired_witnesses :
  c_eq_dict w_dict w_msg = Ok true /\ c_eq_dict w_dict2 w_msg2 = Ok true
  /\ c_eq_dict [(TInt 1, [98])] w_msg = Ok false
  /\ c_add_group (TInt 1) (Ok empty) (-1) w_msg = (w_msg, Exc EFIXMessage)
  /\ c_get_group_by_index (TInt 78) (-3) w_grp = Exc ETagNotFound
  /\ c_get_group_by_index (TInt 78) (-2) w_grp = Ok empty
  /\ c_set_group (TStr [120]) (Ok []) empty = (empty, Exc EFIXMessage)
  /\ c_add_group (TStr []) (Ok empty) (-1) empty = (empty, Exc EFIXMessage).
Proof. vm_compute. repeat split. Qed.
Print Assumptions C18_repaired_witnesses.

(* ------------------------------------------------------------------ non-vacuity *)

(* a reachable pool: two variables built in different ways (dict literal with an FTag key and a
   nested group / set + add_group with other spellings) are clean, equal and have the same content;
   a third holds a non-canonical key ' 5' next to '35' and is outside the clean class *)
Example C18_nonvacuous :
  let p := run_state 3 ex_ops in
  clean (var p 0) = true /\ clean (var p 1) = true /\ c_eq (var p 0) (var p 1) = true
  /\ items (var p 0) = items (var p 1)
  /\ items (var p 0) = [([49], VStr [97]); ([55; 56], VGrp [C None [([55; 57], VStr [120])]; C None []])]
  /\ c_get (TFTag ACCOUNT) DRaise (var p 1) = Ok (RvStr [97])
  /\ dict_content_eq [(TInt 35, [68]); (TInt 1, [97])] (C None [([49], VStr [97])])
  /\ keys (var p 2) = [[51; 53]; [32; 53]] /\ clean (var p 2) = false.
Proof.
  set (D := dict_content_eq _ _).
  assert (HD : D).
  { split; [vm_compute; reflexivity|].
    constructor; [left; vm_compute; reflexivity|constructor; [right; reflexivity|constructor]]. }
  (* the let is kept, so that the run is evaluated once *)
  clearbody D. vm_compute. now repeat split.
Qed.
Print Assumptions C18_nonvacuous.
