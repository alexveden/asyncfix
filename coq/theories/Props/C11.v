(* C11 - nothing passes to or from the application outside an established session.
   The theorems (the lemmas they follow from are in AF.Lemmas.SessionL / SessionC04L / SessionC11L) about the model
   Fix/Session.v of asyncfix/connection.py (send_msg, _process_message, _validate_integrity,
   disconnect, _process_logon, _process_logout).

   No theorem of this file excludes a known-finding class any more:
     D15 (inbound traffic accepted in LOGON_INITIAL_SENT) and D25 (the same, and outbound traffic, in
     LOGON_INITIAL_RECV, where an acceptor stays when its Logon handling raised) are repaired in the code
     (R8b, R8c): C11_no_app_before_logon holds over ALL histories, C11_logon_exchange_gate gives the exact
     result, the former witnesses are C11_*_dropped.
     (D27 - a non-numeric MsgSeqNum raised ValueError out of _process_message - was repaired earlier:
      C11_garbled_seqnum_rejected)
   C11_integrity_* assume `sendable w`: the Logout can be written and journaled (writer present, no outbound
   journal row numbered next_num_out, number within SQLite's range); ledger D20 breaks that
   (Out_inv of C05 implies it): since R8a the Logout is then not even written (journal first), send_msg
   raises inside disconnect and the connection stays up - harness class D20-app-raw-seqnum. *)
From Coq Require Import ZArith NArith List Bool.
From AF Require Import Base.Sx Py.Str Fix.Session Lemmas.StrB Lemmas.SessionL Lemmas.SessionC04L Lemmas.SessionC11L.
From Coq Require String.
Import String.StringSyntax.
Import ListNotations.
Open Scope Z_scope.

Example C11_enums_tied : enums_ok = true.
Proof. exact enums_tied. Qed.
Print Assumptions C11_enums_tied.

(* from a pre-Logon state (disconnected, NETWORK_CONN_ESTABLISHED, LOGON_INITIAL_SENT / _RECV), for EVERY
   history of inbound messages, send attempts, timer calls and disconnects:
   every on_message call is preceded by an on_logon call (the Logon exchange has completed) *)
Theorem C11_no_app_before_logon : forall c h w,
  prelogon w ->
  forall pre m post, trace (run c w h) = pre ++ App m :: post -> logons pre <> [].
Proof. exact run_no_app_before_logon. Qed.
Print Assumptions C11_no_app_before_logon.

(* ... and a connection that has left the pre-Logon states (ACTIVE, RESENDREQ_HANDLING, RESENDREQ_AWAITING)
   has reported on_logon: no history makes it established without the peer's Logon *)
Theorem C11_established_needs_logon : forall c h w,
  prelogon w -> ~ prelogon (final c w h) -> logons (trace (run c w h)) <> [].
Proof. exact run_established_needs_logon. Qed.
Print Assumptions C11_established_needs_logon.

(* one operation from a pre-Logon state delivers nothing and leaves the pre-Logon states only with on_logon *)
Theorem C11_prelogon_step : forall c o w,
  prelogon w ->
  apps (re (step c o w)) = [] /\ (prelogon (rw (step c o w)) \/ logons (re (step c o w)) <> []).
Proof. exact step_prelogon. Qed.
Print Assumptions C11_prelogon_step.

(* first inbound message is not a Logon (either role): the connection is dropped without any frame;
   counters, journal and role are untouched *)
Theorem C11_first_must_be_logon : forall c m now w,
  st w = ST_NCE -> validate_integrity c m w = VOk -> mkind m <> KLogon ->
  process_message c m now w = mkR (inl tt) (dropped ST_DISC_BROKEN w) [State ST_DISC_BROKEN; OnDisconnect].
Proof. exact first_must_be_logon. Qed.
Print Assumptions C11_first_must_be_logon.

(* R8b: while the Logon exchange is in progress (LOGON_INITIAL_SENT: our Logon is out, no reply yet;
   LOGON_INITIAL_RECV: the peer's Logon arrived, ours is not out) a message that passes the integrity check
   and is neither Logon nor Logout drops the connection: no Logout, nothing counted, journaled or delivered *)
Theorem C11_logon_exchange_gate : forall c m now w,
  st w = ST_LOGON_SENT \/ st w = ST_LOGON_RECV -> validate_integrity c m w = VOk ->
  mkind m <> KLogon -> mkind m <> KLogout ->
  process_message c m now w = mkR (inl tt) (dropped ST_DISC_BROKEN w) [State ST_DISC_BROKEN; OnDisconnect].
Proof. exact logon_exchange_gate. Qed.
Print Assumptions C11_logon_exchange_gate.

(* send gates (gate_refuses): below NETWORK_CONN_ESTABLISHED; at NETWORK_CONN_ESTABLISHED unless Logon / Logout;
   initiator in LOGON_INITIAL_SENT unless Logout; (R8c) non-initiator in LOGON_INITIAL_RECV unless Logon / Logout
   -> FIXConnectionError, the world (counters, journal, state, role) and the trace unchanged *)
Theorem C11_send_gate : forall c m w,
  gate_refuses m w = true -> send_msg c m w = mkR (inr XConn) w [].
Proof. exact send_msg_gate_refused. Qed.
Print Assumptions C11_send_gate.

(* R13c - the TestRequest gate (treq_refuses): a TestRequest is refused - FIXConnectionError, world and trace
   unchanged - unless a probe is pending AND the message carries exactly that probe's id (str(_test_req_id)):
   only send_test_req() can put a TestRequest on the wire, and only one at a time *)
Theorem C11_testrequest_gate : forall c m w,
  treq_refuses m w = true -> send_msg c m w = mkR (inr XConn) w [].
Proof. exact testrequest_gate. Qed.
Print Assumptions C11_testrequest_gate.

Theorem C11_testrequest_needs_pending_id : forall c m w,
  mkind m = KTestReq ->
  (treq w = None \/ (exists t, treq w = Some t /\ get T112 (mtags m) <> Some (z_to_dec t))) ->
  send_msg c m w = mkR (inr XConn) w [].
Proof.
  intros c m w Hk H. apply testrequest_gate. unfold treq_refuses. rewrite Hk.
  destruct H as [H|[t [H Hn]]]; rewrite H; [reflexivity|].
  destruct (get T112 (mtags m)) as [v|]; [|reflexivity].
  destruct (str_eqb v (z_to_dec t)) eqn:E; [|reflexivity]. apply str_eqb_eq in E. congruence.
Qed.
Print Assumptions C11_testrequest_needs_pending_id.

(* the FIXConnectionError refusals of send_msg are EXACTLY the state / role gates and the TestRequest gate *)
Theorem C11_refusals_exact : forall c m w,
  rv (send_msg c m w) = inr XConn <-> gate_refuses m w = true \/ treq_refuses m w = true.
Proof.
  intros c m w. rewrite send_msg_conn_open, gate_open_spec, treq_open_spec, <- negb_orb, negb_false_iff. apply orb_true_iff.
Qed.
Print Assumptions C11_refusals_exact.

(* and conversely every send refused with FIXConnectionError (incl. the TestRequest gate) is free *)
Theorem C11_refused_send_is_free : forall c m w,
  rv (send_msg c m w) = inr XConn -> send_msg c m w = mkR (inr XConn) w [].
Proof. exact send_msg_conn_free. Qed.
Print Assumptions C11_refused_send_is_free.

(* what _validate_integrity answers, by cases on BeginString / CompIDs / MsgSeqNum *)
Theorem C11_integrity_cases : forall c m w,
  match validate_integrity c m w with
  | VExc x => get T8 (mtags m) = None /\ x = XTagNotFound
  | VTrue => get T49 (mtags m) = None \/ get T56 (mtags m) = None
  | VStr code =>
      code <> [] /\
      ((exists b, get T8 (mtags m) = Some b /\ b <> c_begin c)
       \/ (exists s t, get T49 (mtags m) = Some s /\ get T56 (mtags m) = Some t
                       /\ (~ (c_sender c = t /\ c_target c = s)
                           \/ get T34 (mtags m) = None
                           \/ (exists v, get T34 (mtags m) = Some v /\ py_int v = None)
                           \/ exists n, get_int T34 m = inl n /\ n < nin w
                                        /\ mkind m <> KSeqReset /\ st w <> ST_AWAITING)))
  | VOk => exists s t n, get T49 (mtags m) = Some s /\ get T56 (mtags m) = Some t
                         /\ c_sender c = t /\ c_target c = s /\ get_int T34 m = inl n
                         /\ (nin w <= n \/ mkind m = KSeqReset \/ st w = ST_AWAITING)
  end.
Proof. exact validate_cases. Qed.
Print Assumptions C11_integrity_cases.

(* wrong CompIDs / missing, non-numeric or too-low MsgSeqNum with both CompIDs present: exactly one Logout carrying
   the reason, then dropped; no on_message, next_num_in and the inbound journal unchanged *)
Theorem C11_integrity_logout : forall c m now w code,
  validate_integrity c m w = VStr code -> ST_NCE <= st w -> sendable w ->
  process_message c m now w =
  mkR (inl tt) (logged_out c w code)
      ((if st w =? ST_NCE then [State ST_LOGON_SENT] else [])
       ++ [Wire (logout_msg c w code); State ST_DISC_BROKEN; OnDisconnect])
  /\ nin (logged_out c w code) = nin w /\ st (logged_out c w code) = ST_DISC_BROKEN
  /\ wr (logged_out c w code) = false /\ j_in (jr (logged_out c w code)) = j_in (jr w)
  /\ get T58 (mtags (logout_msg c w code)) = Some code /\ code <> [].
Proof.
  intros c m now w code V Hs Hsend. pose proof (validate_cases c m w) as Hc. rewrite V in Hc. destruct Hc as [Hne _].
  unfold process_message. rewrite V. cbv iota beta.
  split; [apply disconnect_logout_alive; auto|].
  repeat split; auto; unfold logged_out; destruct (st w =? ST_NCE); reflexivity.
Qed.
Print Assumptions C11_integrity_logout.

(* a CompID field is missing (counterparty not identifiable): dropped without any frame *)
Theorem C11_integrity_silent : forall c m now w,
  validate_integrity c m w = VTrue -> ~ dead w ->
  process_message c m now w = mkR (inl tt) (dropped ST_DISC_BROKEN w) [State ST_DISC_BROKEN; OnDisconnect].
Proof.
  intros c m now w V Ha. unfold process_message. rewrite V. apply disconnect_none_alive; [exact Ha|stlia].
Qed.
Print Assumptions C11_integrity_silent.

(* a disconnected connection: _process_message emits nothing and changes nothing *)
Theorem C11_dead_is_silent : forall c m now w,
  dead w -> rw (process_message c m now w) = w /\ re (process_message c m now w) = [].
Proof. exact process_message_dead. Qed.
Print Assumptions C11_dead_is_silent.

(* every operation (inbound message, send, TestRequest probe, disconnect call): at most one on_disconnect,
   only from a live connection, which is dead afterwards; a dead connection stays dead ... *)
Theorem C11_disconnect_step : forall c h w, Forall disc_ok (run c w h).
Proof. intros c h w. apply run_Forall. intros. apply step_disc_ok. Qed.
Print Assumptions C11_disconnect_step.

(* ... hence on_disconnect is reported at most once per connection epoch, never by a dead connection *)
Theorem C11_disconnect_once : forall c h w,
  (dead w -> discs (trace (run c w h)) = []) /\ (length (discs (trace (run c w h))) <= 1)%nat.
Proof. exact run_discs_once. Qed.
Print Assumptions C11_disconnect_once.

(* the library only ever sets ten of the nineteen ConnectionState values: the others are unreachable *)
Theorem C11_reachable_states : forall c h w,
  okstate w -> Forall op_ok h -> Forall (fun s => okstate (s_before s) /\ okstate (s_after s)) (run c w h).
Proof.
  intros c h w Hw Ho. apply (run_Forall_ops c op_ok okstate); [|exact Ho|exact Hw].
  intros o w0 Ho0 Hw0. pose proof (step_okstate c o Ho0 w0 Hw0). auto.
Qed.
Print Assumptions C11_reachable_states.

(* since the repair R3c RESENDREQ_HANDLING is transient: no operation of any history ends in it (a ResendRequest
   that cannot be served - unparsable, beyond the last sent number, a journaled row carrying tag 43 - leaves the
   connection ACTIVE, not stuck) *)
Theorem C11_no_stuck_handling : forall c h w,
  st w <> ST_HANDLING -> Forall (fun s => st (s_after s) <> ST_HANDLING) (run c w h).
Proof.
  intros c h w. apply (run_Forall_inv c not_handling). intros o w0 Hw0. pose proof (step_not_handling c o w0 Hw0). auto.
Qed.
Print Assumptions C11_no_stuck_handling.

Example C11_unserved_resend_not_stuck :
  st (final cfg0 w_acceptor [i_logon 1; OIn (inbound (S "2") 2 [(T7, S "9"); (T16, S "0")]) 0]) = ST_ACTIVE.
Proof. vm_compute. reflexivity. Qed.
Print Assumptions C11_unserved_resend_not_stuck.

(* regression for the amended repair R3b: the peer's Logout is processed (on_logout, one on_disconnect, dead)
   even when journaling it raises: duplicate inbound key after SequenceReset(34=2,36=2); MsgSeqNum "2"+NEL *)
Example C11_logout_always_processed :
  (let h := [i_logon 1; i_reset 2 2; i_logout 2] in
   dead (final cfg0 w_acceptor h) /\ logouts_seen (trace (run cfg0 w_acceptor h)) = 1%nat
   /\ length (discs (trace (run cfg0 w_acceptor h))) = 1%nat)
  /\ (let h := [i_logon 1; i_logout_text [50%N; 133%N]] in
      dead (final cfg0 w_acceptor h) /\ logouts_seen (trace (run cfg0 w_acceptor h)) = 1%nat
      /\ length (discs (trace (run cfg0 w_acceptor h))) = 1%nat).
Proof. vm_compute. repeat split; try reflexivity; discriminate. Qed.
Print Assumptions C11_logout_always_processed.

(* the R8c gate spelled out: an acceptor between the peer's Logon and its own may send Logon / Logout only *)
Theorem C11_acceptor_send_gate : forall c m w,
  st w = ST_LOGON_RECV -> role w <> ROLE_INITIATOR -> mkind m <> KLogon -> mkind m <> KLogout ->
  send_msg c m w = mkR (inr XConn) w [].
Proof. exact acceptor_send_gate. Qed.
Print Assumptions C11_acceptor_send_gate.

(* LOGON_INITIAL_RECV is only ever set together with the ACCEPTOR role and the role changes only with the state:
   the invariant "LOGON_INITIAL_RECV -> role ACCEPTOR" holds before and after every operation of every history *)
Theorem C11_logon_recv_is_acceptor : forall c h w,
  recv_acc w -> Forall (fun s => recv_acc (s_before s) /\ recv_acc (s_after s)) (run c w h).
Proof.
  intros c h w. apply (run_Forall_inv c recv_acc). intros o w0 Hw0. pose proof (step_recv_acc c o w0 Hw0). auto.
Qed.
Print Assumptions C11_logon_recv_is_acceptor.

(* ... so on every connection the library itself brought into LOGON_INITIAL_RECV the R8c gate applies *)
Theorem C11_logon_recv_send_gate : forall c m w,
  recv_acc w -> st w = ST_LOGON_RECV -> mkind m <> KLogon -> mkind m <> KLogout ->
  send_msg c m w = mkR (inr XConn) w [].
Proof.
  intros c m w Hw Hs Hk1 Hk2. apply acceptor_send_gate; auto. rewrite (Hw Hs). discriminate.
Qed.
Print Assumptions C11_logon_recv_send_gate.

(* former D15 witness, repaired: initiator, Logon sent, no reply yet, an application message arrives:
   dropped without Logout, nothing delivered, next_num_in unchanged *)
Example C11_initiator_app_before_logon_dropped :
  let t := trace (run cfg0 w_initiator [o_logon; i_app 1]) in
  let w := final cfg0 w_initiator [o_logon; i_app 1] in
  apps t = [] /\ logons t = [] /\ length (discs t) = 1%nat /\ map mtype (wires t) = [MT_LOGON]
  /\ st w = ST_DISC_BROKEN /\ nin w = 1.
Proof. vm_compute. repeat split; reflexivity. Qed.
Print Assumptions C11_initiator_app_before_logon_dropped.

(* former D15 witness, repaired: a ResendRequest instead: not served, never ACTIVE *)
Example C11_initiator_resend_before_logon_dropped :
  let t := trace (run cfg0 w_initiator [o_logon; i_resend 1 1 0]) in
  let w := final cfg0 w_initiator [o_logon; i_resend 1 1 0] in
  logons t = [] /\ map mtype (wires t) = [MT_LOGON] /\ st w = ST_DISC_BROKEN /\ nin w = 1.
Proof. vm_compute. repeat split; reflexivity. Qed.
Print Assumptions C11_initiator_resend_before_logon_dropped.

(* former D25 witness, repaired: acceptor, Logon without EncryptMethod: no reply, no on_logon, LOGON_INITIAL_RECV;
   an application send is refused without effect; the next application message drops the connection *)
Example C11_acceptor_stuck_logon_dropped :
  let w1 := final cfg0 w_acceptor [i_logon_no98 1] in
  let t := trace (run cfg0 w_acceptor [i_logon_no98 1; i_app 1]) in
  st w1 = ST_LOGON_RECV
  /\ step cfg0 (OSend (mkMsg (S "D") [(S "11", S "X")])) w1 = mkR (inr XConn) w1 []
  /\ apps t = [] /\ logons t = [] /\ wires t = [] /\ length (discs t) = 1%nat
  /\ st (final cfg0 w_acceptor [i_logon_no98 1; i_app 1]) = ST_DISC_BROKEN.
Proof. vm_compute. repeat split; reflexivity. Qed.
Print Assumptions C11_acceptor_stuck_logon_dropped.

(* D27 is repaired in the code: a non-numeric MsgSeqNum (BeginString and CompIDs correct) is an integrity failure
   with a reason, so C11_integrity_logout applies to it: one Logout(58 = reason), dropped, nothing delivered,
   next_num_in unchanged *)
Theorem C11_garbled_seqnum_rejected : forall c m w v,
  get T8 (mtags m) = Some (c_begin c) -> get T49 (mtags m) = Some (c_target c) ->
  get T56 (mtags m) = Some (c_sender c) -> get T34 (mtags m) = Some v -> py_int v = None ->
  validate_integrity c m w = VStr R_GARBLED.
Proof.
  intros c m w v H8 H49 H56 H34 Hv. unfold validate_integrity. rewrite H8, H49, H56, H34, Hv, !str_eqb_refl. reflexivity.
Qed.
Print Assumptions C11_garbled_seqnum_rejected.

(* the former D27 witness, computed *)
Example C11_garbled_seqnum_logout :
  let w := final cfg0 w_acceptor [i_logon 1] in
  let r := process_message cfg0 m_garbled 0 w in
  st w = ST_ACTIVE /\ rv r = inl tt /\ st (rw r) = ST_DISC_BROKEN /\ nin (rw r) = nin w
  /\ apps (re r) = [] /\ length (discs (re r)) = 1%nat
  /\ map (fun wm => (mtype wm, get T58 (mtags wm))) (wires (re r)) = [(MT_LOGOUT, Some R_GARBLED)].
Proof. vm_compute. repeat split; reflexivity. Qed.
Print Assumptions C11_garbled_seqnum_logout.

Example C11_nonvacuous :
  prelogon w_acceptor
  /\ length (apps (trace (run cfg0 w_acceptor h_session))) = 2%nat
  /\ length (discs (trace (run cfg0 w_acceptor h_session))) = 1%nat
  /\ okstate w_acceptor.
Proof.
  split; [right; left; reflexivity|]. split; [|split]; [vm_compute; reflexivity..|]. unfold okstate, okst. cbn. tauto.
Qed.
Print Assumptions C11_nonvacuous.
