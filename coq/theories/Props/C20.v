(* C20 - the bundled test helper (FIXTester) fabricates valid, consistent counterparty traffic.
   The theorems (the lemmas they follow from are in AF.Lemmas.TesterL / TesterSchemaL).  The model is Fix/Tester.v: fix_exec_report_msg as a
   total function  scale u -> tester state -> order fields -> arguments -> Ok msg state' | AssertionFailed state'.
   A number z stands for the rational z / u (any scale u: no bound on quantities, prices or counters).

   Proved here, for EVERY order state, argument combination and tester state: the arithmetic constraints,
   ExecID freshness over every history of calls, OrderID reuse, the tag set, the copied values, the
   cancel-reject shape, and that a consistent order stays consistent in the closed loop helper -> order.
   Dictionary validity (last section): the model's messages are accepted by C15's model of FIXSchema.validate
   on the REGENERATED FIX 4.4 dictionary with C19's model of validate_value as the value check (validate44,
   Fix/TesterSchema.v) - session factories and cancel rejects for all argument values of the stated domains,
   execution reports for every renderer of numbers that stays in the finite FIX float layout, instantiated with
   the exact binary-fraction printer print_q.  The harness keeps deciding the same claim on the real
   FIXSchema.validate.  NOT proved (differential only): session fidelity of the simulated acceptor.
   The model describes fix_tester.py with fixes/R12a-R12e applied.  The one remaining *_refuted theorem
   (foreign ClOrdID, pinned by tests/test_protocol_order_single.py::test_exec_report_clord_mismatch) is a
   known-finding class of harness/c20.py. *)
From Coq Require Import ZArith NArith List Bool Sorting.Sorted.
From AF Require Import Lemmas.StrB Base.Sx Py.Str Fix.OrderStatus Fix.Tester Fix.TesterSchema Lemmas.TesterL Lemmas.TesterSchemaL.
From AF Require Fix.Lex.
Import ListNotations.
Open Scope Z_scope.

(* ---------------------------------------------------------------- which calls are accepted *)

(* the helper returns a message exactly under the conditions of its assertion chain (incl. ord_status != CREATED,
   fixes/R12a); the message and the counters afterwards are then determined *)
Theorem C20_accepts_iff : forall u t o a m t',
  fix_exec_report_msg u t o a = Ok m t' <->
  exists clord oq cum leaves price last,
    registered t (o_clord o) = true /\ a_clord a = Some clord /\ clord <> [] /\ a_status a <> CREATED /\
    resolve_qtys o a = Some (oq, cum, leaves) /\ trade_fields u o a cum = Some last /\
    resolve_price o a = Some price /\ pending_cancel_ok o a cum leaves = true /\ finished_ok a leaves = true /\
    t' = after_ids t o /\ m = report t o a clord oq cum leaves price last.
Proof. exact exec_accepts_iff. Qed.
Print Assumptions C20_accepts_iff.

(* a refused call leaves the registered keys alone, moves each counter by at most one, never back, and never
   changes an OrderID already drawn for a root ClOrdID *)
Theorem C20_refused_counters : forall u t o a t',
  fix_exec_report_msg u t o a = AssertionFailed t' ->
  t_eid t <= t_eid t' <= t_eid t + 1 /\ t_oid t <= t_oid t' <= t_oid t + 1 /\ t_reg t' = t_reg t /\
  (forall k v, lookup k (t_oids t) = Some v -> lookup k (t_oids t') = Some v).
Proof. exact @exec_fail_ids. Qed.
Print Assumptions C20_refused_counters.

(* ---------------------------------------------------------------- quantities *)

(* CumQty + LeavesQty <= OrderQty in every fabricated report - whatever the order object holds *)
Theorem C20_cum_plus_leaves_le_qty : forall u t o a m t',
  fix_exec_report_msg u t o a = Ok m t' ->
  exists cum leaves oq,
    get_q T_CumQty m = Some cum /\ get_q T_LeavesQty m = Some leaves /\ get_q T_OrderQty m = Some oq /\
    cum + leaves <= oq.
Proof.
  intros u t o a m t' H. destruct (exec_qtys H) as (G1 & G2 & G3 & S & _).
  now exists (r_cum o a), (r_leaves o a), (r_qty o a).
Qed.
Print Assumptions C20_cum_plus_leaves_le_qty.

(* 0 <= CumQty, 0 <= LeavesQty: explicit arguments are checked by the helper ... *)
Theorem C20_nonneg_explicit : forall u t o a m t' c l,
  fix_exec_report_msg u t o a = Ok m t' -> a_cum a = Some c -> a_leaves a = Some l ->
  get_q T_CumQty m = Some c /\ get_q T_LeavesQty m = Some l /\ 0 <= c /\ 0 <= l.
Proof.
  intros u t o a m t' c l H HC HL. destruct (exec_qtys H) as (G1 & G2 & _ & _ & _ & C & L & _).
  unfold r_cum, r_leaves in G1, G2. rewrite HC in G1. rewrite HL in G2.
  split; [exact G1|]. split; [exact G2|]. split; [apply (C c HC)|apply (L l HL)].
Qed.
Print Assumptions C20_nonneg_explicit.

(* ... omitted ones (isnan -> the order's values) are non-negative when the order's are ... *)
Theorem C20_nonneg_partial : forall u t o a m t',
  fix_exec_report_msg u t o a = Ok m t' -> 0 <= o_cum o -> 0 <= o_leaves o ->
  exists cum leaves, get_q T_CumQty m = Some cum /\ get_q T_LeavesQty m = Some leaves /\ 0 <= cum /\ 0 <= leaves.
Proof.
  intros u t o a m t' H HC HL. destruct (exec_qtys H) as (G1 & G2 & _).
  exists (r_cum o a), (r_leaves o a). split; [exact G1|]. split; [exact G2|].
  exact (exec_nonneg_defaulted H HC HL).
Qed.
Print Assumptions C20_nonneg_partial.

(* ... and that hypothesis cannot be dropped: the defaults are copied from the order unchecked *)
Theorem C20_nonneg_defaults_refuted :
  exists o m t', o_leaves o < 0 /\
    fix_exec_report_msg 4096 w_state o (w_args (o_clord o) NEW NEW None None) = Ok m t' /\
    get_q T_LeavesQty m = Some (-4096).
Proof.
  exists (mkOrder (o_clord w_order) None None (8 * 4096) 0 (-4096) (10 * 4096) [49%N] [84;73;67;75]%N [48]%N NEW).
  do 2 eexists. vm_compute. repeat split; reflexivity.
Qed.
Print Assumptions C20_nonneg_defaults_refuted.

(* LeavesQty = 0 for FILLED / CANCELED / REJECTED / EXPIRED *)
Theorem C20_finished_leaves_zero : forall u t o a m t',
  fix_exec_report_msg u t o a = Ok m t' ->
  In (a_status a) [FILLED; CANCELED; REJECTED; EXPIRED] ->
  get_q T_LeavesQty m = Some 0.
Proof.
  intros u t o a m t' H HS. destruct (exec_qtys H) as (_ & G2 & _ & _ & _ & _ & _ & F).
  unfold finished_ok, finished in F. rewrite (proj2 (mem_In _ _) HS) in F. apply Z.eqb_eq in F. now rewrite <- F.
Qed.
Print Assumptions C20_finished_leaves_zero.

(* a consistent order (0 <= cum, 0 <= leaves, cum + leaves <= qty; true of every new order with qty >= 0)
   yields a consistent report and is consistent again after processing it: in the closed loop
   helper -> order object the helper cannot fabricate an inconsistent report, for any argument list *)
Theorem C20_consistent_report : forall u t o a m t',
  fix_exec_report_msg u t o a = Ok m t' -> wf_order o -> consistent m.
Proof.
  intros u t o a m t' H (C & L & _). destruct (exec_qtys H) as (G1 & G2 & G3 & S & _).
  destruct (exec_nonneg_defaulted H C L). now exists (r_cum o a), (r_leaves o a), (r_qty o a).
Qed.
Print Assumptions C20_consistent_report.

Theorem C20_consistency_preserved : forall u t o a m t',
  fix_exec_report_msg u t o a = Ok m t' -> wf_order o -> wf_order (fst (process_execution_report o m)).
Proof. exact @process_wf. Qed.
Print Assumptions C20_consistency_preserved.

Theorem C20_closed_loop_consistent : forall u calls t o,
  wf_order o -> Forall consistent (drive u t o calls).
Proof.
  intros u calls. induction calls as [|a calls IH]; intros t o W; cbn [drive]; [constructor|].
  destruct (fix_exec_report_msg u t o a) as [m t1|t1] eqn:E.
  - constructor; [eapply C20_consistent_report; eassumption|]. apply IH. eapply process_wf; eassumption.
  - now apply IH.
Qed.
Print Assumptions C20_closed_loop_consistent.

(* a trade report carries LastQty > 0 within 0.0005 of the CumQty increment *)
Theorem C20_trade_check : forall u t o a m t',
  fix_exec_report_msg u t o a = Ok m t' -> a_exec a = X_TRADE ->
  exists l cum, a_last a = Some l /\ get_q T_LastQty m = Some l /\ get_q T_CumQty m = Some cum /\ 0 < l /\
                2000 * Z.abs (l - (cum - o_cum o)) <= u.
Proof.
  intros u t o a m t' H X. destruct (exec_inv H) as (-> & _ & _ & _ & _ & TF & _).
  apply trade_fields_shape in TF as (_ & TF).
  destruct (sent_report_get t o a) as (_ & _ & _ & _ & _ & _ & G7 & _ & G9 & _).
  destruct (a_last a) as [l|]; [|contradiction]. exists l, (r_cum o a). tauto.
Qed.
Print Assumptions C20_trade_check.

(* ---------------------------------------------------------------- ids *)

(* ExecID = str(counter + 1), counter advanced; OrderID = the order's own when it has one, else the id drawn for
   the order's root ClOrdID: the one in the map when there is one, else str of the advanced order counter, which
   is then remembered (fixes/R12b) *)
Theorem C20_ids : forall u t o a m t',
  fix_exec_report_msg u t o a = Ok m t' ->
  get_s T_ExecID m = Some (z_to_dec (t_eid t + 1)) /\ t_eid t' = t_eid t + 1 /\ t_reg t' = t_reg t /\
  match o_oid o with
  | Some s => get_s T_OrderID m = Some s /\ t_oid t' = t_oid t /\ t_oids t' = t_oids t
  | None =>
      match lookup (root_of o) (t_oids t) with
      | Some v => get_s T_OrderID m = Some (z_to_dec v) /\ t_oid t' = t_oid t /\ t_oids t' = t_oids t
      | None => get_s T_OrderID m = Some (z_to_dec (t_oid t + 1)) /\ t_oid t' = t_oid t + 1 /\
                t_oids t' = t_oids t ++ [(root_of o, t_oid t + 1)]
      end
  end.
Proof. exact @exec_ids. Qed.
Print Assumptions C20_ids.

(* over ANY history of helper calls on one tester - registrations (order_register_single, fix_cxl_request,
   fix_rep_request), accepted and refused fabrications for arbitrary orders, AND the non-fabricating public methods
   (reset_messages, set_next_num, the two queries, the msg_* factories, fix_cxlrep_reject_msg, process_msg_acceptor /
   reply; Tester.book) in any order: the ExecIDs of the returned messages are str(n) of a strictly increasing
   sequence of numbers above the counter at the start ... *)
Theorem C20_exec_id_increasing : forall u ops t t' ms,
  run_ops u t ops = (t', ms) ->
  t_eid t <= t_eid t' /\
  exists ids, map exec_id_of ms = map (fun z => Some (z_to_dec z)) ids /\
              StronglySorted Z.lt ids /\ Forall (fun z => t_eid t < z <= t_eid t') ids.
Proof. exact run_exec_ids. Qed.
Print Assumptions C20_exec_id_increasing.

(* ... hence pairwise distinct as texts (str(int) is injective) *)
Theorem C20_exec_id_fresh : forall u ops t t' ms,
  run_ops u t ops = (t', ms) -> NoDup (map exec_id_of ms) /\ Forall (fun e => e <> None) (map exec_id_of ms).
Proof. exact run_exec_ids_distinct. Qed.
Print Assumptions C20_exec_id_fresh.

(* the bookkeeping methods do not touch the id counters, the registered orders or the root -> OrderID map (this is
   the model; the harness compares the real tester's state with it after every such call) *)
Theorem C20_bookkeeping_keeps_ids : forall t b, bookkeeping t b = t.
Proof. reflexivity. Qed.
Print Assumptions C20_bookkeeping_keeps_ids.

Example C20_nonvacuous_two_phase_history :
  let a1 := w_args (o_clord w_order) PENDING_NEW PENDING_NEW None None in
  let a2 := w_args (o_clord w_order) NEW NEW (Some 0) (Some (8 * 4096)) in
  map (fun m => (order_id_of m, exec_id_of m))
      (snd (run_ops 4096 w_state
              [OpExec w_order a1; OpExec w_order a2; OpBook BResetMessages; OpBook (BSetNextNum (Some 5) None);
               OpExec w_order a1; OpBook BQuery; OpExec w_order a2]))
  = [(Some [49%N], Some [49;48;48;48;49]%N); (Some [49%N], Some [49;48;48;48;50]%N);
     (Some [49%N], Some [49;48;48;48;51]%N); (Some [49%N], Some [49;48;48;48;52]%N)].
Proof. vm_compute. reflexivity. Qed.
Print Assumptions C20_nonvacuous_two_phase_history.

Theorem C20_str_int_injective : forall a b, z_to_dec a = z_to_dec b -> a = b.
Proof. exact z_to_dec_inj. Qed.
Print Assumptions C20_str_int_injective.

(* OrderID is stable per order, FULL strength since fixes/R12b: two fabrications for the same order (same root
   ClOrdID) with ANY history of helper calls in between carry the same OrderID, whether the order object has
   processed the first report (its order_id is then that OrderID) or not (order_id still None) ... *)
Theorem C20_order_id_stable : forall u t o1 a1 m1 t1 ops t2 ms o2 a2 m2 t3,
  fix_exec_report_msg u t o1 a1 = Ok m1 t1 -> run_ops u t1 ops = (t2, ms) ->
  fix_exec_report_msg u t2 o2 a2 = Ok m2 t3 ->
  o_oid o1 = None -> root_of o2 = root_of o1 -> (o_oid o2 = None \/ o_oid o2 = order_id_of m1) ->
  order_id_of m2 = order_id_of m1.
Proof.
  intros u t o1 a1 m1 t1 ops t2 ms o2 a2 m2 t3 H1 R H2 O1 RT O2.
  destruct (exec_oid_map H1 O1) as (v & L1 & I1 & _).
  apply (run_ext R) in L1.
  destruct O2 as [O2|O2].
  - destruct (exec_oid_map H2 O2) as (w & _ & I2 & U). rewrite RT in U. rewrite (U _ L1) in I2. congruence.
  - rewrite (exec_order_id H2). unfold order_id_text. now rewrite O2, I1.
Qed.
Print Assumptions C20_order_id_stable.

(* ... orders with different root ClOrdIDs never share a drawn OrderID (from any state whose map holds ids drawn
   from the counter, e.g. the initial one) ... *)
Theorem C20_order_id_distinct : forall u t o1 a1 m1 t1 ops t2 ms o2 a2 m2 t3,
  wf_t t ->
  fix_exec_report_msg u t o1 a1 = Ok m1 t1 -> run_ops u t1 ops = (t2, ms) ->
  fix_exec_report_msg u t2 o2 a2 = Ok m2 t3 ->
  o_oid o1 = None -> o_oid o2 = None -> root_of o2 <> root_of o1 ->
  order_id_of m2 <> order_id_of m1.
Proof.
  intros u t o1 a1 m1 t1 ops t2 ms o2 a2 m2 t3 W H1 R H2 O1 O2 RT E.
  destruct (exec_oid_map H1 O1) as (v & L1 & I1 & _).
  destruct (exec_oid_map H2 O2) as (w & L2 & I2 & _).
  rewrite I1, I2 in E. injection E as E. apply z_to_dec_inj in E. subst w.
  destruct (tester_ext_trans (run_ext R) (exec_ext H2)) as (_ & L13 & W13).
  apply (exec_ext H1) in W.
  apply RT. exact (wf_lookup_inj t3 _ _ v (W13 W) L2 (L13 _ _ L1)).
Qed.
Print Assumptions C20_order_id_distinct.

Theorem C20_order_id_map_wf : wf_t t_init /\ (forall u ops t t' ms, run_ops u t ops = (t', ms) -> wf_t t -> wf_t t').
Proof. split; [split; constructor|]. intros u ops t t' ms R. apply (run_ext R). Qed.
Print Assumptions C20_order_id_map_wf.

(* ... and in the closed loop (each report processed before the next is fabricated, ClOrdID = the order's) the whole
   run carries one OrderID *)
Theorem C20_order_id_closed_loop : forall u calls t o,
  Forall (fun a => a_clord a = Some (o_clord o)) calls ->
  match drive u t o calls with
  | [] => True
  | m0 :: ms => order_id_of m0 <> None /\ Forall (fun m => order_id_of m = order_id_of m0) ms
  end.
Proof.
  intros u calls. induction calls as [|a calls IH]; intros t o F; cbn [drive]; [exact I|].
  inversion F as [|? ? FA F']; subst.
  destruct (fix_exec_report_msg u t o a) as [m t1|t1] eqn:E; [|now apply IH].
  destruct (process_oid E FA) as (O1 & O2 & _).
  rewrite (exec_order_id E) in *. split; [discriminate|].
  apply drive_oid_inv; [exact O1|]. now rewrite O2.
Qed.
Print Assumptions C20_order_id_closed_loop.

(* the former finding C20-orderid-open-loop (OrderIDs 1 then 2) is gone: both reports carry OrderID 1, remembered
   under the root ClOrdID "ord" *)
Example C20_order_id_open_loop_fixed :
  exists t1 m1 t2 m2,
    fix_exec_report_msg 4096 w_state w_order (w_args (o_clord w_order) PENDING_NEW PENDING_NEW None None) = Ok m1 t1 /\
    fix_exec_report_msg 4096 t1 w_order (w_args (o_clord w_order) NEW NEW (Some 0) (Some (8 * 4096))) = Ok m2 t2 /\
    order_id_of m1 = Some [49%N] /\ order_id_of m2 = Some [49%N] /\
    t_oids t2 = [(root_of w_order, 1)] /\ root_of w_order = [111;114;100]%N.
Proof. do 4 eexists. vm_compute. repeat split; reflexivity. Qed.
Print Assumptions C20_order_id_open_loop_fixed.

(* ---------------------------------------------------------------- tags and values *)

(* the tag sequence is fixed by the arguments; every tag occurs once; the mandatory tags
   11 37 17 150 39 54 14 151 55 44 38 6 1 are present; LastQty iff TRADE; OrigClOrdID iff given *)
Theorem C20_tags : forall u t o a m t',
  fix_exec_report_msg u t o a = Ok m t' ->
  tags_of m = expected_tags a /\ NoDup (tags_of m).
Proof. exact @exec_tags. Qed.
Print Assumptions C20_tags.

Theorem C20_mandatory_tags : forall u t o a m t',
  fix_exec_report_msg u t o a = Ok m t' ->
  NoDup (tags_of m) /\
  Forall (fun tag => In tag (tags_of m)) mandatory_tags /\
  (In T_LastQty (tags_of m) <-> a_exec a = X_TRADE) /\
  (In T_OrigClOrdID (tags_of m) <-> truthy (a_orig a) = true).
Proof.
  intros u t o a m t' H. apply exec_tags in H as (-> & ND).
  split; [exact ND|]. split; [apply expected_mandatory|]. split; [apply expected_lastqty|apply expected_orig].
Qed.
Print Assumptions C20_mandatory_tags.

Example C20_mandatory_tags_are :
  mandatory_tags = [11; 37; 17; 150; 39; 54; 14; 151; 55; 44; 38; 6; 1]%N.
Proof. reflexivity. Qed.
Print Assumptions C20_mandatory_tags_are.

Theorem C20_values : forall u t o a m t',
  fix_exec_report_msg u t o a = Ok m t' ->
  option_map (@Some str) (get_s T_ClOrdID m) = Some (a_clord a) /\
  get_s T_ExecType m = Some [a_exec a] /\ get_s T_OrdStatus m = Some [a_status a] /\
  get_s T_Side m = Some (o_side o) /\ get_s T_Symbol m = Some (o_ticker o) /\
  get_s T_Account m = Some (o_account o) /\ get_q T_AvgPx m = Some (a_avg a) /\
  get_q T_Price m = Some (match a_price a with Some p => p | None => o_price o end) /\
  get_q T_OrderQty m = Some (match a_oqty a with Some q => q | None => o_qty o end) /\
  (forall p, a_price a = Some p -> a_exec a = X_REPLACED) /\
  (forall q, a_oqty a = Some q -> a_exec a = X_REPLACED /\ 0 < q).
Proof.
  intros u t o a m t' H. destruct (exec_qtys H) as (_ & _ & _ & _ & OQ & _).
  destruct (exec_inv H) as (-> & _ & C & _ & _ & _ & _ & P).
  destruct (sent_report_get t o a) as (G1 & _ & _ & G4 & G5 & G6 & _ & _ & _ & G10 & G11 & G12 & G13 & G14).
  split; [rewrite G1; cbn [option_map]; now rewrite <- C|]. auto 15.
Qed.
Print Assumptions C20_values.

(* ---------------------------------------------------------------- processed by the order object *)

(* a report carrying the order's ClOrdID (or its OrigClOrdID) and an FOrdStatus member is processed
   without error (model of process_execution_report restricted to what C20 needs; the full order model
   is C17's; the harness runs the real method on every fabricated report) ... *)
Theorem C20_processed_partial : forall u t o a m t',
  fix_exec_report_msg u t o a = Ok m t' ->
  (a_clord a = Some (o_clord o) \/ a_clord a = o_orig o) ->
  In (a_status a) all_statuses ->
  snd (process_execution_report o m) = RetTrue \/ snd (process_execution_report o m) = RetFalse.
Proof. exact @process_no_error. Qed.
Print Assumptions C20_processed_partial.

(* ... any other ClOrdID is accepted by the helper and refused by the order object with FIXError
   [finding C20-foreign-clordid] *)
Theorem C20_processed_foreign_clordid_refuted :
  exists m t', fix_exec_report_msg 4096 w_state w_order (w_args [120%N] NEW NEW (Some 0) (Some (8 * 4096))) = Ok m t' /\
               snd (process_execution_report w_order m) = RaisedFIXError.
Proof. do 2 eexists. vm_compute. split; reflexivity. Qed.
Print Assumptions C20_processed_foreign_clordid_refuted.

(* the internal status CREATED = "Z" (an FOrdStatus member, not a FIX 4.4 OrdStatus value) is never put on the wire
   (fixes/R12a; former finding C20-status-created) *)
Theorem C20_status_never_created : forall u t o a m t',
  fix_exec_report_msg u t o a = Ok m t' -> a_status a <> CREATED /\ get_s T_OrdStatus m = Some [a_status a].
Proof.
  intros u t o a m t' H. split; [apply (exec_inv H)|apply (C20_values _ _ _ _ _ _ H)].
Qed.
Print Assumptions C20_status_never_created.

Example C20_status_created_refused :
  fix_exec_report_msg 4096 w_state w_order (w_args (o_clord w_order) NEW CREATED None None) = AssertionFailed w_state /\
  fix_cxlrep_reject_msg [K_ORDERCANCELREQUEST] (Some [97%N]) (Some [98%N]) CREATED = RAssertion /\
  In CREATED all_statuses.
Proof. vm_compute. repeat split; try reflexivity. now left. Qed.
Print Assumptions C20_status_created_refused.

(* ---------------------------------------------------------------- cancel reject *)

(* 37 / 11 / 41 / 39 / 434 in this order, 434 = "1" for a cancel request, "2" for a replace request; never status Z *)
Theorem C20_cancel_reject : forall mt clord orig st m,
  fix_cxlrep_reject_msg mt clord orig st = ROk m ->
  exists c og r,
    clord = Some c /\ orig = Some og /\ st <> CREATED /\
    m = [(T_OrderID, VS [48%N]); (T_ClOrdID, VS c); (T_OrigClOrdID, VS og); (T_OrdStatus, VS [st]);
         (T_CxlRejResponseTo, VS [r])] /\
    ((mt = [K_ORDERCANCELREQUEST] /\ r = 49%N) \/ (mt = [K_ORDERCANCELREPLACEREQUEST] /\ r = 50%N)).
Proof. exact reject_spec. Qed.
Print Assumptions C20_cancel_reject.

Theorem C20_cancel_reject_refuses : forall mt clord orig st,
  fix_cxlrep_reject_msg mt clord orig st = RAssertion <->
  (exists c og, clord = Some c /\ orig = Some og) /\
  (st = CREATED \/ (mt <> [K_ORDERCANCELREQUEST] /\ mt <> [K_ORDERCANCELREPLACEREQUEST])).
Proof. exact reject_refuses. Qed.
Print Assumptions C20_cancel_reject_refuses.

(* ---------------------------------------------------------------- non-vacuity *)

(* a partial fill on a live, consistent order with LastQty off by 2/4096 (< 0.0005) is accepted, reuses the
   order's OrderID and is processed; off by 3/4096 it is refused after the ExecID was consumed *)
Example C20_nonvacuous_fill :
  exists m t', fix_exec_report_msg 4096 w_state w_live w_fill = Ok m t' /\
    wf_order w_live /\ get_q T_LastQty m = Some (2 * 4096 + 2) /\ order_id_of m = Some [49%N] /\
    snd (process_execution_report w_live m) = RetTrue /\
    o_status (fst (process_execution_report w_live m)) = PARTIALLY_FILLED /\
    o_cum (fst (process_execution_report w_live m)) = 2 * 4096.
Proof. do 2 eexists. vm_compute. repeat split; try reflexivity; discriminate. Qed.
Print Assumptions C20_nonvacuous_fill.

Example C20_nonvacuous_tolerance :
  fix_exec_report_msg 4096 w_state w_live
    (mkArgs (Some (o_clord w_live)) X_TRADE PARTIALLY_FILLED (Some (2 * 4096)) (Some (6 * 4096)) (Some (2 * 4096 + 3))
            None None None 0) = AssertionFailed (mkT 0 10001 (t_reg w_state) []).
Proof. vm_compute. reflexivity. Qed.
Print Assumptions C20_nonvacuous_tolerance.

Example C20_nonvacuous_closed_loop :
  map (fun m => (order_id_of m, exec_id_of m))
      (drive 4096 w_state w_order
         [w_args (o_clord w_order) PENDING_NEW PENDING_NEW None None;
          w_args (o_clord w_order) NEW NEW (Some 0) (Some (8 * 4096));
          w_args (o_clord w_order) CANCELED CANCELED None (Some 0)])
  = [(Some [49%N], Some [49;48;48;48;49]%N); (Some [49%N], Some [49;48;48;48;50]%N); (Some [49%N], Some [49;48;48;48;51]%N)].
Proof. vm_compute. reflexivity. Qed.
Print Assumptions C20_nonvacuous_closed_loop.

(* ================================================================ validity against the FIX 4.4 dictionary *)
(* validate44 m = SchemaModel.validate value_check44 GenSchema.FIX44.schema m, where value_check44 runs C19's
   validate_value model on the entry of C19's regenerated table for the same tag (Fix/TesterSchema.v);
   render pr mt m = the FIXMessage with MsgType mt, tag texts str(tag), numbers printed by pr. *)

(* the two regenerated tables describe the same fields: same type name, same has-enum flag, for all 912 *)
Example C20_tables_agree : forallb field_agrees GenSchema.FIX44.fields = true.
Proof. exact tables_agree. Qed.
Print Assumptions C20_tables_agree.

(* session message factories: msg_logon (default tags), msg_logout, msg_heartbeat (no id / any valid String id /
   str(z) for every integer z), msg_test_request (any valid String id), msg_sequence_reset (all 0 < n, new < 10^4300,
   both flags), msg_resend_request (all 0 < begin < 10^4300, 0 <= end < 10^4300); 10^4300 = CPython's int() digit
   limit, beyond which the library's own validator refuses the text.  All-values proofs except the three closed
   messages (by computation). *)
Theorem C20_session_factories_validate :
  validate44 (render0 (msg_logon [])) = SM.Ok /\
  validate44 (render0 msg_logout) = SM.Ok /\
  validate44 (render0 (msg_heartbeat None)) = SM.Ok /\
  (forall s, valid_string s = true -> validate44 (render0 (msg_heartbeat (Some s))) = SM.Ok) /\
  (forall z, validate44 (render0 (msg_heartbeat (Some (z_to_dec z)))) = SM.Ok) /\
  (forall s, valid_string s = true -> validate44 (render0 (msg_test_request s)) = SM.Ok) /\
  (forall n new g, seq_ok n -> seq_ok new -> validate44 (render0 (msg_sequence_reset n new g)) = SM.Ok) /\
  (forall b e, seq_ok b -> (0 <= e < Z.of_N INT_LIMIT)%Z -> validate44 (render0 (msg_resend_request b e)) = SM.Ok).
Proof.
  do 3 (split; [vm_compute; reflexivity|]).
  split; [exact (test_req_id_validates [48%N] (or_introl eq_refl))|].
  split; [exact (fun z => test_req_id_validates [48%N] (or_introl eq_refl) _ (z_to_dec_valid z))|].
  split; [exact (test_req_id_validates [49%N] (or_intror eq_refl))|].
  split; [exact sequence_reset_validates|exact resend_request_validates].
Qed.
Print Assumptions C20_session_factories_validate.

(* cancel reject: every valid String ClOrdID / OrigClOrdID (non-empty, no SOH, no '='), every FOrdStatus member
   (CREATED is refused by the helper itself since fixes/R12a), both request kinds *)
Theorem C20_cancel_reject_validates : forall mt c og st m,
  fix_cxlrep_reject_msg mt (Some c) (Some og) st = ROk m ->
  valid_string c = true -> valid_string og = true -> In st all_statuses ->
  validate44 (render no_numbers [57%N] m) = SM.Ok.
Proof. exact cancel_reject_validates. Qed.
Print Assumptions C20_cancel_reject_validates.

(* execution report: every accepted call whose texts are valid Strings, whose ExecType / OrdStatus / Side are
   enum members (exec_valid; OrdStatus CREATED cannot occur) and whose numbers are rendered inside the finite FIX float layout validates -
   for ANY renderer pr (partial: the rendering of numbers is the hypothesis) ... *)
Theorem C20_exec_report_validates_partial : forall pr u t o a m t',
  fix_exec_report_msg u t o a = Ok m t' -> exec_valid o a -> numbers_ok pr m ->
  validate44 (render pr [56%N] m) = SM.Ok.
Proof. exact exec_report_validates. Qed.
Print Assumptions C20_exec_report_validates_partial.

(* ... the exact decimal expansion of z / 2^k (what str(float) prints for the binary fractions of the harness's
   exact stream) is such a rendering whenever the integer part is below float()'s overflow threshold ... *)
Theorem C20_printer_is_finite_fix_float : forall k z,
  printable k z -> Lex.lex_float (print_q k z) = true /\ Lex.float_overflows (print_q k z) = false.
Proof. exact print_q_float_ok. Qed.
Print Assumptions C20_printer_is_finite_fix_float.

(* ... hence: *)
Theorem C20_exec_report_validates_printed : forall k u t o a m t',
  fix_exec_report_msg u t o a = Ok m t' -> exec_valid o a -> numbers_printable k m ->
  validate44 (render (print_q k) [56%N] m) = SM.Ok.
Proof.
  intros k u t o a m t' H EV NP. apply (exec_report_validates _ _ _ _ _ _ _ H EV).
  unfold numbers_ok, numbers_printable in *. eapply Forall_impl; [|exact NP].
  intros [tag [s|z]]; cbn; [auto|apply print_q_float_ok].
Qed.
Print Assumptions C20_exec_report_validates_printed.

Example C20_exec_report_validates_nonvacuous :
  exists m t', fix_exec_report_msg 4096 w_state w_live w_fill = Ok m t' /\
    validate44 (render (print_q 12) [56%N] m) = SM.Ok /\
    get_tag_text (render (print_q 12) [56%N] m) [51;50]%N = Some [50;46;48;48;48;52;56;56;50;56;49;50;53]%N.
Proof. do 2 eexists. split; [vm_compute; reflexivity|]. split; vm_compute; reflexivity. Qed.
Print Assumptions C20_exec_report_validates_nonvacuous.

(* the hypothesis numbers_ok is needed: a rendering outside the layout ("1e-05", what str(float) printed below 1e-4
   before fixes/R12c + R12d made the helper print plain notation) is refused by the dictionary *)
Example C20_exponent_text_outside_layout :
  exists m t', fix_exec_report_msg 4096 w_state w_live w_fill = Ok m t' /\
    validate44 (render exponent_text [56%N] m) = SM.Exc SM.EFIXMessage.
Proof. do 2 eexists. split; [vm_compute; reflexivity|]. vm_compute. reflexivity. Qed.
Print Assumptions C20_exponent_text_outside_layout.

