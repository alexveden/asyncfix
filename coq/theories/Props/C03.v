(* C03 - stream reassembly is independent of how the byte stream is chunked (round 9: full strength).
   The theorems (the lemmas they follow from are in AF.Lemmas.ReaderL and ReaderHooksL, on top of AF.Lemmas.RoundTripL).
   Model: reader_loop / reader_step / reader_run of Fix/Codec.v (the body of socket_read_task between
   two read() calls, folded over the reads) with the round-9 decoder (partial-marker tail kept, frame
   candidate ends at its CheckSum field, completeness tested against len(raw) - valid_idx).

   encoder_frame G bs (F, dm) - F is an encoder frame under the hypotheses of C01_roundtrip (wf_msg,
                                no_marker = negation of D5, small_frame) and dm is its decoded message.
   enc_seg G bs (J, (F, dm))  - such a frame preceded by junk J with no occurrence of "8=FIX." (J may be empty,
                                may end in a proper prefix of the marker, may contain SOH, "10=", anything else).
   stream_of segs tail        - J1 ++ F1 ++ J2 ++ F2 ++ ... ++ Jn ++ Fn ++ tail.
   delivered (F, dm)          - (dm, F): what the reader hands to _process_message.
   status 0                   - the read ended in "wait for more bytes" (no exception, no fuel exhaustion).
   No hypothesis on the chunking: cuts inside the marker, inside BodyLength, inside CheckSum, inside the
   junk, one-byte reads, empty reads.  The former class hypotheses (no_cut_inside_marker, junk only in
   junk-only reads at frame boundaries, |junk| + |prefix| < |frame|) are gone. *)
From Coq Require Import ZArith NArith List Bool.
From AF Require Import Base.Sx Py.Str Fix.Codec Fix.WfMsg Fix.ReaderHooks Lemmas.RoundTripL Lemmas.ReaderL Lemmas.ReaderHooksL.
From AFGen Require Import GenGroups.
Import ListNotations.
Open Scope N_scope.

(* deliver lemma: marker-free junk, a frame, then ANY bytes (nothing, garbage, part of the next frame):
   the frame is decoded to its message and exactly junk + frame are consumed *)
Theorem C03_complete_prefix : forall G bs J fm R silent, wf_table G = true -> no_mark J -> encoder_frame G bs fm ->
  decode G bs (J ++ fst fm ++ R) silent = Ok (Some (snd fm), (zlen J + zlen (fst fm))%Z, Some (fst fm)).
Proof.
  intros G bs J fm R silent HG HJ Hfm. apply frame_ok_decode; [exact HJ | apply encoder_frame_ok; assumption].
Qed.
Print Assumptions C03_complete_prefix.

(* wait lemma: marker-free junk and ANY proper prefix P of a frame: no byte of the frame is consumed.
   |P| >= 1: exactly the junk is consumed; P empty: all of the junk but a trailing proper marker prefix *)
Theorem C03_wait : forall G bs J fm P Q, wf_table G = true -> no_mark J -> encoder_frame G bs fm ->
  fst fm = P ++ Q -> Q <> [] ->
  ((6 <= length P)%nat -> decode G bs (J ++ P) true = Ok (None, zlen J, None))
  /\ ((1 <= length P <= 5)%nat -> decode G bs (J ++ P) true = Ok (None, zlen J, None))
  /\ (P = [] -> exists k, (k <= 5)%nat /\ decode G bs J true = Ok (None, (zlen J - Z.of_nat k)%Z, None)
                 /\ exists pre, J = pre ++ firstn k MARK).
Proof. exact wait_for_more. Qed.
Print Assumptions C03_wait.

(* THE PROPERTY: for every stream of valid frames with marker-free junk before, between and after them,
   and EVERY partition of the stream into reads, the reader hands over exactly the frames, in order,
   never raises, and what stays in the buffer is a proper prefix of the marker (0..5 bytes) that ends
   the trailing junk *)
Theorem C03_chunk_independent : forall G bs segs tail chunks,
  wf_table G = true -> Forall (enc_seg G bs) segs -> no_mark tail ->
  concat chunks = stream_of segs tail ->
  exists resid,
    reader_run G bs [] chunks = (resid, map delivered (map snd segs), map (fun _ => 0) chunks)
    /\ marker_prefix resid /\ exists pre, tail = pre ++ resid.
Proof. exact chunk_independent. Qed.
Print Assumptions C03_chunk_independent.

(* no junk: the buffer ends empty *)
Theorem C03_chunk_independent_frames : forall G bs fms chunks,
  wf_table G = true -> Forall (encoder_frame G bs) fms -> concat chunks = concat (map fst fms) ->
  reader_run G bs [] chunks = ([], map delivered fms, map (fun _ => 0) chunks).
Proof. exact chunk_independent_frames. Qed.
Print Assumptions C03_chunk_independent_frames.

(* non-vacuity: "xyz" FA "x8=FI" FB "zz8=" satisfies the hypotheses; in one-byte reads and in two reads cut
   3 bytes into FB both frames are delivered and "8=" stays *)
Theorem C03_nonvacuous :
  (Forall (enc_seg GenGroups.table beginstring) ex_segs /\ no_mark ex_tail)
  /\ reader_run GenGroups.table beginstring [] (map (fun c => [c]) (stream_of ex_segs ex_tail))
     = ([56; 61], ex_both, map (fun _ => 0) (stream_of ex_segs ex_tail))
  /\ reader_run GenGroups.table beginstring []
       [ex_garbage ++ ex_FA ++ ex_junk2 ++ firstn 3 ex_FB; skipn 3 ex_FB ++ ex_tail] = ([56; 61], ex_both, [0; 0]).
Proof. split; [exact ex_segs_encoder | split; vm_compute; reflexivity]. Qed.
Print Assumptions C03_nonvacuous.

(* the former refuted witnesses, now positive (classes D6-cut-in-marker, D6-garbage-after-frame,
   one-byte reads, D8-junk-prefix-counted-in-length: fixed by R9a, R9b, R9c) *)
Theorem C03_cut_in_marker_ok : forall k, In k [1; 2; 3; 4; 5]%nat ->
  reader_run GenGroups.table beginstring [] [ex_FA ++ firstn k ex_FB; skipn k ex_FB] = ([], ex_both, [0; 0])
  /\ reader_run GenGroups.table beginstring [] [ex_FA; firstn k ex_FB; skipn k ex_FB] = ([], ex_both, [0; 0; 0]).
Proof. intros k _. destruct (ex_cut_anywhere 0 k) as [A [B _]]. exact (conj A B). Qed.
Print Assumptions C03_cut_in_marker_ok.

Theorem C03_garbage_ok :
  reader_run GenGroups.table beginstring [] [ex_FA ++ ex_garbage; ex_FB] = ([], ex_both, [0; 0])
  /\ reader_run GenGroups.table beginstring [] [ex_FA ++ ex_garbage ++ ex_FB] = ([], ex_both, [0]).
Proof. split; vm_compute; reflexivity. Qed.
Print Assumptions C03_garbage_ok.

Theorem C03_one_byte_reads_ok :
  reader_run GenGroups.table beginstring [] (map (fun c => [c]) (ex_FA ++ ex_FB))
  = ([], ex_both, map (fun _ => 0) (ex_FA ++ ex_FB)).
Proof. vm_compute. reflexivity. Qed.
Print Assumptions C03_one_byte_reads_ok.

Theorem C03_junk_prefix_cut_ok : forall k, In k [1; 2; 3; 4; 5]%nat ->
  reader_run GenGroups.table beginstring []
    [ex_garbage ++ firstn (87 - k) ex_FA; skipn (87 - k) ex_FA ++ ex_FB] = ([], ex_both, [0; 0]).
Proof. intros k _. apply (ex_cut_anywhere (87 - k) 0). Qed.
Print Assumptions C03_junk_prefix_cut_ok.

(* --- a dispatcher that RAISES (Fix/ReaderHooks.v: `raises k` - the dispatch of the k-th message of this pass raises; the
   reader task logs the exception and goes back to read()).  For ARBITRARY buffer contents, group tables and hook
   behaviours: either nothing raised and the pass is the model's pass, or the pass ended (status 1) right after the failing
   dispatch, and decoding what it left in the buffer completes exactly the deliveries of the pass whose dispatcher never
   raises - same messages, same order, same final buffer and status: the failing frame is consumed (the buffer is advanced
   BEFORE the dispatch) and nothing behind it is lost or handed over twice. *)
Theorem C03_raising_dispatcher_loses_nothing : forall raises G bs f buf acc b1 o1 s1,
  reader_loop_h raises G bs f buf acc = (b1, o1, s1) ->
  reader_loop G bs f buf acc = (b1, o1, s1)
  \/ exists f' b2 o2 s2, (f' <= f)%nat /\ s1 = 1 /\ reader_loop G bs f' b1 [] = (b2, o2, s2)
                         /\ reader_loop G bs f buf acc = (b2, o1 ++ o2, s2).
Proof. exact reader_loop_h_loses_nothing. Qed.
Print Assumptions C03_raising_dispatcher_loses_nothing.

Theorem C03_dispatcher_never_raises : forall raises G bs f buf acc,
  (forall k, raises k = false) -> reader_loop_h raises G bs f buf acc = reader_loop G bs f buf acc.
Proof. exact reader_loop_h_never. Qed.
Print Assumptions C03_dispatcher_never_raises.

(* both example frames in one read, the dispatch of the first one raises: frame A is consumed, the next pass delivers B *)
Example C03_raising_dispatch_example :
  let r1 := reader_loop_h (fun k => Nat.eqb k 0) GenGroups.table beginstring (S (length (ex_FA ++ ex_FB))) (ex_FA ++ ex_FB) [] in
  r1 = (ex_FB, firstn 1 ex_both, 1)
  /\ reader_loop GenGroups.table beginstring (S (length ex_FB)) (fst (fst r1)) [] = ([], skipn 1 ex_both, 0).
Proof. vm_compute. split; reflexivity. Qed.
Print Assumptions C03_raising_dispatch_example.
