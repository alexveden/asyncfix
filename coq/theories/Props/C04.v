(* C04 - inbound application messages are delivered in order, once, never past a gap.
   The theorems (the lemmas they follow from are in AF.Lemmas.SessionL / SessionC04L / SessionC05L / SessionHooksL) about the model Fix/Session.v of
   asyncfix/connection.py:_process_message and the handlers it calls.

   `run c w h` executes the history h (inbound messages, and also send attempts / timer calls) from
   ANY world w - no reachability assumption is needed for what holds, the statements are about every
   start state - and returns one record per step (world before, operation, result).
   `delivered s` = the MsgSeqNum values the step handed to on_message; `resends evs` = the
   ResendRequest frames among the written frames.

   Known-finding classes (the `_partial` theorems exclude exactly these steps, `_refuted` exhibit them):
     (D10 - re-delivery of a frame numbered below the expected number while RESENDREQ_AWAITING - is repaired
      in the code: C04_deliver_exactly_expected / C04_no_redelivery now hold without exception)
     D11_step  a SequenceReset passing the integrity check whose own number is not the expected one,
               or whose NewSeqNo is below the expected number
     D24       (single_resend) a Logon arriving while RESENDREQ_AWAITING (see C04_logon_dup_resend_refuted) *)
From Coq Require Import ZArith NArith List Bool Sorting.Sorted.
From AF Require Import Base.Sx Py.Str Fix.Session Fix.SessionHooks Lemmas.SessionL Lemmas.SessionC04L Lemmas.SessionC11L Lemmas.SessionC05L Lemmas.SessionHooksL.
Import ListNotations.
Open Scope Z_scope.

(* the state / role numbers, message type values and tag numbers of the model are those of the code
   (GenEnums is regenerated from /repo on every run; a renumbering breaks this) *)
Example C04_enums_tied : enums_ok = true.
Proof. exact enums_tied. Qed.
Print Assumptions C04_enums_tied.

(* every history, every start state: a delivery carries exactly the expected number of its moment, is the
   only delivery of its step, and the expected number afterwards is that number + 1 *)
Theorem C04_deliver_exactly_expected : forall c h w,
  Forall (fun s => delivered s = [] \/
                   (delivered s = [nin (s_before s)] /\ nin (s_after s) = nin (s_before s) + 1)) (run c w h).
Proof. exact run_deliver_exact. Qed.
Print Assumptions C04_deliver_exactly_expected.

(* ... in particular nothing is handed to the application with a number above the expected one (never past a gap) *)
Theorem C04_deliver_at_most_expected : forall c h w,
  Forall (fun s => forall n, In n (delivered s) -> n <= nin (s_before s)) (run c w h).
Proof.
  intros c h w. eapply Forall_impl; [|apply run_deliver_exact]. cbn beta. intros s [H|[H _]] n; rewrite H; cbn; [tauto|].
  intros [<-|[]]. apply Z.le_refl.
Qed.
Print Assumptions C04_deliver_at_most_expected.

(* ... and an inbound message numbered below the expected number is never handed to the application, in any
   state (in RESENDREQ_AWAITING the integrity check lets it through; it is then dropped by the dispatcher) *)
Theorem C04_no_redelivery : forall c h w,
  Forall (fun s => forall m now n, s_op s = OIn m now -> get_int T34 m = inl n -> n < nin (s_before s) ->
                                   apps (s_events s) = []) (run c w h).
Proof.
  intros c h w. apply run_Forall. unfold s_events. cbn [s_op s_before s_res]. intros o w0 m now n -> Hn Hlt. cbn [step].
  destruct (process_message_apps c m now w0) as [Ha|[_ [_ [_ [Hs _]]]]]; [exact Ha|].
  rewrite Hs in Hn. inversion Hn; subst. now apply Z.lt_irrefl in Hlt.
Qed.
Print Assumptions C04_no_redelivery.

(* outside class D11: the delivered numbers of the whole history are strictly increasing (nothing twice),
   each delivery carries exactly the expected number of its moment, is the only delivery of its step,
   and the expected number afterwards is that number + 1 *)
Theorem C04_inorder_partial : forall c h w,
  Forall (fun s => ~ D11_step c s) (run c w h) ->
  Forall (fun n => nin w <= n) (flat_map delivered (run c w h))
  /\ StronglySorted Z.lt (flat_map delivered (run c w h))
  /\ Forall (fun s => forall n, In n (delivered s) ->
                      n = nin (s_before s) /\ nin (s_after s) = n + 1 /\ delivered s = [n]) (run c w h).
Proof. exact run_inorder. Qed.
Print Assumptions C04_inorder_partial.

(* one inbound message makes the receiver write at most one ResendRequest; it asks from the expected
   number (BeginSeqNo = next_num_in, EndSeqNo = 0) and is written only when no resend is awaited
   [or the message is a Logon: D24]; while a resend is awaited nothing further is requested and the
   state stays RESENDREQ_AWAITING until the connection drops or _finalize_message closes the gap
   (ACTIVE with the watermark reset) *)
Theorem C04_single_resend : forall c h w, Forall resend_ok (run c w h).
Proof. intros c h w. apply run_Forall. intros. apply step_resend_ok. Qed.
Print Assumptions C04_single_resend.

(* "exactly one": a message without pre-handler (application, TestRequest, Heartbeat, ResendRequest) numbered
   above the expected number, on a connection whose Logon exchange is complete (state above LOGON_INITIAL_RECV:
   since R8b such a message drops a connection still in the exchange) and not yet awaiting a resend, makes the receiver write
   exactly one ResendRequest(BeginSeqNo = next_num_in, EndSeqNo = 0), deliver nothing, keep next_num_in and wait
   in RESENDREQ_AWAITING (or drop) - provided the outbound side is intact (Out_inv of C05: no D20 damage,
   else the journal write of the request raises and the state is not advanced) and the send gate is open.
   [SequenceReset: D11; acceptor Logon: D26; Logout: the session ends] *)
Theorem C04_gap_is_requested_partial : forall c m now w n,
  Out_inv w -> in_i64 (nout w) = true -> validate_integrity c m w = VOk -> get_int T34 m = inl n ->
  nin w < n -> st w <> ST_AWAITING -> ST_LOGON_RECV < st w -> gate_refuses (rr_msg w) w = false -> plain_kind m ->
  exists rr, resends (re (process_message c m now w)) = [rr]
             /\ get T7 (mtags rr) = Some (z_to_dec (nin w)) /\ get T16 (mtags rr) = Some S_0
             /\ apps (re (process_message c m now w)) = []
             /\ nin (rw (process_message c m now w)) = nin w
             /\ (st (rw (process_message c m now w)) = ST_AWAITING \/ dead (rw (process_message c m now w))).
Proof. exact gap_is_requested. Qed.
Print Assumptions C04_gap_is_requested_partial.

(* the expected number moves only: by one, on an accepted message that carries it (since the repair of D22 this
   includes the peer's Logout, counted in the pre-handler before the session is torn down); or, on a
   SequenceReset passing the integrity check, to that frame's own number or to its NewSeqNo *)
Theorem C04_counter_moves : forall c h w, Forall (counter_moves c) (run c w h).
Proof. exact run_counter_moves. Qed.
Print Assumptions C04_counter_moves.

(* outside class D11 it never moves backwards, and a SequenceReset moves it to NewSeqNo only *)
Theorem C04_counter_forward_partial : forall c h w,
  Forall (fun s => ~ D11_step c s) (run c w h) ->
  Forall (fun s => nin (s_after s) = nin (s_before s)
                   \/ nin (s_after s) = nin (s_before s) + 1
                   \/ exists m now b, s_op s = OIn m now /\ mkind m = KSeqReset
                                      /\ get_int T36 m = inl b /\ nin (s_before s) <= b /\ nin (s_after s) = b)
         (run c w h).
Proof.
  intros c h w Hc. pose proof (run_counter_moves c h w) as Hm. rewrite Forall_forall in *. intros s Hs.
  destruct (Hm s Hs) as [H|[[m [now [Ho [Hk [V [Hn H]]]]]]|[m [now [a [Ho [Hk [V [Ha Hn]]]]]]]]]; auto.
  destruct (ok_seqreset_dec (s_before s) m) as [[Hok1 Hok2]|Hno].
  2:{ exfalso. apply (Hc s Hs). exists m, now. auto. }
  assert (a = nin (s_before s)) by congruence. subst a.
  destruct Hn as [Hn|[b [Hb Hn]]]; [left; exact Hn|].
  right. right. exists m, now, b. repeat split; auto.
Qed.
Print Assumptions C04_counter_forward_partial.

(* the former D10 witness: Logon(1), 2, 4 (gap), 2 again -> 2 is delivered once; the connection still awaits 3 *)
Example C04_dup_not_redelivered :
  flat_map delivered (run cfg0 w_acceptor h_dup) = [2]
  /\ st (final cfg0 w_acceptor h_dup) = ST_AWAITING /\ nin (final cfg0 w_acceptor h_dup) = 3.
Proof. vm_compute. repeat split; reflexivity. Qed.
Print Assumptions C04_dup_not_redelivered.

(* D11: a gap fill numbered above the expected number moves the expected number past the missing
   messages; no ResendRequest is ever written for them *)
Theorem C04_high_gapfill_refuted :
  exists c w h s m now n,
    In s (run c w h) /\ s_op s = OIn m now /\ get_int T34 m = inl n /\ nin (s_before s) < n
    /\ nin (s_before s) < nin (s_after s) /\ resends (trace (run c w h)) = []
    /\ flat_map delivered (run c w h) = [].
Proof.
  exists cfg0, w_acceptor, h_highfill.
  eexists (nth 1 (run cfg0 w_acceptor h_highfill) (mkS w_acceptor (i_logon 1) (step cfg0 (i_logon 1) w_acceptor))).
  eexists. exists 0, 5.
  split; [right; left; reflexivity|]. split; [reflexivity|]. vm_compute. repeat split; reflexivity.
Qed.
Print Assumptions C04_high_gapfill_refuted.

(* D11: a SequenceReset with NewSeqNo below the expected number is honoured *)
Theorem C04_backward_reset_refuted :
  exists c w h, ~ StronglySorted Z.lt (flat_map delivered (run c w h))
                /\ exists s, In s (run c w h) /\ nin (s_after s) < nin (s_before s).
Proof.
  exists cfg0, w_acceptor, h_backreset. split.
  - assert (E : flat_map delivered (run cfg0 w_acceptor h_backreset) = [2; 3; 2]) by (vm_compute; reflexivity).
    rewrite E. intros H. inversion H as [|a l Hs Hf]; subst.
    inversion Hf as [|b l' _ Hf2]; subst. inversion Hf2 as [|b2 l2 Hlt _]; subst. discriminate Hlt.
  - eexists (nth 3 (run cfg0 w_acceptor h_backreset) (mkS w_acceptor (i_logon 1) (step cfg0 (i_logon 1) w_acceptor))).
    split; [right; right; right; left; reflexivity|]. vm_compute. reflexivity.
Qed.
Print Assumptions C04_backward_reset_refuted.

(* D24 (new): a second ResendRequest for the same gap, written from RESENDREQ_AWAITING *)
Theorem C04_logon_dup_resend_refuted :
  exists c w h rr1 rr2,
    resends (trace (run c w h)) = [rr1; rr2]
    /\ get T7 (mtags rr1) = get T7 (mtags rr2)
    /\ exists s, In s (run c w h) /\ st (s_before s) = ST_AWAITING /\ resends (s_events s) = [rr2].
Proof.
  exists cfg0, w_initiator, h_logon_dup. do 2 eexists. split; [vm_compute; reflexivity|]. split; [reflexivity|].
  eexists (nth 3 (run cfg0 w_initiator h_logon_dup) (mkS w_initiator o_logon (step cfg0 o_logon w_initiator))).
  split; [right; right; right; left; reflexivity|]. vm_compute. split; reflexivity.
Qed.
Print Assumptions C04_logon_dup_resend_refuted.

(* non-vacuity: Logon, 2, 5 (gap, one ResendRequest), 3, 4, GapFill 5->7, 7 is inside the scope of the
   partial theorems, delivers 2 3 4 7 and ends ACTIVE *)
Example C04_nonvacuous :
  Forall (fun s => ~ D11_step cfg0 s) (run cfg0 w_acceptor h_good)
  /\ flat_map delivered (run cfg0 w_acceptor h_good) = [2; 3; 4; 7]
  /\ length (resends (trace (run cfg0 w_acceptor h_good))) = 1%nat
  /\ st (final cfg0 w_acceptor h_good) = ST_ACTIVE.
Proof.
  split; [apply no_D11_decided; vm_compute; reflexivity|]. vm_compute. repeat split; reflexivity.
Qed.
Print Assumptions C04_nonvacuous.

(* D26 (new): a Logon numbered above the expected number, received by an acceptor in session, is dropped
   without any effect: no ResendRequest for the gap it reveals *)
Theorem C04_acceptor_relogon_refuted :
  exists c w h s m now n,
    In s (run c w h) /\ s_op s = OIn m now /\ get_int T34 m = inl n
    /\ st (s_before s) = ST_ACTIVE /\ nin (s_before s) < n /\ validate_integrity c m (s_before s) = VOk
    /\ s_events s = [] /\ s_after s = s_before s.
Proof.
  exists cfg0, w_acceptor, h_relogon.
  eexists (nth 1 (run cfg0 w_acceptor h_relogon) (mkS w_acceptor (i_logon 1) (step cfg0 (i_logon 1) w_acceptor))).
  eexists. exists 0, 5.
  split; [right; left; reflexivity|]. split; [reflexivity|]. vm_compute. repeat split; reflexivity.
Qed.
Print Assumptions C04_acceptor_relogon_refuted.

(* the peer's Logout in sequence is counted and journaled (D22 repaired), never delivered; one above a gap is not *)
Example C04_logout_counted :
  let w := final cfg0 w_acceptor [i_logon 1; i_app 2; i_logout 3] in
  nin w = 4 /\ j_in (jr w) = [1; 2; 3] /\ j_sin (jr w) = 3 /\ st w = ST_DISC_WCONN
  /\ flat_map delivered (run cfg0 w_acceptor [i_logon 1; i_app 2; i_logout 3]) = [2].
Proof. vm_compute. repeat split; reflexivity. Qed.
Print Assumptions C04_logout_counted.

Example C04_logout_gap_not_counted :
  let w := final cfg0 w_acceptor [i_logon 1; i_logout 5] in
  nin w = 2 /\ j_in (jr w) = [1] /\ st w = ST_DISC_WCONN.
Proof. vm_compute. repeat split; reflexivity. Qed.
Print Assumptions C04_logout_gap_not_counted.

(* --- application callbacks that RAISE (Fix/SessionHooks.v: `hr m = Some x` - on_message(m) records m and raises x).
   "whatever the peer sends" must not depend on the application's callback succeeding: the exception is swallowed by
   `except Exception`, and `_finalize_message` runs in the `finally:` clause.  For EVERY hook behaviour, every history
   and every start state the raising variant computes exactly what `run` computes (results, worlds, events) ... *)
Theorem C04_raising_callback_is_invisible : forall hr c h w, run_h hr c w h = run c w h.
Proof. exact run_h_eq. Qed.
Print Assumptions C04_raising_callback_is_invisible.

(* ... so a message whose callback failed is still counted: it is the only delivery of its step and the expected
   number afterwards is its number + 1 (it can never be handed over a second time) *)
Theorem C04_deliver_exactly_expected_raising : forall hr c h w,
  Forall (fun s => delivered s = [] \/
                   (delivered s = [nin (s_before s)] /\ nin (s_after s) = nin (s_before s) + 1)) (run_h hr c w h).
Proof. intros. rewrite run_h_eq. apply run_deliver_exact. Qed.
Print Assumptions C04_deliver_exactly_expected_raising.

Theorem C04_inorder_raising_partial : forall hr c h w,
  Forall (fun s => ~ D11_step c s) (run_h hr c w h) ->
  Forall (fun n => nin w <= n) (flat_map delivered (run_h hr c w h))
  /\ StronglySorted Z.lt (flat_map delivered (run_h hr c w h))
  /\ Forall (fun s => forall n, In n (delivered s) ->
                      n = nin (s_before s) /\ nin (s_after s) = n + 1 /\ delivered s = [n]) (run_h hr c w h).
Proof. intros hr c h w. rewrite run_h_eq. apply run_inorder. Qed.
Print Assumptions C04_inorder_raising_partial.

(* non-vacuity: Logon(1), 2, 3, 4 with a callback that fails EVERY time: three failed callbacks, each message handed
   over once, counted and journaled, no ResendRequest, the session stays ACTIVE *)
Example C04_failing_callbacks_counted :
  let r := run_h always_fails cfg0 w_acceptor h_fail in
  flat_map delivered r = [2; 3; 4]
  /\ length (failed_callbacks always_fails (trace r)) = 3%nat
  /\ resends (trace r) = []
  /\ nin (final cfg0 w_acceptor h_fail) = 5
  /\ j_in (jr (final cfg0 w_acceptor h_fail)) = [1; 2; 3; 4]
  /\ st (final cfg0 w_acceptor h_fail) = ST_ACTIVE.
Proof. vm_compute. repeat split; reflexivity. Qed.
Print Assumptions C04_failing_callbacks_counted.
