(* C13 - the journal is a faithful per-session, per-direction message store.
   The theorems (the lemmas they follow from are in AF.Lemmas.JournalL / JournalRunL).  `lookup t sid dir n` and
   `counter t sid` are the abstract map and counters read off the SQL tables of the model
   Fix/Journal.v; `wf` (unique primary keys, session ids 1..n, unique CompID pairs) holds in
   every reachable state (C13_reachable_wf), so the hypotheses below are always met. *)
From Coq Require Import ZArith NArith List Bool Sorting.Sorted.
From AF Require Import Base.Sx Py.Str Fix.Journal Fix.JournalRun Lemmas.JournalL Lemmas.JournalRunL.
Import ListNotations.
Open Scope Z_scope.

(* every state reachable by any operation sequence, including crash/close + reopen, is well formed *)
Theorem C13_reachable_wf : forall ops, db_wf (r_db (run_state ops)).
Proof. exact reachable_wf. Qed.
Print Assumptions C13_reachable_wf.

(* storing number n under a free key: succeeds, commits, and the tables become persist_tables *)
Theorem C13_persist_new : forall d msg s dir n,
  find_seq_no msg = Some n -> lookup (cur d) (key s) dir n = None ->
  persist_msg msg s dir d =
  (mkDb (persist_tables (cur d) n (key s) dir msg) (persist_tables (cur d) n (key s) dir msg) false, None).
Proof. intros d msg s dir n F L. now rewrite persist_msg_nf, F, L. Qed.
Print Assumptions C13_persist_new.

(* ... whose map is the old map plus exactly that entry ... *)
Theorem C13_persist_map : forall t n sid dir msg sid' dir' n',
  lookup t sid dir n = None ->
  lookup (persist_tables t n sid dir msg) sid' dir' n' =
  if (n' =? n) && (sid' =? sid) && (dir' =? dir) then Some msg else lookup t sid' dir' n'.
Proof. exact lookup_persist_tables. Qed.
Print Assumptions C13_persist_map.

(* ... and whose counters change only in that session and direction: stored = n, so next = n + 1 *)
Theorem C13_persist_counter : forall t n sid dir msg sid',
  counter (persist_tables t n sid dir msg) sid' =
  option_map (fun c => if sid' =? sid then (if dir =? OUTBOUND then (n, snd c) else (fst c, n)) else c)
             (counter t sid').
Proof. exact counter_persist_tables. Qed.
Print Assumptions C13_persist_counter.

(* storing a number twice fails with the duplicate error and changes nothing *)
Theorem C13_persist_duplicate : forall d msg s dir n old,
  find_seq_no msg = Some n -> lookup (cur d) (key s) dir n = Some old ->
  persist_msg msg s dir d = (mkDb (committed d) (cur d) true, Some EDuplicateSeqNo).
Proof. intros d msg s dir n old F L. now rewrite persist_msg_nf, F, L. Qed.
Print Assumptions C13_persist_duplicate.

Theorem C13_persist_malformed : forall d msg s dir,
  find_seq_no msg = None -> persist_msg msg s dir d = (d, Some EFIXMessage).
Proof. intros d msg s dir F. now rewrite persist_msg_nf, F. Qed.
Print Assumptions C13_persist_malformed.

(* a range query returns exactly the stored entries of that session and direction whose number
   is in [lo, hi], unchanged, in strictly ascending number order *)
Theorem C13_range_query : forall s dir lo hi d,
  wf (cur d) ->
  let rows := select_range (cur d) (key s) dir lo hi in
  recover_messages s dir lo hi d = map m_msg rows
  /\ StronglySorted seq_lt rows
  /\ (forall r, In r rows -> lo <= m_seq r <= hi /\ lookup (cur d) (key s) dir (m_seq r) = Some (m_msg r))
  /\ (forall n m, lo <= n <= hi -> lookup (cur d) (key s) dir n = Some m -> In (mkM n (key s) dir m) rows).
Proof.
  intros s dir lo hi d W rows. split; [reflexivity|]. split; [now apply select_range_strict|]. split.
  - intros r Hr. apply select_range_spec in Hr; tauto.
  - intros n m Hn L. apply select_range_spec; cbn; auto.
Qed.
Print Assumptions C13_range_query.

(* setting the counters removes exactly the messages numbered at or above the new values *)
Theorem C13_set_seq_num : forall d s o i,
  0 < o -> 0 < i ->
  set_seq_num s (Some o) (Some i) d =
  (mkDb (set_tables (cur d) (key s) o i) (set_tables (cur d) (key s) o i) false,
   mkSess (key s) (target s) (sender s) o i, None).
Proof.
  intros d s o i Ho Hi. unfold set_seq_num. apply Z.leb_gt in Ho, Hi. now rewrite Ho, Hi.
Qed.
Print Assumptions C13_set_seq_num.

Theorem C13_set_seq_num_map : forall t sid o i sid' dir' n,
  wf t ->
  lookup (set_tables t sid o i) sid' dir' n =
  if (sid' =? sid) && (((dir' =? INBOUND) && (i <=? n)) || ((dir' =? OUTBOUND) && (o <=? n)))
  then None else lookup t sid' dir' n.
Proof. exact lookup_set_tables. Qed.
Print Assumptions C13_set_seq_num_map.

Theorem C13_set_seq_num_counter : forall t sid o i sid',
  counter (set_tables t sid o i) sid' =
  option_map (fun c => if sid' =? sid then (o - 1, i - 1) else c) (counter t sid').
Proof. exact counter_set_tables. Qed.
Print Assumptions C13_set_seq_num_counter.

(* loading a session by CompIDs and listing all sessions report the same next numbers *)
Theorem C13_load_consistent : forall d tg sd,
  has_session (cur d) tg sd = true ->
  exists r, In r (t_sessions (cur d)) /\ s_target r = tg /\ s_sender r = sd
            /\ create_or_load tg sd d = (mkDb (committed d) (cur d) true, Some (session_of_row r))
            /\ In (session_of_row r) (sessions d).
Proof.
  intros d tg sd H. rewrite has_session_lookup in H. rewrite create_or_load_nf.
  destruct (lookup_session (cur d) tg sd) as [r|] eqn:L; [|discriminate].
  destruct (lookup_session_some _ _ _ _ L) as [I [A B]]. exists r. repeat split; auto.
  now apply (in_map session_of_row).
Qed.
Print Assumptions C13_load_consistent.

Theorem C13_create_new : forall d tg sd,
  has_session (cur d) tg sd = false ->
  let t' := mkT (t_sessions (cur d) ++ [mkS (next_sid (cur d)) tg sd 0 0]) (t_messages (cur d)) in
  create_or_load tg sd d = (mkDb t' t' false, Some (mkSess (next_sid (cur d)) tg sd 1 1))
  /\ In (mkSess (next_sid (cur d)) tg sd 1 1) (sessions (mkDb t' t' false)).
Proof.
  intros d tg sd H t'. rewrite has_session_lookup in H. rewrite create_or_load_nf.
  destruct (lookup_session (cur d) tg sd); [discriminate|]. split; [reflexivity|].
  unfold sessions. cbn. rewrite map_app, in_app_iff. right. now left.
Qed.
Print Assumptions C13_create_new.

(* mirror-image CompID pairs are different sessions *)
Theorem C13_mirror_distinct : forall t r1 r2 a b,
  wf t -> In r1 (t_sessions t) -> In r2 (t_sessions t) ->
  comp_key r1 = (a, b) -> comp_key r2 = (b, a) -> a <> b -> s_id r1 <> s_id r2.
Proof.
  intros t r1 r2 a b [_ I _] H1 H2 E1 E2 Hab Eid. rewrite (ids_inj _ _ _ _ I H1 H2 Eid) in E1. congruence.
Qed.
Print Assumptions C13_mirror_distinct.

(* non-vacuity: a concrete reachable journal with two sessions and stored messages meets the hypotheses *)
Example C13_nonvacuous :
  let ops := [OCreate [65%N] [66%N]; OCreate [66%N] [65%N];
              OPersist 0 1 [1; 51; 52; 61; 53; 1]%N; OPersist 1 0 [1; 51; 52; 61; 55; 1]%N] in
  let t := cur (r_db (run_state ops)) in
  lookup t 1 1 5 = Some [1; 51; 52; 61; 53; 1]%N /\ lookup t 2 0 7 = Some [1; 51; 52; 61; 55; 1]%N
  /\ lookup t 1 0 5 = None /\ counter t 1 = Some (5, 0) /\ counter t 2 = Some (0, 7).
Proof. vm_compute. repeat split. Qed.
Print Assumptions C13_nonvacuous.
