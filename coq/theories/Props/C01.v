(* C01 - encode/decode round trip preserves every well-formed message.
   The theorems (the lemmas they follow from are in AF.Lemmas.RoundTripL, string lemmas in AF.Lemmas.StrB).
   Model: Fix/Codec.v (encode, decode: validated against asyncfix/codec.py); predicates: Fix/WfMsg.v.

   wf_table G   - no framing tag (8 9 35 10 34 52 49 56) opens a group; 10 and 35 are members of no group.
   wf_msg G m   - MsgType SOH-free; every body tag (= tag of m other than 34/52/49/56, which the encoder
                  writes itself) is SOH-free, '='-free, accepted by int(), not 8/9/35/10; tags of one
                  container are pairwise distinct; a plain value sits under a tag that opens no group and
                  is SOH-free; a group sits under a tag of G, has >= 1 item, every item is non-empty and
                  uses member tags of that group only (recursively); the first tag of every item after
                  the first is a plain tag that occurs in the previous item; a tag that follows a group
                  (in its item, at root, or as the head of the next item) is not a member of any group
                  still open there (the group itself, the last group of its last item, ...).
   no_marker f  - negation of known finding D5: the text "8=FIX." occurs in the frame at offset 0 only.
   small_frame  - the frame is shorter than 10^4300 bytes (int() refuses longer BodyLength texts).
   decoded_of   - root container [8; 9; 35; 49; 56; 34; 52] ++ body of m (same order, values, nesting,
                  item count, item order) ++ [10].                                                      *)
From Coq Require Import ZArith NArith List Bool String.
From AF Require Import Base.Sx Py.Str Fix.Codec Fix.WfMsg Lemmas.RoundTripL.
From AFGen Require Import GenGroups.
Import ListNotations.
Open Scope Z_scope.

(* Stage 3, the full statement: arbitrarily nested groups, every sequence-number mode *)
Theorem C01_roundtrip : forall G bs m sess time raw frame sess',
  wf_table G = true -> wf_bs bs = true -> wf_session sess = true -> soh_free time = true ->
  wf_msg G m = true -> no_marker frame = true -> small_frame frame ->
  encode bs m sess time raw = Ok (frame, sess') ->
  exists seq,
    select_seq m sess raw = Ok (seq, sess')
    /\ (forall silent, decode G bs frame silent = Ok (Some (decoded_of bs m sess seq time), zlen frame, Some frame))
    /\ ((allocates m raw = true /\ seq = z_to_dec (next_out sess)
         /\ sess' = mkSession (sender sess) (target sess) (next_out sess + 1))
        \/ (allocates m raw = false /\ sess' = sess
            /\ exists z, seq_of_msg (msg_tags m) = Ok z /\ seq = z_to_dec z)).
Proof. exact roundtrip. Qed.
Print Assumptions C01_roundtrip.

(* Stage 1: flat bodies *)
Theorem C01_roundtrip_flat : forall G bs m sess time raw frame sess',
  wf_table G = true -> wf_bs bs = true -> wf_session sess = true -> soh_free time = true ->
  wf_msg G m = true -> flat_msg m = true -> no_marker frame = true -> small_frame frame ->
  encode bs m sess time raw = Ok (frame, sess') ->
  exists seq,
    select_seq m sess raw = Ok (seq, sess')
    /\ (forall silent, decode G bs frame silent = Ok (Some (decoded_of bs m sess seq time), zlen frame, Some frame))
    /\ seq_clause m sess raw seq sess'.
Proof. intros. eapply roundtrip; eassumption. Qed.
Print Assumptions C01_roundtrip_flat.

(* Stage 2: one level of groups *)
Theorem C01_roundtrip_depth1 : forall G bs m sess time raw frame sess',
  wf_table G = true -> wf_bs bs = true -> wf_session sess = true -> soh_free time = true ->
  wf_msg G m = true -> depth1_msg m = true -> no_marker frame = true -> small_frame frame ->
  encode bs m sess time raw = Ok (frame, sess') ->
  exists seq,
    select_seq m sess raw = Ok (seq, sess')
    /\ (forall silent, decode G bs frame silent = Ok (Some (decoded_of bs m sess seq time), zlen frame, Some frame))
    /\ seq_clause m sess raw seq sess'.
Proof. intros. eapply roundtrip; eassumption. Qed.
Print Assumptions C01_roundtrip_depth1.

(* the D5 hypothesis is exactly a predicate on the rendered fields: the marker occurs past offset 0 of
   the frame iff some field after the first contains "8=FIX." (a value containing it, or a tag ending
   in 8 with a value starting "FIX."), or the BeginString field contains it again *)
Theorem C01_marker_class : forall bs m sess time raw frame sess' seq,
  wf_bs bs = true -> encode bs m sess time raw = Ok (frame, sess') -> select_seq m sess raw = Ok (seq, sess') ->
  no_marker frame = no_marker_fields_b bs m sess seq time.
Proof. exact no_marker_fields_b_spec. Qed.
Print Assumptions C01_marker_class.

(* the regenerated FIX 4.4 table satisfies the table hypothesis (all 29 groups, none excluded) *)
Theorem C01_fix44_table_wf : wf_table GenGroups.table = true.
Proof. exact fix44_table_wf. Qed.
Print Assumptions C01_fix44_table_wf.

(* non-vacuity: a three-level NoAllocs / NoNestedPartyIDs / NoNestedPartySubIDs message meets every
   hypothesis, and its concrete round trip *)
Theorem C01_nonvacuous :
  wf_table GenGroups.table = true /\ wf_bs beginstring = true /\ wf_session ex_sess = true
  /\ soh_free ex_time = true /\ wf_msg GenGroups.table ex_nested = true
  /\ flat_msg ex_nested = false /\ depth1_msg ex_nested = false
  /\ no_marker (ex_frame ex_nested) = true /\ small_frame (ex_frame ex_nested)
  /\ encode beginstring ex_nested ex_sess ex_time false
     = Ok (ex_frame ex_nested, mkSession (sender ex_sess) (target ex_sess) 18)
  /\ decode GenGroups.table beginstring (ex_frame ex_nested) true
     = Ok (Some (decoded_of beginstring ex_nested ex_sess (z_to_dec 17) ex_time),
           zlen (ex_frame ex_nested), Some (ex_frame ex_nested)).
Proof. repeat split; try (vm_compute; reflexivity). Qed.
Print Assumptions C01_nonvacuous.

(* D5: without no_marker the statement is false: 58=FIX.x (tag ending in 8, value starting "FIX.") and
   58="see 8=FIX.4.4 spec" are well-formed, yet the decoder returns no message for their frame (the part before the inner
   marker is dropped as a fragment, the rest is not a frame): the reader delivers nothing *)
Theorem C01_marker_refuted : forall m, m = ex_marker_tag \/ m = ex_marker_value ->
  wf_msg GenGroups.table m = true /\ flat_msg m = true /\ small_frame (ex_frame m)
  /\ no_marker (ex_frame m) = false
  /\ (exists sess', encode beginstring m ex_sess ex_time false = Ok (ex_frame m, sess'))
  /\ (exists n, decode GenGroups.table beginstring (ex_frame m) true = Ok (None, n, None))
  /\ snd (fst (reader_run GenGroups.table beginstring [] [ex_frame m])) = [].
Proof.
  intros m [E|E]; subst m; repeat split; try (vm_compute; reflexivity);
    eexists; vm_compute; reflexivity.
Qed.
Print Assumptions C01_marker_refuted.

(* the structural hypotheses are forced as well (candidates for known-finding classes): messages whose
   groups use member tags only, yet are outside wf_msg, and decode to a different structure:
   a root-level Commission (12) after NoAllocs is absorbed into the last item; items that do not start
   with a tag of the previous item merge; items that start with a nested group merge *)
Theorem C01_structure_refuted :
  (wf_msg GenGroups.table ex_follower = false /\ no_marker (ex_frame ex_follower) = true
   /\ decoded_tag ex_follower "78" = Some (VGrp [[plain "79" "acc"; plain "80" "100"; plain "12" "5.0"]])
   /\ decoded_tag ex_follower "12" = None)
  /\ (wf_msg GenGroups.table ex_item_head = false /\ no_marker (ex_frame ex_item_head) = true
      /\ decoded_tag ex_item_head "78" = Some (VGrp [[plain "79" "a"; plain "80" "b"]]))
  /\ (wf_msg GenGroups.table ex_item_group_head = false /\ no_marker (ex_frame ex_item_group_head) = true
      /\ decoded_tag ex_item_group_head "78"
         = Some (VGrp [[grp "539" [[plain "524" "p"]; [plain "524" "q"]]]])).
Proof. repeat split; vm_compute; reflexivity. Qed.
Print Assumptions C01_structure_refuted.

(* the header tags the model's encoder skips are the ones the code's literal names (regenerated by gen_const.py) *)
From AF Require Import Lemmas.ConstTieL.
From AFGen Require Import GenConst.
Theorem C01_skip_set_is_code : same_set Codec.skip_tags encode_skip_values = true.
Proof. exact encode_skip_set_is_code. Qed.
Print Assumptions C01_skip_set_is_code.
