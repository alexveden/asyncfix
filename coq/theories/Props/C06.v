(* C06 - a ResendRequest is answered completely, in order and without side effects.
   The theorems (the lemmas they follow from are in AF.Lemmas.ResendL) about the model Fix/Resend.v of how the dispatcher
   serves a ResendRequest: serve_resend = the call site in _process_message (try / finally that
   restores ACTIVE when the handler leaves RESENDREQ_HANDLING) around _process_resend and what it
   calls, with the repairs D12, R3c, R5a, R5b, R6a (PossDupFlag / OrigSendingTime are set with
   replace=True), R6b (an EndSeqNo above sys.maxsize is read as "everything"), R8a (send_msg journals
   before it writes; replies to a ResendRequest are still only written) and R8c (an acceptor in
   LOGON_INITIAL_RECV may only send Logon / Logout; not reachable from the handler).

   The property for one request (bs, es = texts of tags 7 and 16, None = tag absent) with replay
   filter f in state s is the predicate  resend_correct f s bs es  (Lemmas/ResendL.v):
     the frames written are  chain (rows s) f hi lo hi  over the requested range
     [lo, hi) = [max(1, Begin), max(lo, min(End + 1, next_num_out)))  of already-sent numbers:
       - a retransmission for every journaled application message the filter accepts: number and
         MsgType kept, body = copy_body r = the journaled body with PossDupFlag := Y and then
         OrigSendingTime := the journaled SendingTime, where := overwrites the value of a tag the
         message already carries (position kept) and appends a new tag at the end - for a message
         that carries neither tag: body ++ [43=Y; 122=SendingTime] (C06_copy_of_plain_row);
       - one GapFill(seq = first, NewSeqNo = next) per maximal run of other numbers (session-level,
         declined, missing); hence no session-level message is retransmitted;
     nothing is written for a request that cannot be read, whose EndSeqNo is below its BeginSeqNo, or
     that asks for nothing that was sent; the WHOLE outbound journal, next_num_out (live and stored)
     and the connection state are what they were.
   FULL STATEMENT (what C06 asks):  resend_correct f s bs es  for every filter, every request and
   every reachable state.  It is C06_reply_chain below: no class of exceptions is left. *)
From Coq Require Import ZArith NArith List Bool.
From AF Require Import Base.Sx Py.Str Fix.Resend Lemmas.ResendL.
From AFGen Require Import GenEnums.
Import ListNotations.
Open Scope Z_scope.

(* THE THEOREM.  Every journal whose rows have unique numbers below next_num_out and are
   encoder-shaped (journal_ok + NoDup: invariants of a journal written by send_msg, C05/C13) - with
   holes anywhere, rows that themselves carry tag 43 / 122 -, every replay filter, both states in
   which a ResendRequest is served, and EVERY request (tags absent or unreadable, any BeginSeqNo,
   any EndSeqNo): the reply is exactly the chain over the requested range of already-sent numbers,
   and journal, counters and state are what they were.  Unbounded in the journal. *)
Theorem C06_reply_chain : forall f s bs es,
  (cstate s = ST_ACTIVE \/ cstate s = ST_AWAITING) ->
  journal_ok s -> NoDup (map r_seq (rows s)) ->
  resend_correct f s bs es.
Proof. intros f s bs es Hst Hj Hnd. apply serve_correct; auto. Qed.
Print Assumptions C06_reply_chain.

(* and for EVERY state and journal at all (no hypothesis): serving a ResendRequest never changes the
   outbound journal, next_num_out or the stored counter; the only exceptions that can reach the
   dispatcher are AssertionError (BeginSeqNo beyond next_num_out), TagNotFoundError, ValueError and
   OverflowError (BeginSeqNo above 2^63-1 / EndSeqNo below -2^63) - never DuplicatedTagError,
   DuplicateSeqNoError, FIXConnectionError, EncodingError; the state afterwards is ACTIVE
   (RESENDREQ_AWAITING if it was) whether or not the handler aborted; every frame written carries a
   MsgSeqNum of at least 1. *)
Theorem C06_no_side_effects : forall f s bs es,
  let (s', x) := serve_resend f bs es s in
  rows s' = rows s /\ nout s' = nout s /\ sout s' = sout s
  /\ allowed_exc x
  /\ cstate s' = (if cstate s =? ST_AWAITING then ST_AWAITING else ST_ACTIVE)
  /\ exists W, wire s' = wire s ++ W /\ Forall (fun fr => 1 <= r_seq fr) W.
Proof.
  intros f s bs es. pose proof (serve_run f bs es s) as H. destruct (serve_resend f bs es s) as [s' x].
  destruct H as (Hr & Hn & Hso & Hx & Hc & W & Hw & HW & _). repeat split; try assumption. exists W. auto.
Qed.
Print Assumptions C06_no_side_effects.

Theorem C06_state_restored : forall f s bs es,
  (cstate s = ST_ACTIVE \/ cstate s = ST_AWAITING) -> cstate (fst (serve_resend f bs es s)) = cstate s.
Proof. exact serve_state_restored. Qed.
Print Assumptions C06_state_restored.

(* the hypotheses of C06_reply_chain survive serving a request: any sequence of requests is answered correctly *)
Theorem C06_repeated_requests : forall f s bs es f2 bs2 es2,
  (cstate s = ST_ACTIVE \/ cstate s = ST_AWAITING) ->
  journal_ok s -> NoDup (map r_seq (rows s)) ->
  resend_correct f2 (fst (serve_resend f bs es s)) bs2 es2.
Proof.
  intros f s bs es f2 bs2 es2 Hst Hj Hnd. destruct (serve_keeps f s bs es Hst Hj Hnd) as (H1 & H2 & H3).
  apply serve_correct; auto.
Qed.
Print Assumptions C06_repeated_requests.

(* pristine journals (original sends numbered 1..n, a suffix may be missing) meet the hypotheses *)
Theorem C06_reply_chain_pristine : forall f s bs es,
  (cstate s = ST_ACTIVE \/ cstate s = ST_AWAITING) -> pristine s -> resend_correct f s bs es.
Proof. intros f s bs es Hst Hp. destruct (pristine_ok s Hp). apply serve_correct; auto. Qed.
Print Assumptions C06_reply_chain_pristine.

(* special cases spelled out *)
Theorem C06_unreadable_request_ok : forall f s bs es,
  (cstate s = ST_ACTIVE \/ cstate s = ST_AWAITING) -> parse_req bs es = None -> resend_correct f s bs es.
Proof. intros f s bs es Hst Hp. apply serve_correct; [exact Hst|]. intros H. destruct (H Hp). Qed.
Print Assumptions C06_unreadable_request_ok.

Theorem C06_begin_nonpositive_as_one : forall f s bs es b,
  py_int bs = Some b -> b < 1 ->
  serve_resend f (Some bs) es s = serve_resend f (dec 1) es s
  /\ requested_range s (Some bs) es = requested_range s (dec 1) es
  /\ (resend_correct f s (Some bs) es <-> resend_correct f s (dec 1) es).
Proof.
  intros f s bs es b Hpb Hb. pose proof (clamp1_low b Hb) as Ec.
  assert (E1 : serve_resend f (Some bs) es s = serve_resend f (dec 1) es s)
    by (unfold serve_resend, process_resend, dec; rewrite Hpb, Ec; reflexivity).
  assert (E2 : requested_range s (Some bs) es = requested_range s (dec 1) es)
    by (unfold requested_range, dec; rewrite Hpb; cbv zeta; rewrite Ec; reflexivity).
  split; [exact E1|]. split; [exact E2|]. unfold resend_correct. rewrite E1, E2. tauto.
Qed.
Print Assumptions C06_begin_nonpositive_as_one.

(* "otherwise identical body" for a message that carries neither tag 43 nor tag 122 *)
Theorem C06_copy_of_plain_row : forall r, clean r = true ->
  copy_body r = r_body r ++ [(T_PossDupFlag, V_Y); (T_OrigSendingTime, r_time r)].
Proof.
  unfold clean, copy_body. intros r H. apply andb_true_iff in H as [H1 H2]. apply negb_true_iff in H1, H2.
  rewrite (upsert_notin _ _ _ H1), upsert_notin, <- app_assoc; [reflexivity|].
  rewrite has_tag_app, H2. reflexivity.
Qed.
Print Assumptions C06_copy_of_plain_row.

(* what a chain is made of: every frame is the copy of a replayable journaled message or a gap fill *)
Theorem C06_no_session_retransmit : forall J f lim a c W, chain J f lim a c W -> forall fr, In fr W ->
  (exists r, In r J /\ replayable f r = true /\ is_copy_of r fr) \/ (exists x h, is_gap_fill fr x h).
Proof.
  induction 1; intros x Hx; [destruct Hx| |]; (destruct Hx as [<-|Hx]; [|auto]).
  - left. eauto.
  - right. eauto.
Qed.
Print Assumptions C06_no_session_retransmit.

(* the row hypothesis of journal_ok is an invariant of journals written by send_msg,
   and replies to a ResendRequest never reach the journal *)
Theorem C06_sent_rows_wellformed : forall m s s',
  send_msg m s = Ok s' ->
  rows s' = rows s \/ exists fr, rows s' = rows s ++ [fr] /\ codec_row fr = true.
Proof. exact send_msg_frame_codec_row. Qed.
Print Assumptions C06_sent_rows_wellformed.

(* send_msg journals before it writes (R8a): a send that is refused or fails - state gate, TestRequest
   gate, encoder, DuplicateSeqNoError from the journal - leaves nothing on the wire *)
Theorem C06_failed_send_writes_nothing : forall m s e s', send_msg m s = Exc e s' -> wire s' = wire s.
Proof. exact failed_send_writes_nothing. Qed.
Print Assumptions C06_failed_send_writes_nothing.

(* ---- the witnesses of the former known-finding classes, now positive (each is replayed on the
   implementation by harness/c06.py) *)

(* was C06-leftover-copy-in-range (D12) *)
Theorem C06_second_request_ok :
  resend_correct w_all w_first (dec 2) (dec 0)
  /\ rows w_second = rows w_first /\ nout w_second = 4
  /\ resend_correct w_all w_second (dec 2) (dec 0)
  /\ map r_seq (wire (fst (serve_resend w_all (dec 2) (dec 0) w_second))) = [2; 3; 2; 3].
Proof.
  split; [apply servable_total; reflexivity|]. split; [reflexivity|]. split; [reflexivity|]. split; [apply servable_total; reflexivity|vm_compute; reflexivity].
Qed.
Print Assumptions C06_second_request_ok.

(* were C06-begin-beyond, C06-request-unparsable *)
Theorem C06_unanswerable_requests_ok :
  resend_correct w_all w_small (dec 5) (dec 0)
  /\ resend_correct w_all w_small (Some [120%N]) (dec 0)
  /\ resend_correct w_all w_small None (dec 0)
  /\ serve_resend w_all (dec 5) (dec 0) w_small
     = (mkSt ST_ACTIVE false None 3 2 2 (rows w_small) [] [] [ST_HANDLING; ST_ACTIVE], Some EAssertion)
  /\ serve_resend w_all (Some [120%N]) (dec 0) w_small
     = (mkSt ST_ACTIVE false None 3 2 2 (rows w_small) [] [] [ST_HANDLING; ST_ACTIVE], Some EValue).
Proof. split; [apply servable_total; reflexivity|]. split; [apply servable_total; reflexivity|]. split; [apply servable_total; reflexivity|]. split; vm_compute; reflexivity. Qed.
Print Assumptions C06_unanswerable_requests_ok.

(* was C06-begin-nonpositive *)
Theorem C06_begin_nonpositive_example :
  resend_correct w_all w_small (dec 0) (dec 0) /\ resend_correct w_all w_small (dec (-3)) (dec 0)
  /\ (let (s', x) := serve_resend w_all (dec (-3)) (dec 0) w_small in
      x = None /\ map r_seq (wire s') = [1; 2] /\ map r_type (wire s') = [MT_SEQUENCERESET; [68%N]]
      /\ cstate s' = ST_ACTIVE /\ nout s' = 3).
Proof. split; [apply servable_total; reflexivity|]. split; [apply servable_total; reflexivity|]. vm_compute. repeat split; reflexivity. Qed.
Print Assumptions C06_begin_nonpositive_example.

(* was C06-bounded-end *)
Theorem C06_bounded_end_ok :
  resend_correct w_all w_bounded (dec 2) (dec 2) /\ resend_correct w_all w_bounded2 (dec 2) (dec 3)
  /\ map r_seq (wire (fst (serve_resend w_all (dec 2) (dec 2) w_bounded))) = [2]
  /\ (let s' := fst (serve_resend w_all (dec 2) (dec 3) w_bounded2) in
      map r_seq (wire s') = [2; 3] /\ map (fun r => get_tag T_NewSeqNo (r_body r)) (wire s') = [None; Some [52%N]]).
Proof. split; [apply servable_total; reflexivity|]. split; [apply servable_total; reflexivity|]. vm_compute. repeat split; reflexivity. Qed.
Print Assumptions C06_bounded_end_ok.

(* was C06-hole-before-replayed (D21): rows {1,2,4,5} -> D2, GapFill(3 -> 4), D4, D5 *)
Theorem C06_hole_ok :
  resend_correct w_all w_hole (dec 2) (dec 0)
  /\ (let s' := fst (serve_resend w_all (dec 2) (dec 0) w_hole) in
      map r_seq (wire s') = [2; 3; 4; 5]
      /\ map (fun r => get_tag T_NewSeqNo (r_body r)) (wire s') = [None; Some [52%N]; None; None]).
Proof. split; [apply servable_total; reflexivity|vm_compute; repeat split; reflexivity]. Qed.
Print Assumptions C06_hole_ok.

(* holes, a session row, a declined row and bounded EndSeqNo together: rows {1 Logon, 2, 5, 6 HB,
   9 (declined), 10}, next 13: Resend(2,10) -> D2, GF(3->5), D5, GF(6->10), D10;
   Resend(3,8) -> GF(3->5), D5, GF(6->9) *)
Theorem C06_holes_and_bounded_end_ok :
  resend_correct w_filter9 w_gappy (dec 2) (dec 10) /\ resend_correct w_filter9 w_gappy (dec 3) (dec 8)
  /\ (let s' := fst (serve_resend w_filter9 (dec 2) (dec 10) w_gappy) in
      map r_seq (wire s') = [2; 3; 5; 6; 10]
      /\ map (fun r => get_tag T_NewSeqNo (r_body r)) (wire s') = [None; Some [53%N]; None; Some [49; 48]%N; None])
  /\ (let s' := fst (serve_resend w_filter9 (dec 3) (dec 8) w_gappy) in
      map r_seq (wire s') = [3; 5; 6]
      /\ map (fun r => get_tag T_NewSeqNo (r_body r)) (wire s') = [Some [53%N]; None; Some [57%N]]).
Proof. split; [apply servable_total; reflexivity|]. split; [apply servable_total; reflexivity|]. vm_compute. repeat split; reflexivity. Qed.
Print Assumptions C06_holes_and_bounded_end_ok.

(* was C06-end-beyond-64-bits: EndSeqNo = 2^63 is answered like EndSeqNo = 0 *)
Theorem C06_end_beyond_64_ok :
  resend_correct w_all w_small (dec 2) (dec two63)
  /\ (let (s', x) := serve_resend w_all (dec 2) (dec two63) w_small in
      x = None /\ map r_seq (wire s') = [2] /\ map r_type (wire s') = [[68%N]] /\ cstate s' = ST_ACTIVE).
Proof. split; [apply servable_total; reflexivity|vm_compute; repeat split; reflexivity]. Qed.
Print Assumptions C06_end_beyond_64_ok.

(* was C06-row-carries-possdup-tags: [11=c2; 43=N; 55=SYM] is retransmitted as
   [11=c2; 43=Y; 55=SYM; 122=T2], [122=X; 11=c3] as [122=T3; 11=c3; 43=Y] *)
Theorem C06_possdup_tags_ok :
  resend_correct w_all w_tagged (dec 2) (dec 0)
  /\ (let (s', x) := serve_resend w_all (dec 2) (dec 0) w_tagged in
      x = None /\ map r_seq (wire s') = [2; 3]
      /\ map r_body (wire s')
         = [[([49; 49]%N, [99; 50]%N); (T_PossDupFlag, V_Y); ([53; 53]%N, [83; 89; 77]%N); (T_OrigSendingTime, time_str 2)];
            [(T_OrigSendingTime, time_str 3); ([49; 49]%N, [99; 51]%N); (T_PossDupFlag, V_Y)]]
      /\ rows s' = rows w_tagged /\ cstate s' = ST_ACTIVE).
Proof. split; [apply servable_total; reflexivity|vm_compute; repeat split; reflexivity]. Qed.
Print Assumptions C06_possdup_tags_ok.

(* the session-level test is equality on the whole MsgType value (noreply_msgs = the code's set,
   C06_noreply_set_is_code): application types that merely START with a session-level value - AE, AB,
   A1, 0Q, 1A, 2Z, 4B, 5X - are retransmitted: [Logon, AE2, 5X3, HB4, 1A5], Resend(1,0) ->
   GF(1->2), AE2, 5X3, GF(4->5), 1A5 (replayed on the implementation; seeded change C07-6) *)
Theorem C06_session_type_is_equality : forall t, is_sess_type t = true <-> In t noreply_msgs.
Proof.
  intros t. unfold is_sess_type, mem_str. rewrite existsb_exists. split.
  - intros (x & Hin & E). apply StrB.str_eqb_eq in E. subst x. exact Hin.
  - intros Hin. exists t. split; [exact Hin|apply StrB.str_eqb_refl].
Qed.
Print Assumptions C06_session_type_is_equality.

Theorem C06_prefix_types_ok :
  forallb (fun t => negb (is_sess_type t)) w_prefix_types = true
  /\ resend_correct w_all w_prefixed (dec 1) (dec 0)
  /\ (let s' := fst (serve_resend w_all (dec 1) (dec 0) w_prefixed) in
      map r_seq (wire s') = [1; 2; 3; 4; 5]
      /\ map r_type (wire s') = [MT_SEQUENCERESET; [65; 69]%N; [53; 88]%N; MT_SEQUENCERESET; [49; 65]%N]).
Proof. split; [vm_compute; reflexivity|]. split; [apply servable_total; reflexivity|vm_compute; repeat split; reflexivity]. Qed.
Print Assumptions C06_prefix_types_ok.

(* non-vacuity: a journal with application, session, SequenceReset and declined rows and a missing
   suffix, in RESENDREQ_AWAITING, meets the hypotheses of C06_reply_chain *)
Example C06_nonvacuous :
  journal_ok w_rich /\ NoDup (map r_seq (rows w_rich)) /\ cstate w_rich = ST_AWAITING
  /\ (let s' := fst (serve_resend w_filter (dec 2) (dec 0) w_rich) in
      map r_seq (wire s') = [2; 3; 5; 6] /\ map r_type (wire s') = [[68%N]; MT_SEQUENCERESET; [68%N]; MT_SEQUENCERESET]
      /\ map (fun r => get_tag T_NewSeqNo (r_body r)) (wire s') = [None; Some [53%N]; None; Some [57%N]]
      /\ rows s' = rows w_rich /\ nout s' = 9 /\ cstate s' = ST_AWAITING).
Proof.
  destruct (servable_ok w_rich eq_refl) as (_ & Hj & Hnd). split; [exact Hj|]. split; [exact Hnd|].
  split; [reflexivity|]. vm_compute. repeat split; reflexivity.
Qed.
Print Assumptions C06_nonvacuous.

(* the model's noreply_msgs is the code's literal (regenerated by gen_const.py) *)
From AF Require Import Lemmas.ConstTieL.
From AFGen Require Import GenConst.
Theorem C06_noreply_set_is_code : same_set Resend.noreply_msgs noreply_values = true.
Proof. exact noreply_set_is_code. Qed.
Print Assumptions C06_noreply_set_is_code.
