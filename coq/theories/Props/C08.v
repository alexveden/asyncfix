(* C08 - the journal survives a process crash at any point.
   The theorems (the lemmas they follow from are in AF.Lemmas.JournalCrashL).  Model: Fix/Journal.v (SQLite tables +
   Python sqlite3 transaction control: `committed` is what a fresh connection sees, `cur` what
   the live connection sees, `crash` = process death or close(), `reopen` = a new Journaler on
   the file) and Fix/JournalRun.v (`step` = one Journaler call; `run_crash st ops k done` = run
   ops, die after exactly k primitives - data-modifying statements incl. a failing INSERT, and
   commits - and report the db at death, the number of operations that had returned, and whether
   death was strictly inside an operation).  The extracted runner's request [1, ops, k] prints
   `observe (reopen d)`, `done`, `died` of exactly this `run_crash init ops k 0`, and
   harness/c08.py compares it with real child processes killed at every such boundary.

   All statements quantify over ALL operation lists (any length, any arguments, incl. reopen,
   duplicate / malformed persists, refused set_seq_num, out-of-range handles) and ALL budgets k. *)
From Coq Require Import ZArith NArith List Bool.
From AF Require Import Base.Sx Py.Str Fix.Journal Fix.JournalRun
  Lemmas.JournalL Lemmas.JournalRunL Lemmas.JournalCrashL.
Import ListNotations.
Open Scope Z_scope.

(* run_crash counts the primitives of `prims_of`; this is the statement that those primitives
   are what `step` (the model of the Journaler methods, C13) does to the database *)
Theorem C08_step_is_its_primitives : forall st o,
  r_db (stepf st o) = match o with
                      | OReopen => reopen (r_db st)
                      | _ => fst (exec_prims (prims_of (r_hs st) o) (r_db st))
                      end.
Proof. exact step_db. Qed.
Print Assumptions C08_step_is_its_primitives.

(* (1) atomicity.  After death at any primitive boundary of any operation sequence the fresh
   connection sees EXACTLY the state after the `done` operations that had completed: the
   operation in flight is not applied at all, no completed operation is missing. *)
Theorem C08_atomic : forall ops k,
  let '(d, done, died) := run_crash init ops k 0 in
  (done <= length ops)%nat
  /\ cur (reopen d) = cur (r_db (run_state (firstn done ops)))
  /\ observe (reopen d) = observe (r_db (run_state (firstn done ops)))
  /\ (died = false -> done = length ops)
  /\ (died = true -> (done < length ops)%nat).
Proof.
  intros ops k. pose proof (run_crash_spec ops init k 0 eq_refl) as H.
  destruct (run_crash init ops k 0) as [[d done] died]. destruct H as [j [-> [Lj [Eq [F [T _]]]]]].
  repeat split; auto. now apply observe_cur.
Qed.
Print Assumptions C08_atomic.

(* ... where `done` is determined by the crash point alone: the completed operations are those
   whose primitives fit into the budget (prefix_cost = primitives executed by the first j
   operations; an operation is complete once its last primitive - the commit, or the INSERT
   that failed - has run). *)
Theorem C08_crash_point : forall ops k,
  let '(d, done, died) := run_crash init ops k 0 in
  (prefix_cost init ops done <= k)%nat
  /\ (died = true -> (k < prefix_cost init ops (S done))%nat)
  /\ (died = false -> (prefix_cost init ops (length ops) <= k)%nat).
Proof.
  intros ops k. pose proof (run_crash_spec ops init k 0 eq_refl) as H.
  destruct (run_crash init ops k 0) as [[d done] died]. destruct H as [j [-> [_ [_ [F [_ [P1 P2]]]]]]].
  repeat split; auto. intros H. now rewrite <- (F H).
Qed.
Print Assumptions C08_crash_point.

(* the same per operation, in the two-alternative form of the property text: the operation in
   flight (started at an operation boundary of any history, killed after b of its primitives) is
   applied not at all (b < its cost) or entirely (all its primitives ran, only the return to the
   caller is missing) - there is no third recovered state *)
Theorem C08_in_flight_all_or_nothing : forall ops o b,
  let st := run_state ops in
  let d' := fst (exec_budget (prims_of (r_hs st) o) (r_db st) b) in
  (cur (reopen d') = cur (r_db st) /\ (b < cost st o)%nat)
  \/ (cur (reopen d') = cur (r_db (run_state (ops ++ [o]))) /\ (cost st o <= b)%nat).
Proof.
  intros ops o b st d'. destruct (op_all_or_nothing st o b (reachable_clean ops)) as [A B].
  rewrite run_state_snoc. destruct (Nat.lt_ge_cases b (cost st o)); [left|right]; split; auto.
Qed.
Print Assumptions C08_in_flight_all_or_nothing.

(* (2) durability.  A persist_msg that returned (number n, session s, direction dir) stays
   retrievable byte-for-byte after a crash at any later point, unless a set_seq_num that had
   completed by then removed it (`removes`: same session, new next number of that direction <= n). *)
Theorem C08_durable : forall pre h dir msg post k n,
  let st := run_state pre in
  let s := handle (r_hs st) h in
  let p := OPersist h dir msg in
  find_seq_no msg = Some n ->
  snd (persist_msg msg s dir (r_db st)) = None ->
  let '(d, done, died) := run_crash init (pre ++ p :: post) k 0 in
  (length pre < done)%nat ->
  never_removed (stepf st p) (firstn (done - S (length pre)) post) (key s) dir n = true ->
  lookup (cur (reopen d)) (key s) dir n = Some msg.
Proof.
  intros pre h dir msg post k n st s p F OK. pose proof (recovered_after pre p post k) as R.
  destruct (run_crash init (pre ++ p :: post) k 0) as [[d done] died]. intros L N. rewrite (R L).
  now apply persist_survives; [apply reachable_at_rest|..].
Qed.
Print Assumptions C08_durable.

(* (3) a message row never exists without its counter update.
   Primitive level: kill persist_msg (started with nothing pending) after any number b of its
   primitives; if the fresh connection sees the new row at all, it sees it with the message
   bytes and with the counter of that direction = n. *)
Theorem C08_persist_row_with_counter : forall d s dir msg n b,
  clean d ->
  lookup (committed d) (key s) dir n = None ->
  let t' := committed (fst (exec_budget (persist_prims n s dir msg) d b)) in
  lookup t' (key s) dir n <> None ->
  lookup t' (key s) dir n = Some msg
  /\ counter t' (key s) =
     option_map (fun c => if dir =? OUTBOUND then (n, snd c) else (fst c, n)) (counter (committed d) (key s)).
Proof.
  intros d s dir msg n b C L0 t' L1. unfold t' in *.
  destruct (Nat.lt_ge_cases b (count_exec (persist_prims n s dir msg) d)) as [Lt|Ge].
  - rewrite budget_keeps_committed in L1; [congruence| |exact Lt].
    unfold persist_prims. now destruct (dir =? OUTBOUND).
  - rewrite <- C in *. rewrite budget_enough, exec_persist_prims, L0 by exact Ge. now apply persist_tables_own.
Qed.
Print Assumptions C08_persist_row_with_counter.

(* History level: every row of every recovered state was written by a persist_msg among the
   completed operations, and the single commit that made it durable (from the state after `pre`
   to the state after `pre ++ [that call]`) also set the stored counter of its direction to the
   row's number. *)
Theorem C08_row_written_with_counter : forall ops k,
  let '(d, done, died) := run_crash init ops k 0 in
  forall r, In r (t_messages (cur (reopen d))) ->
  exists pre h post,
    firstn done ops = pre ++ OPersist h (m_dir r) (m_msg r) :: post
    /\ let st := run_state pre in
       let t' := cur (r_db (run_state (pre ++ [OPersist h (m_dir r) (m_msg r)]))) in
       key (handle (r_hs st) h) = m_sid r
       /\ find_seq_no (m_msg r) = Some (m_seq r)
       /\ lookup t' (m_sid r) (m_dir r) (m_seq r) = Some (m_msg r)
       /\ counter t' (m_sid r) =
          option_map (fun c => if m_dir r =? OUTBOUND then (m_seq r, snd c) else (fst c, m_seq r))
                     (counter (cur (r_db st)) (m_sid r)).
Proof.
  intros ops k. pose proof (recovered_cur ops k) as E.
  destruct (run_crash init ops k 0) as [[d done] died]. rewrite E. apply row_written.
Qed.
Print Assumptions C08_row_written_with_counter.

(* (4) a completed set / reset of the sequence numbers is never lost: after a crash at any later
   point the stored counters of that session are the new values minus one, nothing at or above
   them is stored and everything below is untouched - until a later completed operation writes
   that session again (`all_quiet`). *)
Theorem C08_set_seq_num_never_lost : forall pre h o i post k no ni c,
  let st := run_state pre in
  let s := handle (r_hs st) h in
  let p := OSetSeq h o i in
  set_args s o i = Some (no, ni) ->
  counter (cur (r_db st)) (key s) = Some c ->
  let '(d, done, died) := run_crash init (pre ++ p :: post) k 0 in
  (length pre < done)%nat ->
  all_quiet (stepf st p) (firstn (done - S (length pre)) post) (key s) = true ->
  counter (cur (reopen d)) (key s) = Some (no - 1, ni - 1)
  /\ (forall n, ni <= n -> lookup (cur (reopen d)) (key s) INBOUND n = None)
  /\ (forall n, no <= n -> lookup (cur (reopen d)) (key s) OUTBOUND n = None)
  /\ (forall n, n < ni -> lookup (cur (reopen d)) (key s) INBOUND n = lookup (cur (r_db st)) (key s) INBOUND n)
  /\ (forall n, n < no -> lookup (cur (reopen d)) (key s) OUTBOUND n = lookup (cur (r_db st)) (key s) OUTBOUND n).
Proof.
  intros pre h o i post k no ni c st s p A Ct. pose proof (recovered_after pre p post k) as R.
  destruct (run_crash init (pre ++ p :: post) k 0) as [[d done] died]. intros L Q. rewrite (R L).
  now apply (set_seq_survives st h o i no ni c); [apply reachable_at_rest|..].
Qed.
Print Assumptions C08_set_seq_num_never_lost.

(* `set_args = Some` is "the call returned without AssertionError" *)
Theorem C08_set_seq_num_returned : forall s o i d,
  snd (set_seq_num s o i d) = match set_args s o i with None => Some EAssertion | Some _ => None end.
Proof. intros s o i d. apply set_seq_num_nf. Qed.
Print Assumptions C08_set_seq_num_returned.

(* (5) normal close.  At every operation boundary of every history nothing is pending on the
   connection (an implicit transaction may be open - after loading an existing session or after a
   duplicate persist - but it holds no change) ... *)
Theorem C08_nothing_pending_between_operations : forall ops, clean (r_db (run_state ops)).
Proof. exact reachable_clean. Qed.
Print Assumptions C08_nothing_pending_between_operations.

(* ... hence close() - which discards the open transaction exactly like process death - followed
   by reopening loses nothing, whether or not a transaction was open. *)
Theorem C08_close_loses_nothing : forall ops,
  let d := r_db (run_state ops) in
  cur (reopen (crash d)) = cur d /\ observe (reopen (crash d)) = observe d.
Proof.
  intros ops d. assert (E : cur (reopen (crash d)) = cur d) by (symmetry; apply reachable_clean).
  auto using observe_cur.
Qed.
Print Assumptions C08_close_loses_nothing.

(* ---------------------------------------------------------------- non-vacuity / witnesses *)

Definition m5 : str := [1; 51; 52; 61; 53; 1]%N.     (* \x01 34=5 \x01 *)
Definition m7 : str := [1; 51; 52; 61; 55; 1]%N.     (* \x01 34=7 \x01 *)
Definition demo : list op :=
  [OCreate [65%N] [66%N]; OPersist 0 1 m5; OCreate [65%N] [66%N]; OPersist 0 0 m7; OSetSeq 0 (Some 3) None].

Definition recovered (ops : list op) (k : nat) :=
  let '(d, done, died) := run_crash init ops k 0 in
  (done, died, counter (cur (reopen d)) 1, lookup (cur (reopen d)) 1 1 5, lookup (cur (reopen d)) 1 0 7).

(* 2 + 3 + 1 (the INSERT that fails: session exists) + 3 + 4 = 13 primitives.  Death after the
   INSERT and UPDATE of the first persist_msg: nothing of it is visible; after its commit: row and
   counter; the second persist_msg runs inside the transaction left open by loading the existing
   session and is still all-or-nothing; the completed set_seq_num(next_num_out=3) - the session
   object still says next_num_in = 1 - removed outbound 5 and inbound 7 for good. *)
Example C08_demo_crash_points :
  recovered demo 4 = (1%nat, true, Some (0, 0), None, None)
  /\ recovered demo 5 = (2%nat, true, Some (5, 0), Some m5, None)
  /\ recovered demo 6 = (3%nat, true, Some (5, 0), Some m5, None)
  /\ recovered demo 8 = (3%nat, true, Some (5, 0), Some m5, None)
  /\ recovered demo 9 = (4%nat, true, Some (5, 7), Some m5, Some m7)
  /\ recovered demo 12 = (4%nat, true, Some (5, 7), Some m5, Some m7)
  /\ recovered demo 13 = (5%nat, false, Some (2, 0), None, None)
  /\ recovered demo 99 = (5%nat, false, Some (2, 0), None, None).
Proof. vm_compute. repeat split. Qed.
Print Assumptions C08_demo_crash_points.

(* an implicit transaction really is open at some operation boundaries (so (5) is not vacuous) *)
Example C08_open_transaction_reachable :
  in_tx (r_db (run_state (firstn 3 demo))) = true /\ in_tx (r_db (run_state (firstn 2 demo))) = false.
Proof. vm_compute. split; reflexivity. Qed.
Print Assumptions C08_open_transaction_reachable.

(* the hypotheses of C08_durable / C08_set_seq_num_never_lost are met by the demo history *)
Example C08_durable_nonvacuous :
  snd (persist_msg m5 (handle (r_hs (run_state (firstn 1 demo))) 0) 1 (r_db (run_state (firstn 1 demo)))) = None
  /\ never_removed (stepf (run_state (firstn 1 demo)) (OPersist 0 1 m5)) (firstn 2 (skipn 2 demo)) 1 1 5 = true
  /\ never_removed (stepf (run_state (firstn 1 demo)) (OPersist 0 1 m5)) (skipn 2 demo) 1 1 5 = false
  /\ set_args (handle (r_hs (run_state (firstn 4 demo))) 0) (Some 3) None = Some (3, 1)
  /\ counter (cur (r_db (run_state (firstn 4 demo)))) 1 = Some (5, 7).
Proof. vm_compute. repeat split. Qed.
Print Assumptions C08_durable_nonvacuous.

(* (3) in the form of DESIGN.md: "a row (n, dir) implies stored counter(dir) >= n".  This is an
   invariant exactly of histories that store numbers in ascending order per session and direction
   (`ascending`: every persist_msg carries a number >= the stored counter it overwrites - what the
   session engine does); for those it holds in every recovered state: *)
Theorem C08_row_le_counter_partial : forall ops k,
  ascending init ops = true ->
  let '(d, done, died) := run_crash init ops k 0 in below (cur (reopen d)).
Proof.
  intros ops k A. pose proof (recovered_cur ops k) as E.
  destruct (run_crash init ops k 0) as [[d done] died]. rewrite E.
  now apply ai_below, run_asc_inv; [apply (reachable_at_rest [])|apply asc_inv_init|].
Qed.
Print Assumptions C08_row_le_counter_partial.

(* ... and not in general: the journal accepts numbers in descending order (C13), after which
   the counter is the last number written, below an older row.  No crash is involved and the
   property text does not ask for it; what always holds is C08_row_written_with_counter. *)
Theorem C08_row_le_counter_refuted :
  exists ops, ascending init ops = false /\ ~ below (cur (r_db (run_state ops))).
Proof.
  exists [OCreate [65%N] [66%N]; OPersist 0 1 m5; OPersist 0 1 [1; 51; 52; 61; 51; 1]%N].
  split; [vm_compute; reflexivity|].
  intros B. specialize (B (mkM 5 1 1 m5) (3, 0)). vm_compute in B.
  destruct B as [B _]; [left; reflexivity|reflexivity|]. apply B; reflexivity.
Qed.
Print Assumptions C08_row_le_counter_refuted.

Example C08_ascending_nonvacuous : ascending init demo = true.
Proof. vm_compute. reflexivity. Qed.
Print Assumptions C08_ascending_nonvacuous.
