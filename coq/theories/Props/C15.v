(* C15 - schema validation accepts exactly the messages the FIX dictionary allows.
   The theorems (the lemmas they follow from are in AF.Lemmas.SchemaL).

   [validate vc Sc m] (Fix/SchemaModel.v) is the model of FIXSchema.validate - with
   fixes/C15-required-groups-header-members.patch applied - over a parsed schema [Sc];
   [conforms vc Sc m] (Fix/SchemaSpec.v) is the declarative reading of "built according to the
   dictionary".  Everything is parametric in [vc f s], the exception class the single-value check
   SchemaField.validate_value raises for field f on text s (None: accepted) - that check is C19's
   subject.  [wf_schema] is computable and holds of both regenerated dictionaries;
   [keys_unique] is the representation invariant of FIXContainer (an OrderedDict per level).

   The dictionary parse (component resolution with its retry loop, merge, header and message
   parsing) is modelled in Fix/SchemaParse.v over the raw declarations xml.etree gives; its
   theorems are at the end of this file (their lemmas in AF.Lemmas.SchemaParseL).  Outside every model:
   the XML tokenisation by xml.etree. *)
From Coq Require Import NArith List Bool Lia.
From Coq Require Import Permutation.
From AF Require Import Base.Sx Py.Str Fix.SchemaModel Fix.SchemaSpec Fix.SchemaParse Lemmas.SchemaL Lemmas.SchemaParseL.
From AFGen Require GenSchema.
Import ListNotations.

(* ---- the two regenerated dictionaries are well formed ---- *)
Theorem C15_fix44_wf : wf_schema GenSchema.FIX44.schema = true.
Proof. exact fix44_wf. Qed.
Print Assumptions C15_fix44_wf.

Theorem C15_tt_wf : wf_schema GenSchema.TT.schema = true.
Proof. exact tt_wf. Qed.
Print Assumptions C15_tt_wf.

(* ---- validate accepts exactly the conforming messages, for EVERY well-formed schema ---- *)
Theorem C15_sound : forall vc Sc, wf_schema Sc = true -> forall m,
  keys_unique (tags m) = true ->
  validate vc Sc m = Ok -> conforms vc Sc m.
Proof. exact validate_sound. Qed.
Print Assumptions C15_sound.

Theorem C15_complete : forall vc Sc, wf_schema Sc = true -> forall m,
  conforms vc Sc m -> validate vc Sc m = Ok.
Proof. exact validate_complete. Qed.
Print Assumptions C15_complete.

(* ---- the only exception validate adds to those of the single-value check is the message error ---- *)
Theorem C15_error_class : forall vc Sc m,
  (forall f s e, In s (msg_strs m) -> vc f s = Some e -> e = EFIXMessage) ->
  validate vc Sc m = Ok \/ validate vc Sc m = Exc EFIXMessage.
Proof. exact validate_class. Qed.
Print Assumptions C15_error_class.

(* ... so every non-conforming message is rejected with the message error and nothing else *)
Theorem C15_nonconforming_rejected : forall vc Sc m,
  wf_schema Sc = true -> keys_unique (tags m) = true ->
  (forall f s e, In s (msg_strs m) -> vc f s = Some e -> e = EFIXMessage) ->
  ~ conforms vc Sc m -> validate vc Sc m = Exc EFIXMessage.
Proof.
  intros vc Sc m Hwf Hu Hc Hn. destruct (validate_class vc Sc m Hc) as [H|H]; [|exact H].
  exfalso. apply Hn. apply validate_sound; assumption.
Qed.
Print Assumptions C15_nonconforming_rejected.

(* the value-class hypothesis is needed: whatever class the single-value check raises escapes
   (ledger D23: validate_value fails an assertion on the empty string) *)
Theorem C15_error_class_needs_value_class :
  exists vc Sc m, wf_schema Sc = true /\ keys_unique (tags m) = true /\ validate vc Sc m = Exc EAssertion.
Proof.
  exists (fun _ s => match s with [] => Some EAssertion | _ => None end), GenSchema.FIX44.schema,
    (mkMsg [69%N] ((T 66, VStr []) :: tl ex_head ++ [(T 73, VGrp [ex_item])])).
  split; [exact fix44_wf|]. split; vm_compute; reflexivity.
Qed.
Print Assumptions C15_error_class_needs_value_class.

(* the unique-keys hypothesis of C15_sound is needed (and always met by FIXContainer) *)
Theorem C15_sound_needs_unique_keys :
  exists Sc m, wf_schema Sc = true /\ validate accept_all Sc m = Ok /\ ~ conforms accept_all Sc m.
Proof. exact ex_unique_keys_needed. Qed.
Print Assumptions C15_sound_needs_unique_keys.

(* ---- single-fault mutations: a conforming message/item stops conforming (hence, by
        C15_nonconforming_rejected, is refused with the message error) ---- *)

(* message level *)
Theorem C15_fault_unknown_msg_type : forall vc Sc m,
  ~ In (msg_type m) (map fst (s_messages Sc)) -> ~ conforms vc Sc m.
Proof.
  intros vc Sc m Hn [M [Hin _]]. apply Hn. apply in_map_iff. exists (msg_type m, M). auto.
Qed.
Print Assumptions C15_fault_unknown_msg_type.

(* missing required field OR group *)
Theorem C15_fault_missing_required : forall vc Sc, wf_schema Sc = true -> forall mt c M mem,
  In (mt, M) (s_messages Sc) -> In mem M -> mreq mem = true ->
  ~ conforms vc Sc (mkMsg mt (remove_tag (mtag mem) c)).
Proof.
  intros vc Sc Hwf mt c M mem HinM Hin Hr [M' [HinM' [Hreq _]]]. simpl in *.
  rewrite (message_type_unique Sc Hwf mt M M' HinM HinM') in Hreq.
  apply (not_in_remove_tag (mtag mem) c). apply present_keys. apply Hreq; assumption.
Qed.
Print Assumptions C15_fault_missing_required.

Theorem C15_fault_missing_required_header : forall vc Sc mt c mem,
  In mem (s_header Sc) -> mreq mem = true -> mtag mem <> TAG8 -> present TAG8 c ->
  ~ conforms vc Sc (mkMsg mt (remove_tag (mtag mem) c)).
Proof.
  intros vc Sc mt c mem Hin Hr Hne [v8 H8] [M' [_ [_ [Hhdr _]]]]. simpl in *.
  apply (not_in_remove_tag (mtag mem) c). apply present_keys. apply Hhdr; [|exact Hin | exact Hr].
  exists v8. apply In_remove_tag; [exact H8 | congruence].
Qed.
Print Assumptions C15_fault_missing_required_header.

(* tag unknown to the dictionary, or not allowed in that message *)
Theorem C15_fault_foreign_tag : forall vc Sc, wf_schema Sc = true -> forall mt c M t v n,
  In (mt, M) (s_messages Sc) -> t <> TAG10 ->
  (forall mem, In mem (s_header Sc ++ M) -> mtag mem <> t) ->
  ~ conforms vc Sc (mkMsg mt (insert_at n (t, v) c)).
Proof.
  intros vc Sc Hwf mt c M t v n HinM Hne Hf [M' [HinM' [_ [_ Hent]]]]. simpl in *.
  rewrite (message_type_unique Sc Hwf mt M M' HinM HinM') in Hent.
  destruct (Hent t v (In_insert_at n (t, v) c) Hne) as [mem [Hin [Ht _]]]. apply (Hf mem Hin Ht).
Qed.
Print Assumptions C15_fault_foreign_tag.

(* a member holding a non-conforming value: refused value, wrong kind, or a group with a bad item *)
Theorem C15_fault_bad_member_value : forall vc Sc, wf_schema Sc = true -> forall mt c M mem v,
  In (mt, M) (s_messages Sc) -> In mem (s_header Sc ++ M) -> mtag mem <> TAG10 ->
  In (mtag mem) (map fst c) -> ~ conf_member vc mem v ->
  ~ conforms vc Sc (mkMsg mt (set_value (mtag mem) v c)).
Proof.
  intros vc Sc Hwf mt c M mem v HinM Hin Hne Hp Hn [M' [HinM' [_ [_ Hent]]]]. simpl in *.
  rewrite (message_type_unique Sc Hwf mt M M' HinM HinM') in Hent.
  destruct (Hent (mtag mem) v (In_set_value _ v c Hp) Hne) as [mem' [Hin' [Ht' Hc']]].
  destruct (wf_parts Sc Hwf) as [_ [_ [_ [_ Hsets]]]].
  rewrite (StrB.NoDup_map_inj mtag _ mem' mem (set_nodup Sc M (Hsets _ _ HinM)) Hin' Hin Ht') in Hc'.
  contradiction.
Qed.
Print Assumptions C15_fault_bad_member_value.

Theorem C15_fault_refused_value : forall vc f r s e,
  vc f s = Some e -> ~ conf_member vc (MField f r) (VStr s).
Proof. intros vc f r s e Hv H. inversion H; subst. congruence. Qed.
Print Assumptions C15_fault_refused_value.

Theorem C15_fault_group_for_plain : forall vc f r items, ~ conf_member vc (MField f r) (VGrp items).
Proof. intros vc f r items H. inversion H. Qed.
Print Assumptions C15_fault_group_for_plain.

Theorem C15_fault_plain_for_group : forall vc f r ms s, ~ conf_member vc (MGroup f r ms) (VStr s).
Proof. intros vc f r ms s H. inversion H. Qed.
Print Assumptions C15_fault_plain_for_group.

(* any nesting depth: a fault in one item makes the group value non-conforming, which is a bad
   member value of the enclosing item (C15_fault_item_bad_member_value) or message *)
Theorem C15_fault_propagates : forall vc f r ms a it b,
  ~ conf_item vc ms it -> ~ conf_member vc (MGroup f r ms) (VGrp (a ++ it :: b)).
Proof.
  intros vc f r ms a it b Hn H. inversion H as [|? ? ? ? Hall]; subst. apply Hn.
  rewrite Forall_forall in Hall. apply Hall. apply in_or_app. right. left. reflexivity.
Qed.
Print Assumptions C15_fault_propagates.

(* inside an item of a group with members ms *)
Theorem C15_fault_item_missing_required : forall vc ms mem it,
  In mem ms -> mreq mem = true -> ~ conf_item vc ms (remove_tag (mtag mem) it).
Proof.
  intros vc ms mem it Hin Hr H. apply conf_item_entries in H.
  apply (not_in_remove_tag (mtag mem) it). eapply conf_entries_required; eassumption.
Qed.
Print Assumptions C15_fault_item_missing_required.

Theorem C15_fault_item_missing_first : forall vc m0 ms it,
  ~ conf_item vc (m0 :: ms) (remove_tag (mtag m0) it).
Proof.
  intros vc m0 ms it H. apply (not_in_remove_tag (mtag m0) it).
  remember (remove_tag (mtag m0) it) as c eqn:Ec. clear Ec. inversion H; subst. left. reflexivity.
Qed.
Print Assumptions C15_fault_item_missing_first.

Theorem C15_fault_item_foreign_member : forall vc ms t v n it,
  (forall mem, In mem ms -> mtag mem <> t) -> ~ conf_item vc ms (insert_at n (t, v) it).
Proof.
  intros vc ms t v n it Hf H. apply conf_item_entries in H.
  destruct (conf_entries_members _ _ _ H t v (In_insert_at n (t, v) it)) as [mem [Hin [Ht _]]].
  apply (Hf mem Hin Ht).
Qed.
Print Assumptions C15_fault_item_foreign_member.

Theorem C15_fault_item_bad_member_value : forall vc ms mem v a b,
  NoDup (map mtag ms) -> In mem ms -> ~ conf_member vc mem v ->
  ~ conf_item vc ms (a ++ (mtag mem, v) :: b).
Proof.
  intros vc ms mem v a b Hnd Hin Hn H. apply conf_item_entries in H.
  destruct (conf_entries_members _ _ _ H (mtag mem) v) as [mem' [Hin' [Ht' Hc']]].
  { apply in_or_app. right. left. reflexivity. }
  rewrite (StrB.NoDup_map_inj mtag ms mem' mem Hnd Hin' Hin Ht') in Hc'. contradiction.
Qed.
Print Assumptions C15_fault_item_bad_member_value.

Theorem C15_fault_item_out_of_order : forall vc ms a e1 e2 b,
  NoDup (map mtag ms) ->
  conf_item vc ms (a ++ e1 :: e2 :: b) -> ~ conf_item vc ms (a ++ e2 :: e1 :: b).
Proof.
  intros vc ms a e1 e2 b Hnd H1 H2.
  destruct (conf_item_adjacent _ _ _ _ _ _ H1) as (i1 & i2 & m1 & m2 & Hlt & Hn1 & Ht1 & Hn2 & Ht2).
  destruct (conf_item_adjacent _ _ _ _ _ _ H2) as (j2 & j1 & m2' & m1' & Hlt' & Hn2' & Ht2' & Hn1' & Ht1').
  assert (i1 = j1) by (eapply NoDup_map_nth; [exact Hnd | exact Hn1 | exact Hn1' | congruence]).
  assert (i2 = j2) by (eapply NoDup_map_nth; [exact Hnd | exact Hn2 | exact Hn2' | congruence]).
  lia.
Qed.
Print Assumptions C15_fault_item_out_of_order.

(* ---- non-vacuity and the repaired ledger items, on the regenerated FIX44 dictionary ---- *)

(* a NewOrderList with NoOrders > NoPartyIDs > NoPartySubIDs (depth 3) has unique keys and conforms *)
Theorem C15_nonvacuous :
  keys_unique (tags ex_msg) = true /\ conforms accept_all GenSchema.FIX44.schema ex_msg.
Proof.
  assert (keys_unique (tags ex_msg) = true) as Hu by (vm_compute; reflexivity).
  split; [exact Hu|]. apply validate_sound; [exact fix44_wf | exact Hu | vm_compute; reflexivity].
Qed.
Print Assumptions C15_nonvacuous.

(* ledger D3, repaired: NewOrderList without its required group NoOrders is refused *)
Theorem C15_required_group_enforced :
  validate accept_all GenSchema.FIX44.schema (mkMsg [69%N] ex_head) = Exc EFIXMessage
  /\ ~ conforms accept_all GenSchema.FIX44.schema (mkMsg [69%N] ex_head).
Proof.
  assert (validate accept_all GenSchema.FIX44.schema (mkMsg [69%N] ex_head) = Exc EFIXMessage) as H
    by (vm_compute; reflexivity).
  split; [exact H|]. intro Hc. apply (validate_complete _ _ fix44_wf) in Hc. congruence.
Qed.
Print Assumptions C15_required_group_enforced.

(* a plain member of a group item given as a group is a message error (was an AssertionError) *)
Theorem C15_group_for_plain_in_item_rejected :
  validate accept_all GenSchema.FIX44.schema
    (mkMsg [69%N] (ex_head ++ [(T 73, VGrp [[(T 11, VStr [99%N]); (T 67, VGrp [[(T 1, VStr [97%N])]]); (T 54, VStr [49%N])]])]))
  = Exc EFIXMessage.
Proof. vm_compute. reflexivity. Qed.
Print Assumptions C15_group_for_plain_in_item_rejected.

(* header members met in a message are checked (were skipped) *)
Theorem C15_header_member_checked :
  validate refuse_43 GenSchema.FIX44.schema
    (mkMsg [69%N] ((T 43, VStr [81%N]) :: ex_head ++ [(T 73, VGrp [ex_item])])) = Exc EFIXMessage.
Proof. vm_compute. reflexivity. Qed.
Print Assumptions C15_header_member_checked.

(* first-member rule at nesting depth 3 *)
Theorem C15_fault_at_depth3_rejected :
  validate accept_all GenSchema.FIX44.schema (mkMsg [69%N] (ex_head ++ [(T 73, VGrp [ex_item_bad_depth3])]))
  = Exc EFIXMessage.
Proof. vm_compute. reflexivity. Qed.
Print Assumptions C15_fault_at_depth3_rejected.

(* ---- the outcome does not depend on the order in which components are declared ---- *)

(* tie of the parse model to the real parser on the real inputs: run on the raw declarations of
   the XML files it returns exactly the dump of the objects FIXSchema built from them *)
Theorem C15_parse_fix44 : parse GenSchema.FIX44.decls = inr GenSchema.FIX44.schema.
Proof.
  rewrite parse_ix_ok by (vm_compute; reflexivity).
  exact (eq_refl (@inr perr schema GenSchema.FIX44.schema)
         <: parse_ix GenSchema.FIX44.decls = @inr perr schema GenSchema.FIX44.schema).
Qed.
Print Assumptions C15_parse_fix44.

Theorem C15_parse_tt : parse GenSchema.TT.decls = inr GenSchema.TT.schema.
Proof.
  rewrite parse_ix_ok by (vm_compute; reflexivity).
  exact (eq_refl (@inr perr schema GenSchema.TT.schema)
         <: parse_ix GenSchema.TT.decls = @inr perr schema GenSchema.TT.schema).
Qed.
Print Assumptions C15_parse_tt.

(* for every declaration list without duplicate names and every permutation of it: parsing
   succeeds for one iff for the other, with EQUAL schemas *)
Theorem C15_component_order_independent : forall r cs',
  NoDup (map fst (r_comps r)) -> Permutation (r_comps r) cs' ->
  forall s, parse r = inr s <-> parse_with r cs' = inr s.
Proof.
  intros r cs' Hnd Hp s. split; [apply parse_order_independent; assumption|].
  intro H.
  pose (r' := mkRaw (r_fields r) (r_groupable r) (r_header r) cs' (r_msgs r)).
  change (parse r' = inr s) in H.
  apply (parse_order_independent r' (r_comps r)) in H; [exact H | |].
  - simpl. eapply Permutation_NoDup; [apply Permutation_map; exact Hp | exact Hnd].
  - simpl. apply Permutation_sym. exact Hp.
Qed.
Print Assumptions C15_component_order_independent.

(* ... the component tables agree on every name ... *)
Theorem C15_component_table_order_independent : forall r cs',
  NoDup (map fst (r_comps r)) -> Permutation (r_comps r) cs' ->
  forall cm, components_of r (r_comps r) = inr cm ->
  exists cm', components_of r cs' = inr cm' /\ forall n, lookup cm n = lookup cm' n.
Proof. intros r cs' Hnd Hp cm H. unfold components_of in *. eapply resolve_perm; eassumption. Qed.
Print Assumptions C15_component_table_order_independent.

(* ... hence validate gives the same outcome for every message *)
Theorem C15_validate_order_independent : forall r cs',
  NoDup (map fst (r_comps r)) -> Permutation (r_comps r) cs' ->
  forall s, parse r = inr s ->
  exists s', parse_with r cs' = inr s' /\ forall vc m, validate vc s' m = validate vc s m.
Proof.
  intros r cs' Hnd Hp s H. exists s. split; [apply parse_order_independent; assumption | reflexivity].
Qed.
Print Assumptions C15_validate_order_independent.

(* a dictionary the parser refuses (circular / undeclared reference, duplicate member, ...) is refused in every order *)
Theorem C15_parse_failure_order_independent : forall r cs',
  NoDup (map fst (r_comps r)) -> Permutation (r_comps r) cs' ->
  (exists e, parse r = inl e) <-> (exists e, parse_with r cs' = inl e).
Proof.
  intros r cs' Hnd Hp. split; intros [e H].
  - destruct (parse_with r cs') as [e'|s] eqn:E; [eauto|].
    apply (proj2 (C15_component_order_independent r cs' Hnd Hp s)) in E. congruence.
  - destruct (parse r) as [e'|s] eqn:E; [eauto|].
    apply (parse_order_independent r cs' Hnd Hp s) in E. congruence.
Qed.
Print Assumptions C15_parse_failure_order_independent.

(* the fuel of the retry loop (number of declarations) is never what stops it *)
Theorem C15_resolve_fuel_sufficient : forall flds grp fuel cm pending,
  (length pending <= fuel)%nat ->
  resolve flds grp fuel cm pending = resolve flds grp (length pending) cm pending.
Proof. intros. apply resolve_fuel; [assumption | apply le_n]. Qed.
Print Assumptions C15_resolve_fuel_sufficient.

(* instance: every one of the 104! declaration orders of tests/FIX44.xml parses to the dumped schema *)
Theorem C15_fix44_any_component_order : forall cs',
  Permutation (r_comps GenSchema.FIX44.decls) cs' ->
  parse_with GenSchema.FIX44.decls cs' = inr GenSchema.FIX44.schema.
Proof.
  intros cs' Hp. apply parse_order_independent; [|exact Hp | exact C15_parse_fix44].
  apply nodupN_NoDup. vm_compute. reflexivity.
Qed.
Print Assumptions C15_fix44_any_component_order.
