(* C05 - outbound messages are numbered consecutively and journaled under that number.
   The theorems (the lemmas they follow from are in AF.Lemmas.SessionC05L, on SessionL / SessionC04L / SessionC11L) about send_msg and everything that sends through it
   in the model Fix/Session.v (asyncfix/connection.py:send_msg, Codec.encode's number selection,
   Journaler.persist_msg / set_seq_num as the abstract journal of the model).

   Out_inv w      stored outbound counter + 1 = next_num_out, every journaled outbound number is below
                  next_num_out, a connection that is up has its writer.
   OutStep w r    what a computation started in w did: the NEW frames it wrote (`news`: everything but
                  PossDupFlag=Y retransmissions and SequenceReset-GapFill, which are never journaled) carry
                  next_num_out, +1, +2, ... (their MsgSeqNum field says so), exactly these (number, frame) pairs
                  were appended to the journal, next_num_out advanced by their count, Out_inv holds again.
   `new` message  raw_seq m = false: not a SequenceReset and without PossDupFlag=Y (the codec allocates).

   D12 (ResendRequest servicing rewound / truncated the outbound journal) is repaired in the code: servicing a
   ResendRequest now preserves Out_inv, consumes no number and journals nothing (C05_history_partial has no D12
   hypothesis any more; C05_resend_twice_ok is the former witness).
   Known-finding class excluded by the `_partial` theorem:
     D20_step  an application send of a SequenceReset that is not a gap fill (raw_seq m = true and
               skip_journal m = false): numbered by its own MsgSeqNum field and journaled under it
               (since R8a the follow-up damage is a failed send that writes nothing, not a duplicate
               number on the wire: C05_journal_before_write, C05_app_seqreset_refuted)
   Numbers are assumed inside SQLite's INTEGER range (in_i64 / in_range hypotheses). *)
From Coq Require Import ZArith NArith List Bool.
From AF Require Import Base.Sx Py.Str Fix.Session Lemmas.SessionL Lemmas.SessionC04L Lemmas.SessionC11L Lemmas.SessionC05L.
From Coq Require String.
Import String.StringSyntax.
Import ListNotations.
Open Scope Z_scope.

Example C05_enums_tied : enums_ok = true.
Proof. exact enums_tied. Qed.
Print Assumptions C05_enums_tied.

(* send_msg of a new message preserves the invariant, whether accepted or refused *)
Theorem C05_send_preserves : forall c m,
  raw_seq m = false -> forall w, Out_inv w -> in_range w (send_msg c m w) -> OutStep w (send_msg c m w).
Proof. intros c m Hr. apply (send_msg_new_om c m Hr). Qed.
Print Assumptions C05_send_preserves.

(* ... and there are exactly two outcomes: refused with FIXConnectionError and nothing changed; or written
   once with MsgSeqNum = next_num_out, that number consumed, the frame readable from the journal under that
   number, stored counter = that number *)
Theorem C05_send_new_cases : forall c m w,
  raw_seq m = false -> Out_inv w -> in_i64 (nout w) = true ->
  send_msg c m w = mkR (inr XConn) w []
  \/ exists w' pre,
       let wm := mkMsg (mtype m) (wire_tags c (nout w) m) in
       send_msg c m w = mkR (inl tt) w' (pre ++ [Wire wm]) /\ wires pre = []
       /\ get T34 (mtags wm) = Some (z_to_dec (nout w))
       /\ nout w' = nout w + 1 /\ j_sout (jr w') = nout w
       /\ lookup (nout w) (j_out (jr w')) = Some wm
       /\ j_out (jr w') = j_out (jr w) ++ [(nout w, wm)] /\ Out_inv w'.
Proof. exact send_msg_new_cases. Qed.
Print Assumptions C05_send_new_cases.

(* a send refused with FIXConnectionError (any message, any state): no number, no journal row, no frame *)
Theorem C05_refused_is_free : forall c m w,
  rv (send_msg c m w) = inr XConn -> send_msg c m w = mkR (inr XConn) w [].
Proof. exact send_msg_conn_free. Qed.
Print Assumptions C05_refused_is_free.

(* every history of inbound messages (ResendRequests included), sends, probes and disconnects outside D20: each
   step is an OutStep (new frames numbered consecutively from next_num_out and journaled under those numbers,
   retransmissions and gap fills not journaled) and the invariant holds at the end *)
Theorem C05_history_partial : forall c h w,
  Out_inv w -> I64MIN <= nout w -> nout (final c w h) <= I64MAX + 1 ->
  Forall (fun s => ~ D20_step s) (run c w h) ->
  Forall (fun s => OutStep (s_before s) (s_res s)) (run c w h) /\ Out_inv (final c w h).
Proof. exact run_out_inv. Qed.
Print Assumptions C05_history_partial.

(* _process_message alone, any inbound message (no class excluded): keeps the invariant *)
Theorem C05_inbound_preserves : forall c m now w,
  Out_inv w -> in_range w (process_message c m now w) -> OutStep w (process_message c m now w).
Proof. intros c m now. apply (process_message_om c m now). Qed.
Print Assumptions C05_inbound_preserves.

(* the former D12 witness: two ResendRequests over the same range: answered twice from the untouched journal
   (8 frames written in all), new numbers 1 2 3 4, journal rows 1 2 3 4, ACTIVE *)
Example C05_resend_twice_ok :
  Out_inv w_acceptor /\ Forall (fun s => ~ D20_step s) (run cfgS w_acceptor h_resend_twice)
  /\ new_numbers (trace (run cfgS w_acceptor h_resend_twice)) = [S "1"; S "2"; S "3"; S "4"]
  /\ map fst (j_out (jr (final cfgS w_acceptor h_resend_twice))) = [1; 2; 3; 4]
  /\ length (wires (trace (run cfgS w_acceptor h_resend_twice))) = 8%nat
  /\ st (final cfgS w_acceptor h_resend_twice) = ST_ACTIVE.
Proof.
  split; [exact w_acceptor_inv|]. split; [apply no_D20_decided; vm_compute; reflexivity|].
  vm_compute. repeat split; reflexivity.
Qed.
Print Assumptions C05_resend_twice_ok.

(* application-sent SequenceReset-GapFill / PossDupFlag=Y messages: written, not journaled, no number consumed:
   inside the scope of C05_history_partial *)
Example C05_app_gapfill_in_scope :
  Forall (fun s => ~ D20_step s) (run cfgS w_acceptor h_app_gapfill)
  /\ new_numbers (trace (run cfgS w_acceptor h_app_gapfill)) = [S "1"; S "2"]
  /\ length (wires (trace (run cfgS w_acceptor h_app_gapfill))) = 4%nat
  /\ map fst (j_out (jr (final cfgS w_acceptor h_app_gapfill))) = [1; 2].
Proof.
  split; [apply no_D20_decided; vm_compute; reflexivity|]. vm_compute. repeat split; reflexivity.
Qed.
Print Assumptions C05_app_gapfill_in_scope.

(* R8a - journal first, then write - for EVERY world (inside or outside the invariant, D20 included):
   a send_msg that raises (refusal, encoding error, journal error, closed writer) has written nothing;
   a send_msg that returns has written exactly one frame, and unless it is one of the never-journaled kinds
   (PossDupFlag=Y / SequenceReset-GapFill) that frame is in the outbound journal under its own number *)
Theorem C05_journal_before_write : forall c m w,
  match rv (send_msg c m w) with
  | inr _ => wires (re (send_msg c m w)) = []
  | inl _ => exists n, wires (re (send_msg c m w)) = [mkMsg (mtype m) (wire_tags c n m)]
                       /\ (skip_journal m = false ->
                           In (n, mkMsg (mtype m) (wire_tags c n m)) (j_out (jr (rw (send_msg c m w)))))
  end.
Proof.
  intros c m w. rewrite send_msg_nf. destruct (_ && _); [|reflexivity]. cbn [rv rw re]. rewrite wires_app.
  replace (wires (gate_events w)) with (@nil msg) by (unfold gate_events; destruct (_ =? _); reflexivity).
  pose proof (send_write_spec c m (gate_world w)) as H. destruct (rv (send_write c m (gate_world w))).
  - destruct H as [n [H1 H2]]. exists n. rewrite H1. auto.
  - destruct H as [_ H]. rewrite H. reflexivity.
Qed.
Print Assumptions C05_journal_before_write.

(* D20: an application-sent plain SequenceReset(34 = next_num_out, no GapFillFlag) is written and journaled under
   that number without consuming it (Out_inv breaks: next_num_out is already a journal key).  Since R8a the
   duplicate number no longer reaches the wire: the next new message fails in the journal BEFORE the write -
   DuplicateSeqNoError, no frame, no journal row, the application message is lost and its number is burnt *)
Theorem C05_app_seqreset_refuted :
  exists c w h,
    Out_inv w
    /\ map (fun wm => get T34 (mtags wm)) (wires (trace (run c w h))) = [Some (S "1"); Some (S "2")]
    /\ (exists s, In s (run c w h) /\ Out_inv (s_before s) /\ ~ Out_inv (s_after s)
                  /\ nout (s_after s) = nout (s_before s) /\ has_key (nout (s_after s)) (j_out (jr (s_after s))) = true)
    /\ (exists s, In s (run c w h) /\ rv (s_res s) = inr XDupSeq /\ s_events s = []
                  /\ nout (s_after s) = nout (s_before s) + 1
                  /\ j_out (jr (s_after s)) = j_out (jr (s_before s))).
Proof.
  exists cfgS, w_acceptor, h_app_seqreset.
  split; [exact w_acceptor_inv|]. split; [vm_compute; reflexivity|].
  split.
  - eexists (nth 1 (run cfgS w_acceptor h_app_seqreset) (mkS w_acceptor (i_logon 1) (step cfgS (i_logon 1) w_acceptor))).
    split; [right; left; reflexivity|]. unfold Out_inv. vm_compute. repeat split; try reflexivity.
    + repeat constructor.
    + intros [H _]. discriminate.
  - eexists (nth 2 (run cfgS w_acceptor h_app_seqreset) (mkS w_acceptor (i_logon 1) (step cfgS (i_logon 1) w_acceptor))).
    split; [do 2 right; left; reflexivity|]. vm_compute. repeat split; reflexivity.
Qed.
Print Assumptions C05_app_seqreset_refuted.

(* PossResend(97)=Y, PossDupFlag=N, GapFillFlag on a non-SequenceReset: NEW messages - numbered by the codec, journaled,
   counted, and replayed (with PossDupFlag=Y) on a ResendRequest *)
Example C05_possresend_is_new :
  raw_seq m_possresend = false /\ skip_journal m_possresend = false
  /\ skip_journal (mkMsg (S "D") [(S "11", S "X"); (T43, S "N")]) = false
  /\ skip_journal (mkMsg (S "D") [(S "11", S "X"); (T123, S "Y")]) = false
  /\ (let l := run cfgS w_acceptor [i_logon 1; OSend m_possresend; i_resend 2 2 0] in
      new_numbers (trace l) = [S "1"; S "2"]
      /\ map fst (j_out (jr (final cfgS w_acceptor [i_logon 1; OSend m_possresend; i_resend 2 2 0]))) = [1; 2]
      /\ j_sout (jr (final cfgS w_acceptor [i_logon 1; OSend m_possresend; i_resend 2 2 0])) = 2
      /\ map (fun wm => (get T34 (mtags wm), get T43 (mtags wm), get (S "97") (mtags wm))) (wires (trace l))
         = [(Some (S "1"), None, None); (Some (S "2"), None, Some (S "Y")); (Some (S "2"), Some (S "Y"), Some (S "Y"))]).
Proof. vm_compute. repeat split; reflexivity. Qed.
Print Assumptions C05_possresend_is_new.

Example C05_nonvacuous :
  Out_inv w_acceptor /\ I64MIN <= nout w_acceptor /\ nout (final cfgS w_acceptor h_c05_good) <= I64MAX + 1
  /\ Forall (fun s => ~ D20_step s) (run cfgS w_acceptor h_c05_good)
  /\ new_numbers (trace (run cfgS w_acceptor h_c05_good)) = [S "1"; S "2"; S "3"; S "4"; S "5"; S "6"]
  /\ j_sout (jr (final cfgS w_acceptor h_c05_good)) = 6.
Proof.
  split; [exact w_acceptor_inv|]. split; [discriminate|].
  split; [vm_compute; discriminate|].
  split; [apply no_D20_decided; vm_compute; reflexivity|]. vm_compute. split; reflexivity.
Qed.
Print Assumptions C05_nonvacuous.

(* R6a: a journaled application message carrying 43=N / 122 is replayed with 43=Y and 122 = its original SendingTime *)
Example C05_replay_overwrites_possdup :
  let l := run cfgS w_acceptor [i_logon 1; o_app_pdn; i_resend 2 2 0] in
  map (fun wm => (get T34 (mtags wm), get T43 (mtags wm), get T122 (mtags wm))) (wires (trace l))
  = [(Some (S "1"), None, None); (Some (S "2"), Some (S "N"), Some (S "OLD"));
     (Some (S "2"), Some (S "Y"), Some (c_time cfgS))]
  /\ st (final cfgS w_acceptor [i_logon 1; o_app_pdn; i_resend 2 2 0]) = ST_ACTIVE
  /\ new_numbers (trace l) = [S "1"; S "2"].
Proof. vm_compute. repeat split; reflexivity. Qed.
Print Assumptions C05_replay_overwrites_possdup.
