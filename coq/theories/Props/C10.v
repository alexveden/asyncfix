(* C10 - the decoder is total, makes progress and never accepts a corrupted frame.
   The theorems (the lemmas they follow from are in AF.Lemmas.DecodeTotalL, on AF.Lemmas.StrB).  All statements are about the
   validated model `decode G bs raw true` (Codec.decode in silent mode) on ARBITRARY text `raw`,
   for every group table G and expected BeginString bs; witnesses use the table and BeginString
   regenerated from /repo (TBL, BS) and are replayable byte strings (| = SOH in the comments).
   After the round-9 and round-10 repairs the decoder part of the property holds at full
   strength: decode never raises, 0 <= consumed <= len, what is consumed is exactly the junk
   before the marker plus the frame candidate, the reader loop always terminates, and a message is
   returned only if its CheckSum field is the last field, spelled as three digits, and equal to the
   sum of all bytes before it.  What is still false: BodyLength is not compared with the body
   (pinned by a test of the repository), so a NUL inserted in a frame is not noticed; a marker
   inside a field value destroys the frame (D5); a candidate with an oversize BodyLength holds
   back what follows it. *)
From Coq Require Import ZArith NArith List Bool.
From AF Require Import Lemmas.StrB Base.Sx Py.Str Fix.Codec Fix.Framing Lemmas.StrA Lemmas.DecodeTotalL.
Import ListNotations.
Open Scope N_scope.

(* ---------------------------------------------------------------- (a) totality *)

(* full strength: silent decode returns a triple for every input (no exception of any kind) *)
Theorem C10_no_raise : forall G bs raw, exists m n r, decode G bs raw true = Ok (m, n, r).
Proof. exact decode_total. Qed.
Print Assumptions C10_no_raise.

(* the former witnesses of ValueError (BodyLength, CheckSum), FIXMessageError (tag) and
   AttributeError (root tag repeated after a closed group): rejected and consumed alone; with a
   correct checksum the last one is returned with tag 70 marked as repeated *)
Theorem C10_no_raise_examples :
  dec_summary w_blen = Some (false, zlen w_blen, false)
  /\ dec_summary w_cks = Some (false, zlen w_cks, false)
  /\ dec_summary w_tag = Some (false, zlen w_tag, false)
  /\ dec_summary w_dup = Some (false, zlen w_dup, false)
  /\ exists m, dec w_dup_ok = Ok (Some m, zlen w_dup_ok, Some w_dup_ok)
       /\ ct_get [55; 48] (msg_tags m) = Some VErr.
Proof.
  repeat (split; [vm_compute; reflexivity|]).
  set (r := dec w_dup_ok). vm_compute in r. subst r. eexists. split; reflexivity.
Qed.
Print Assumptions C10_no_raise_examples.

(* ---------------------------------------------------------------- (b) consumed length *)

(* full strength: the consumed length is always within the buffer *)
Theorem C10_consumed_bounds : forall G bs raw m n r,
  decode G bs raw true = Ok (m, n, r) -> (0 <= n <= zlen raw)%Z.
Proof. exact decode_consumed_bounds. Qed.
Print Assumptions C10_consumed_bounds.

(* exactly: len minus the partial-marker tail (no marker); or, with the marker at offset i, either
   i (decode waits: fewer than three fields and no further marker, or the declared length exceeds
   the buffer) or i + the length of the frame candidate *)
Theorem C10_consumed_shape : forall G bs raw m n r,
  decode G bs raw true = Ok (m, n, r) ->
  (find_sub MARK raw = None /\ m = None /\ n = (zlen raw - Z.of_nat (marker_tail raw))%Z) \/
  exists i, find_sub MARK raw = Some i /\
    ((m = None /\ n = Z.of_nat i /\ wait_case i raw)
     \/ n = (Z.of_nat i + zlen (dec_encoded i raw))%Z).
Proof. exact decode_consumed_shape. Qed.
Print Assumptions C10_consumed_shape.

(* what is consumed beyond the junk prefix is exactly the candidate: nothing that follows it in
   the buffer is lost - a rejected frame is dropped alone (D8-bad-frame-drops-buffer repaired) *)
Theorem C10_consumes_candidate : forall G bs raw m n r i,
  decode G bs raw true = Ok (m, n, r) -> find_sub MARK raw = Some i ->
  (m = None /\ n = Z.of_nat i /\ wait_case i raw)
  \/ (n = (Z.of_nat i + zlen (dec_encoded i raw))%Z
      /\ raw = firstn i raw ++ dec_encoded i raw ++ skipn (Z.to_nat n) raw).
Proof.
  intros G bs raw m n r i H Ei. apply decode_consumed_shape in H.
  destruct H as [(E & _)|(i' & Ei' & H)]; [congruence|].
  assert (i' = i) by congruence. subst i'. destruct H as [H|Hn]; [auto|]. right. split; [exact Hn|].
  subst n. unfold zlen. rewrite <- Nat2Z.inj_add, Nat2Z.id, dec_encoded_length.
  rewrite <- skipn_skipn'. unfold dec_encoded. now rewrite !firstn_skipn.
Qed.
Print Assumptions C10_consumes_candidate.

(* the former witnesses of a negative consumed length (-975) and of consumed > len (47 of 37) *)
Theorem C10_consumed_examples :
  dec_summary w_neg = Some (false, zlen w_neg, false)
  /\ dec_summary w_negbad = Some (false, zlen w_negbad, false)
  /\ dec_summary w_over = Some (false, 10%Z, false) /\ zlen w_over = 37%Z.
Proof. repeat split; vm_compute; reflexivity. Qed.
Print Assumptions C10_consumed_examples.

(* no marker in the buffer: everything is dropped except the longest proper marker prefix (at most
   5 bytes) the buffer ends with *)
Theorem C10_no_marker_keeps_tail : forall G bs raw,
  find_sub MARK raw = None ->
  exists t, (t <= 5)%nat /\ (t <= length raw)%nat
    /\ decode G bs raw true = Ok (None, (zlen raw - Z.of_nat t)%Z, None)
    /\ skipn (length raw - t) raw = firstn t MARK.
Proof.
  intros G bs raw E. pose proof (marker_tail_spec raw) as (A & B & C).
  exists (marker_tail raw). repeat split; auto. now apply decode_no_marker.
Qed.
Print Assumptions C10_no_marker_keeps_tail.

Theorem C10_marker_tail_examples :
  dec_summary [97; 98; 99; 56; 61; 70] = Some (false, 3%Z, false)
  /\ dec_summary [56; 61; 70; 73; 88] = Some (false, 0%Z, false)
  /\ dec_summary [97; 98; 99] = Some (false, 3%Z, false)
  /\ length (delivered (reader_run TBL BS [] [w_good ++ [56; 61; 70]; skipn 3 w_good])) = 2%nat.
Proof. repeat split; vm_compute; reflexivity. Qed.
Print Assumptions C10_marker_tail_examples.

(* the exact zero-consumption cases: no message, and either the buffer is a proper prefix of the
   marker (at most 5 bytes), or a candidate starts the buffer and decode waits for its completion;
   in particular a fragment followed by another marker is consumed (D8-fragment-stalls repaired) *)
Theorem C10_zero_consumption_cases : forall G bs raw m r,
  decode G bs raw true = Ok (m, 0%Z, r) ->
  m = None /\
  ((find_sub MARK raw = None /\ (length raw <= 5)%nat /\ raw = firstn (length raw) MARK)
   \/ (find_sub MARK raw = Some 0%nat /\ wait_case 0 raw)).
Proof. exact decode_zero_cases. Qed.
Print Assumptions C10_zero_consumption_cases.

(* ---------------------------------------------------------------- (c) acceptance *)

(* Every returned message (full strength): its raw text is the slice of the input that starts at
   the marker and the consumed length is the junk before the marker plus that text; BeginString is
   the expected one; the second field is a BodyLength that is a length and fits the buffer; the
   CheckSum field is the LAST field and the only one with tag "10", and its value is exactly
   "%0.3i" of the sum of ALL bytes before "10=" modulo 256; the text is those bytes, "10=ddd" and
   at most one SOH. *)
Theorem C10_accept_sound : forall G bs raw m n r,
  decode G bs raw true = Ok (Some m, n, r) ->
  exists i, find_sub MARK raw = Some i /\ r = Some (dec_encoded i raw)
    /\ n = (Z.of_nat i + zlen (dec_encoded i raw))%Z /\
    let fs := dec_fields i raw in
    let before := join SOHs (removelast fs) ++ SOHs in
    let ddd := fmt03 (sum_codes before mod 256) in
    (3 <= length fs)%nat
    /\ (exists t0 v1 bl, nth 0 fs [] = field t0 bs /\ nth 1 fs [] = field T9 v1 /\ py_int v1 = Some bl
          /\ (0 <= bl)%Z /\ (zlen (nth 0 fs []) + zlen (nth 1 fs []) + 9 + bl <= zlen raw - Z.of_nat i)%Z)
    /\ fs = removelast fs ++ [field T10 ddd]
    /\ Forall (fun f => field_tag f <> Some T10) (removelast fs)
    /\ exists tail, (tail = [] \/ tail = SOHs) /\ dec_encoded i raw = before ++ field T10 ddd ++ tail.
Proof. exact decode_accept_shape. Qed.
Print Assumptions C10_accept_sound.

Theorem C10_accept_nonvacuous :
  dec_summary w_nested = Some (true, 130%Z, true) /\ dec_summary w_good = Some (true, 26%Z, true).
Proof. split; vm_compute; reflexivity. Qed.
Print Assumptions C10_accept_nonvacuous.

(* the former witnesses of the lenient CheckSum spellings ("10= 32", "10=+32") are rejected *)
Theorem C10_checksum_strict_examples :
  dec_summary w_lz = Some (true, 34%Z, true)
  /\ dec_summary w_lenient = Some (false, 34%Z, false)
  /\ dec_summary w_lenient_plus = Some (false, 34%Z, false).
Proof. repeat split; vm_compute; reflexivity. Qed.
Print Assumptions C10_checksum_strict_examples.

(* the former witness of "a field after CheckSum is returned in the message" *)
Theorem C10_fields_after_checksum_fixed :
  dec_summary w_trailing = Some (false, 31%Z, false) /\ zlen w_trailing = 38%Z
  /\ last (frame_fields w_trailing) [] = field T10 [49; 57; 48].
Proof. repeat split; vm_compute; reflexivity. Qed.
Print Assumptions C10_fields_after_checksum_fixed.

(* one byte of one field replaced, the list of fields otherwise unchanged (the change neither
   creates nor destroys a SOH, a marker or the CheckSum separator): never returned as a message.
   Covers every position - tags, "=", values, BeginString, BodyLength and the CheckSum field. *)
Theorem C10_subst_detected : forall G bs raw raw' pre a x y c post,
  frame_fields raw = pre ++ (a ++ x :: c) :: post ->
  frame_fields raw' = pre ++ (a ++ y :: c) :: post ->
  x <> y -> x < 256 -> y < 256 ->
  (exists m n r, decode G bs raw true = Ok (Some m, n, r)) ->
  forall m' n' r', decode G bs raw' true <> Ok (Some m', n', r').
Proof. exact decode_subst_detected. Qed.
Print Assumptions C10_subst_detected.

Theorem C10_subst_nonvacuous :
  let pre := [field T8 BS; field T9 [49; 50]; field T35 [48]] in
  frame_fields w_lz = pre ++ ([53; 56; 61; 50; 57] ++ 57 :: []) :: [field T10 [48; 51; 50]]
  /\ frame_fields w_lz_subst = pre ++ ([53; 56; 61; 50; 57] ++ 56 :: []) :: [field T10 [48; 51; 50]]
  /\ frame_fields w_lz = (pre ++ [field [53; 56] [50; 57; 57]]) ++ ([49; 48; 61; 48; 51] ++ 50 :: []) :: []
  /\ frame_fields w_lz_ck = (pre ++ [field [53; 56] [50; 57; 57]]) ++ ([49; 48; 61; 48; 51] ++ 51 :: []) :: []
  /\ dec_summary w_lz = Some (true, 34%Z, true)
  /\ dec_summary w_lz_subst = Some (false, 34%Z, false)
  /\ dec_summary w_lz_ck = Some (false, 34%Z, false).
Proof. repeat split; vm_compute; reflexivity. Qed.
Print Assumptions C10_subst_nonvacuous.

(* still false: "BodyLength consistent with the bytes" (pinned by
   tests/test_codec.py::test_decode_custom_msg_type) - BodyLength 2 for a body of 14 is returned *)
Theorem C10_bodylength_unchecked_refuted :
  exists raw m n, decode TBL BS raw true = Ok (Some m, n, Some raw)
    /\ frame_blen raw = Some 2%Z /\ well_framedb raw = false.
Proof.
  exists w_wrongbl. set (r := decode _ _ _ _). vm_compute in r. subst r.
  eexists _, _. repeat split; vm_compute; reflexivity.
Qed.
Print Assumptions C10_bodylength_unchecked_refuted.

(* ... hence still false: "no single-byte corruption is returned" - a NUL inserted in a value
   keeps the byte sum and is returned as part of the value (D8-nul-keeps-checksum) *)
Theorem C10_nul_keeps_checksum_refuted :
  exists a b m m' n n', w_lz = a ++ b /\ w_nul = a ++ 0 :: b
    /\ decode TBL BS w_lz true = Ok (Some m, n, Some w_lz)
    /\ decode TBL BS w_nul true = Ok (Some m', n', Some w_nul)
    /\ well_framedb w_lz = true /\ well_framedb w_nul = false
    /\ ct_get [53; 56] (msg_tags m) = Some (VStr [50; 57; 57])
    /\ ct_get [53; 56] (msg_tags m') = Some (VStr [50; 0; 57; 57]).
Proof.
  exists (firstn 24 w_lz), (skipn 24 w_lz).
  set (r := decode _ _ w_lz _). set (r' := decode _ _ w_nul _). vm_compute in r, r'. subst r r'.
  eexists _, _, _, _. repeat split; vm_compute; reflexivity.
Qed.
Print Assumptions C10_nul_keeps_checksum_refuted.

(* still false (D5): a well-formed frame whose value contains "8=FIX." is not returned *)
Theorem C10_marker_in_field_refuted :
  well_framedb w_d5 = true /\ dec_summary w_d5 = Some (false, 23%Z, false) /\ zlen w_d5 = 38%Z.
Proof. repeat split; vm_compute; reflexivity. Qed.
Print Assumptions C10_marker_in_field_refuted.

(* ---------------------------------------------------------------- (d) progress *)

(* full strength: for every buffer and chunk the inner loop of socket_read_task ends within
   len + 1 iterations, without an exception (status 1) and without exhausting the fuel (status 2) *)
Theorem C10_reader_terminates : forall G bs buf chunk, status (reader_step G bs buf chunk) = 0.
Proof. intros G bs buf chunk. apply reader_loop_terminates, Nat.lt_succ_diag_r. Qed.
Print Assumptions C10_reader_terminates.

(* every iteration that goes on - a delivery, or a rejection with a positive consumed length -
   strictly shortens the buffer; a delivery always has a positive consumed length *)
Theorem C10_reader_iteration_shrinks : forall G bs buf m n r,
  decode G bs buf true = Ok (m, n, r) -> (m <> None \/ 0 < n)%Z ->
  (0 < n)%Z /\ (length (skipn (Z.to_nat n) buf) < length buf)%nat.
Proof.
  intros G bs buf m n r D H. assert (Hn : (0 < n)%Z).
  { destruct H as [H|H]; [|exact H]. destruct m as [m|]; [|congruence].
    eapply decode_msg_positive; eauto. }
  split; [exact Hn|]. eapply consumed_shrinks; eauto.
Qed.
Print Assumptions C10_reader_iteration_shrinks.

(* a rejected frame does not take its successor with it and the successor does not wait for
   another read (repair R10i): if the head of the buffer is rejected with a positive consumed
   length and what follows it decodes to a message, that message is the first delivery of the
   SAME reader step *)
Theorem C10_rejected_frame_does_not_block : forall G bs buf chunk n r m n2 r2,
  decode G bs (buf ++ chunk) true = Ok (None, n, r) -> (0 < n)%Z ->
  decode G bs (skipn (Z.to_nat n) (buf ++ chunk)) true = Ok (Some m, n2, Some r2) ->
  exists more, delivered (reader_step G bs buf chunk) = (m, r2) :: more
               /\ status (reader_step G bs buf chunk) = 0.
Proof.
  intros G bs buf chunk n r m n2 r2 D1 Hn D2. generalize (C10_reader_terminates G bs buf chunk).
  pose proof (consumed_shrinks _ _ _ _ _ _ D1 Hn) as Hlt.
  unfold reader_step. destruct (length (buf ++ chunk)) as [|k]; [inversion Hlt|].
  cbn [reader_loop]. rewrite D1, (proj2 (Z.ltb_lt 0 n) Hn).
  destruct r; cbn [reader_loop]; rewrite D2, reader_loop_acc; intros T; eexists; (split; [reflexivity|exact T]).
Qed.
Print Assumptions C10_rejected_frame_does_not_block.

(* the former blocking frames (negative BodyLength with wrong / correct checksum, the raising
   frames, the fragment, the wrong BeginString, ...) followed by two good frames: both delivered *)
Theorem C10_no_blocking_examples :
  Forall (fun first => residual (run2 first) = [] /\ length (delivered (run2 first)) = 2%nat
                       /\ snd (run2 first) = [0; 0])
         [w_negbad; w_neg; w_blen; w_cks; w_tag; w_dup; w_frag; w_badbs; w_lenient; w_trailing].
Proof. repeat constructor; vm_compute; reflexivity. Qed.
Print Assumptions C10_no_blocking_examples.

Theorem C10_bad_then_good_example :
  dec_summary (w_badbs ++ w_good) = Some (false, zlen w_badbs, false)
  /\ dec_summary (w_frag ++ w_good) = Some (false, zlen w_frag, false)
  /\ exists m, dec w_good = Ok (Some m, zlen w_good, Some w_good)
       /\ delivered (reader_run TBL BS [] [w_badbs ++ w_good; w_good]) = [(m, w_good); (m, w_good)].
Proof.
  split; [vm_compute; reflexivity|]. split; [vm_compute; reflexivity|].
  set (r := dec w_good). vm_compute in r. subst r. eexists. split; [reflexivity|]. vm_compute. reflexivity.
Qed.
Print Assumptions C10_bad_then_good_example.

(* the former witnesses of "one rejected candidate per read": a good frame behind one, or behind
   several, rejected candidates in ONE read is delivered by that read and the buffer is empty *)
Theorem C10_same_read_examples :
  (let '(b, out, sts) := reader_run TBL BS [] [w_badbs ++ w_good] in (b, length out, sts)) = ([], 1%nat, [0])
  /\ (let '(b, out, sts) := reader_run TBL BS [] [w_d5 ++ w_good] in (b, length out, sts)) = ([], 1%nat, [0])
  /\ (let '(b, out, sts) := reader_run TBL BS [] [w_blen ++ w_negbad ++ w_frag ++ w_good ++ w_tag ++ w_good] in
      (b, length out, sts)) = ([], 2%nat, [0]).
Proof. repeat split; vm_compute; reflexivity. Qed.
Print Assumptions C10_same_read_examples.

(* still false (D8-oversize-bodylength-waits): a candidate whose declared BodyLength exceeds what
   the buffer holds makes decode wait although complete frames follow it *)
Theorem C10_oversize_bodylength_waits_refuted :
  dec_summary (w_oversize ++ w_good) = Some (false, 0%Z, false)
  /\ frame_blen (w_oversize ++ w_good) = Some 500%Z
  /\ run2 w_oversize = (w_oversize ++ w_good ++ w_good, [], [0; 0]).
Proof. repeat split; vm_compute; reflexivity. Qed.
Print Assumptions C10_oversize_bodylength_waits_refuted.
