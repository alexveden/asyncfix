(* C19 - field value validation matches the FIX 4.4 datatype lexical spaces.
   The theorems (the lemmas they follow from are in AF.Lemmas.LexL).
     validate_value : field -> str -> result     model of the patched SchemaField.validate_value (Fix/ValidateValue.v)
     lex d s                                     the lexical space of FIX datatype d, written from the standard (Fix/Lex.v)
     kf d s                                      the known-finding classes (Fix/Lex.v): exactly where the two differ
     plain tag name                              a field without enumerators
   All statements are over all strings [s : list N] (no length bound).  TAG_16 is EndSeqNo, whose value "0" is
   accepted by _validate_special_cases. *)
From Coq Require Import ZArith NArith List Bool.
From AF Require Import Base.Sx Py.Str Fix.Lex Fix.ValidateValue Lemmas.LexL Lemmas.LexDictL.
From AFGen Require Import GenLex.
Import ListNotations.
Open Scope N_scope.

(* ---------------------------------------------------------------- the property, for every datatype name at once *)

(* the full statement "accepted <-> in the lexical space" holds exactly outside the known-finding classes ... *)
Theorem C19_lexical_partial : forall tag name d s,
  datatype_of_name name = Some d -> tag <> TAG_16 -> kf d s = false ->
  (validate_value (plain tag name) s = Accept false <-> lex d s = true).
Proof. exact validate_lexical. Qed.
Print Assumptions C19_lexical_partial.

(* ... and fails on every member of a class: the classes are exact (acceptance = lexical space XOR class) *)
Theorem C19_deviation_exact : forall tag name d s,
  datatype_of_name name = Some d -> tag <> TAG_16 ->
  (validate_value (plain tag name) s = Accept false <-> xorb (lex d s) (kf d s) = true).
Proof. exact validate_exact. Qed.
Print Assumptions C19_deviation_exact.

Theorem C19_known_classes_deviate : forall tag name d s,
  datatype_of_name name = Some d -> tag <> TAG_16 -> kf d s = true ->
  (validate_value (plain tag name) s = Accept false <-> lex d s = false).
Proof.
  intros tag n d s Hd Ht Hk. rewrite (validate_exact tag n d s Hd Ht), Hk.
  destruct (lex d s); split; intro H; try reflexivity; discriminate.
Qed.
Print Assumptions C19_known_classes_deviate.

(* EndSeqNo (tag 16): the same, plus the value "0" *)
Theorem C19_endseqno : forall name d s,
  datatype_of_name name = Some d ->
  (validate_value (plain TAG_16 name) s = Accept false <-> xorb (lex d s) (kf d s) = true \/ s = [48]).
Proof. exact validate_endseqno. Qed.
Print Assumptions C19_endseqno.

(* the dispatch sends every dictionary name of a FIX datatype to that datatype's validator, never to the
   "unsupported datatype" warning *)
Theorem C19_dispatch : forall name d, datatype_of_name name = Some d -> classify (upper name) = kind_of d.
Proof. exact classify_ok. Qed.
Print Assumptions C19_dispatch.

Theorem C19_no_unsupported_warning : forall tag name d s,
  datatype_of_name name = Some d -> validate_value (plain tag name) s <> Accept true.
Proof.
  intros tag n d s Hd. rewrite (validate_plain tag n d s Hd).
  destruct (xorb (lex d s) (kf d s) || is_endseqno_zero tag s); discriminate.
Qed.
Print Assumptions C19_no_unsupported_warning.

(* ---------------------------------------------------------------- datatypes without any deviation: full strength *)

Theorem C19_boolean : forall tag s, tag <> TAG_16 ->
  (validate_value (plain tag n_BOOLEAN) s = Accept false <-> lex_boolean s = true).
Proof. intros tag s H. exact (validate_lexical tag n_BOOLEAN DBoolean s eq_refl H eq_refl). Qed.
Print Assumptions C19_boolean.

Theorem C19_country : forall tag s, tag <> TAG_16 ->
  (validate_value (plain tag n_COUNTRY) s = Accept false <-> lex_code 2 s = true).
Proof. intros tag s H. exact (validate_lexical tag n_COUNTRY DCountry s eq_refl H eq_refl). Qed.
Print Assumptions C19_country.

Theorem C19_currency : forall tag s, tag <> TAG_16 ->
  (validate_value (plain tag n_CURRENCY) s = Accept false <-> lex_code 3 s = true).
Proof. intros tag s H. exact (validate_lexical tag n_CURRENCY DCurrency s eq_refl H eq_refl). Qed.
Print Assumptions C19_currency.

Theorem C19_exchange : forall tag s, tag <> TAG_16 ->
  (validate_value (plain tag n_EXCHANGE) s = Accept false <-> lex_code 4 s = true).
Proof. intros tag s H. exact (validate_lexical tag n_EXCHANGE DExchange s eq_refl H eq_refl). Qed.
Print Assumptions C19_exchange.

Theorem C19_data : forall tag s, tag <> TAG_16 ->
  (validate_value (plain tag n_DATA) s = Accept false <-> s <> []).
Proof. intros tag s H. rewrite (validate_lexical tag n_DATA DData s eq_refl H eq_refl). apply nonempty_iff. Qed.
Print Assumptions C19_data.

(* ---------------------------------------------------------------- per family, with the class hypothesis spelled out *)

Theorem C19_int_partial : forall tag s, tag <> TAG_16 -> too_many_digits s = false ->
  (validate_value (plain tag n_INT) s = Accept false <-> lex_int s = true).
Proof. intros tag s H K. exact (lexical_outside tag n_INT DInt too_many_digits s eq_refl H eq_refl K). Qed.
Print Assumptions C19_int_partial.

Theorem C19_positive_partial : forall tag name s, In name [n_SEQNUM; n_NUMINGROUP] -> tag <> TAG_16 ->
  too_many_digits s = false ->
  (validate_value (plain tag name) s = Accept false <-> lex_positive s = true).
Proof. exact positive_partial. Qed.
Print Assumptions C19_positive_partial.

Theorem C19_dayofmonth_partial : forall tag s, tag <> TAG_16 -> too_many_digits s = false ->
  (validate_value (plain tag n_DAYOFMONTH) s = Accept false <-> lex_dayofmonth s = true).
Proof. intros tag s H K. exact (lexical_outside tag n_DAYOFMONTH DDayOfMonth too_many_digits s eq_refl H eq_refl K). Qed.
Print Assumptions C19_dayofmonth_partial.

Theorem C19_float_partial : forall tag name s,
  In name [n_FLOAT; n_QTY; n_PRICE; n_PRICEOFFSET; n_AMT; n_PERCENTAGE] -> tag <> TAG_16 ->
  float_overflows s = false ->
  (validate_value (plain tag name) s = Accept false <-> lex_float s = true).
Proof. exact float_partial. Qed.
Print Assumptions C19_float_partial.

Theorem C19_string_partial : forall tag s, tag <> TAG_16 -> has_equals s = false ->
  (validate_value (plain tag n_STRING) s = Accept false <-> lex_string s = true)
  /\ (validate_value (plain tag n_CHAR) s = Accept false <-> lex_char s = true)
  /\ (validate_value (plain tag n_MULTIPLEVALUESTRING) s = Accept false <-> lex_multi s = true)
  /\ (validate_value (plain tag n_MULTIPLESTRINGVALUE) s = Accept false <-> lex_multi s = true).
Proof. exact string_partial. Qed.
Print Assumptions C19_string_partial.

Theorem C19_date_partial : forall tag name s, In name [n_UTCDATEONLY; n_LOCALMKTDATE] -> tag <> TAG_16 ->
  year0 s = false ->
  (validate_value (plain tag name) s = Accept false <-> lex_date s = true).
Proof.
  intros tag name s [<- | [<- | []]] H K.
  - exact (lexical_outside tag n_UTCDATEONLY DUTCDateOnly year0 s eq_refl H eq_refl K).
  - exact (lexical_outside tag n_LOCALMKTDATE DLocalMktDate year0 s eq_refl H eq_refl K).
Qed.
Print Assumptions C19_date_partial.

Theorem C19_monthyear_partial : forall tag s, tag <> TAG_16 -> year0 s = false ->
  (validate_value (plain tag n_MONTHYEAR) s = Accept false <-> lex_monthyear s = true).
Proof. intros tag s H K. exact (lexical_outside tag n_MONTHYEAR DMonthYear year0 s eq_refl H eq_refl K). Qed.
Print Assumptions C19_monthyear_partial.

(* time and timestamp: outside year 0000, second 60 and a six-digit fraction *)
Theorem C19_timeonly_partial : forall tag s, tag <> TAG_16 -> kf DUTCTimeOnly s = false ->
  (validate_value (plain tag n_UTCTIMEONLY) s = Accept false <-> lex_time s = true).
Proof. intros tag s H K. exact (validate_lexical tag n_UTCTIMEONLY DUTCTimeOnly s eq_refl H K). Qed.
Print Assumptions C19_timeonly_partial.

Theorem C19_timestamp_partial : forall tag s, tag <> TAG_16 -> kf DUTCTimestamp s = false ->
  (validate_value (plain tag n_UTCTIMESTAMP) s = Accept false <-> lex_timestamp s = true).
Proof. intros tag s H K. exact (validate_lexical tag n_UTCTIMESTAMP DUTCTimestamp s eq_refl H K). Qed.
Print Assumptions C19_timestamp_partial.

(* LENGTH is not validated: every non-empty value is accepted (so the space is included, not matched) *)
Theorem C19_length_partial : forall tag s, tag <> TAG_16 ->
  (validate_value (plain tag n_LENGTH) s = Accept false <-> s <> []).
Proof.
  intros tag s H. rewrite (validate_exact tag n_LENGTH DLength s eq_refl H), <- nonempty_iff. cbn [lex kf].
  destruct s; [|destruct (lex_positive _)]; reflexivity.
Qed.
Print Assumptions C19_length_partial.

(* ---------------------------------------------------------------- refutations: one witness per known-finding class *)

Theorem C19_int_refuted : exists s, lex DInt s = true /\ validate_value (plain TAG_1 n_INT) s = Raise EFIXMessageError.
Proof.
  exists (repeat 49 (N.to_nat 4301)). destruct (ones_long 4301 eq_refl) as [L K]. split; [exact L|].
  apply (class_member_refused TAG_1 n_INT DInt _ eq_refl); [discriminate | exact L|]. cbn [kf lex]. rewrite L. exact K.
Qed.
Print Assumptions C19_int_refuted.

Theorem C19_float_refuted : exists s, lex DFloat s = true /\ validate_value (plain TAG_1 n_FLOAT) s = Raise EFIXMessageError.
Proof. exists (49 :: repeat 48 309). split; vm_compute; reflexivity. Qed.
Print Assumptions C19_float_refuted.

Theorem C19_float_threshold_exact :
  validate_value (plain TAG_1 n_FLOAT) (Sx.n_to_dec (FLOAT_INF - 1)) = Accept false
  /\ validate_value (plain TAG_1 n_FLOAT) (Sx.n_to_dec FLOAT_INF) = Raise EFIXMessageError.
Proof.
  rewrite !float_literal, N.leb_refl. split; [|reflexivity].
  assert (E : (FLOAT_INF <=? FLOAT_INF - 1) = false) by (vm_compute; reflexivity). rewrite E. reflexivity.
Qed.
Print Assumptions C19_float_threshold_exact.

Theorem C19_string_refuted : exists s, lex DString s = true /\ validate_value (plain TAG_1 n_STRING) s = Raise EFIXMessageError.
Proof. exists [97; 61; 98]. split; vm_compute; reflexivity. Qed.
Print Assumptions C19_string_refuted.

Theorem C19_length_refuted : exists s, lex DLength s = false /\ validate_value (plain TAG_1 n_LENGTH) s = Accept false.
Proof. exists [45; 53]. split; vm_compute; reflexivity. Qed.
Print Assumptions C19_length_refuted.

Theorem C19_date_refuted : exists s, lex DUTCDateOnly s = true /\ validate_value (plain TAG_1 n_UTCDATEONLY) s = Raise EFIXMessageError.
Proof. exists [48;48;48;48;48;49;48;49]. split; vm_compute; reflexivity. Qed.
Print Assumptions C19_date_refuted.

Theorem C19_monthyear_refuted : exists s, lex DMonthYear s = true /\ validate_value (plain TAG_1 n_MONTHYEAR) s = Raise EFIXMessageError.
Proof. exists [48;48;48;48;48;49]. split; vm_compute; reflexivity. Qed.
Print Assumptions C19_monthyear_refuted.

Theorem C19_timeonly_refuted :
  (exists s, lex DUTCTimeOnly s = true /\ validate_value (plain TAG_1 n_UTCTIMEONLY) s = Raise EFIXMessageError)
  /\ (exists s, lex DUTCTimeOnly s = false /\ validate_value (plain TAG_1 n_UTCTIMEONLY) s = Accept false).
Proof.
  split.
  - exists [50;51;58;53;57;58;54;48]. split; vm_compute; reflexivity.
  - exists [49;52;58;48;48;58;48;48;46;49;50;51;52;53;54]. split; vm_compute; reflexivity.
Qed.
Print Assumptions C19_timeonly_refuted.

Theorem C19_timestamp_refuted :
  (exists s, lex DUTCTimestamp s = true /\ validate_value (plain TAG_1 n_UTCTIMESTAMP) s = Raise EFIXMessageError)
  /\ (exists s, lex DUTCTimestamp s = false /\ validate_value (plain TAG_1 n_UTCTIMESTAMP) s = Accept false)
  /\ (exists s, lex DUTCTimestamp s = true /\ year0 s = true
                /\ validate_value (plain TAG_1 n_UTCTIMESTAMP) s = Raise EFIXMessageError).
Proof.
  split; [|split].
  - exists [50;48;49;54;49;50;51;49;45;50;51;58;53;57;58;54;48]. split; vm_compute; reflexivity.
  - exists [50;48;50;51;48;57;50;49;45;49;52;58;48;48;58;48;48;46;49;50;51;52;53;54]. split; vm_compute; reflexivity.
  - exists [48;48;48;48;48;49;48;49;45;48;48;58;48;48;58;48;48]. repeat split; vm_compute; reflexivity.
Qed.
Print Assumptions C19_timestamp_refuted.

(* ---------------------------------------------------------------- enumerated fields, error class *)

Theorem C19_enum : forall f s, f_values f <> [] ->
  (validate_value f s = Accept false <-> s <> [] /\ In s (f_values f)).
Proof. exact validate_enum. Qed.
Print Assumptions C19_enum.

(* every rejection, for every field (enumerated, plain, unsupported type) and every string incl. the empty one,
   is the library's message error *)
Theorem C19_error_class : forall f s e, validate_value f s = Raise e -> e = EFIXMessageError.
Proof.
  intros f s e. unfold validate_value.
  destruct (is_nil s); [intro H; injection H as H; congruence|].
  destruct (negb (is_nil (f_values f))).
  - destruct (mem_str s (f_values f)); intro H; [discriminate | injection H as H; congruence].
  - destruct (special_cases f s _); intro H; [injection H as H; congruence | discriminate].
Qed.
Print Assumptions C19_error_class.

(* ---------------------------------------------------------------- the two dictionaries, regenerated on every run *)

Theorem C19_dictionary_types_covered : forall n, In n all_types -> exists d, datatype_of_name n = Some d.
Proof.
  assert (H : forallb (fun n => match datatype_of_name n with Some _ => true | None => false end) all_types = true)
    by (vm_compute; reflexivity).
  intros n Hn. rewrite forallb_forall in H. specialize (H n Hn). destruct (datatype_of_name n) as [d|]; [eauto | discriminate].
Qed.
Print Assumptions C19_dictionary_types_covered.

Theorem C19_dictionary_field_types : forall x, In x all_fields -> In (snd (fst x)) all_types.
Proof.
  assert (H : forallb (fun x => mem_str (snd (fst x)) all_types) all_fields = true) by (vm_compute; reflexivity).
  intros x Hx. rewrite forallb_forall in H. apply mem_str_In. exact (H x Hx).
Qed.
Print Assumptions C19_dictionary_field_types.

Theorem C19_dictionary_enumerators_accepted : forall x v,
  In x all_fields -> In v (snd x) -> v <> [] /\ validate_value (mk x) v = Accept false.
Proof.
  assert (H : forallb (fun x => forallb (fun v => negb (is_nil v)) (snd x)) all_fields = true) by (vm_compute; reflexivity).
  intros x v Hx Hv. rewrite forallb_forall in H. specialize (H x Hx). rewrite forallb_forall in H. specialize (H v Hv).
  assert (N : v <> []) by (destruct v; [discriminate H | discriminate]).
  split; [exact N|]. apply validate_enum; [|split; [exact N | exact Hv]].
  intro E. change (snd x = []) in E. rewrite E in Hv. exact Hv.
Qed.
Print Assumptions C19_dictionary_enumerators_accepted.

Theorem C19_dictionary_tag16_is_seqnum : forall x,
  In x all_fields -> fst (fst x) = TAG_16 -> snd (fst x) = n_SEQNUM /\ snd x = [].
Proof.
  assert (H : forallb (fun x => implb (str_eqb (fst (fst x)) TAG_16) (str_eqb (snd (fst x)) n_SEQNUM && is_nil (snd x))) all_fields = true)
    by (vm_compute; reflexivity).
  intros [[t ty] vs] Hx Ht. rewrite forallb_forall in H. specialize (H _ Hx). cbn [fst snd] in *.
  subst t. rewrite StrB.str_eqb_refl in H. apply andb_prop in H as [H1 H2]. apply StrB.str_eqb_eq in H1.
  split; [exact H1 | destruct vs; [reflexivity | discriminate H2]].
Qed.
Print Assumptions C19_dictionary_tag16_is_seqnum.

Example C19_dictionary_nonempty : (length fields_fix44 >= 100)%nat /\ (length fields_tt >= 100)%nat.
Proof. split; apply Nat.leb_le; vm_compute; reflexivity. Qed.
Print Assumptions C19_dictionary_nonempty.

(* non-vacuity of the hypotheses of C19_lexical_partial and C19_endseqno *)
Example C19_nonvacuous :
  let s := [50;48;50;52;48;50;50;57;45;50;51;58;53;57;58;53;57;46;57;57;57] in    (* 20240229-23:59:59.999 *)
  datatype_of_name n_UTCTIMESTAMP = Some DUTCTimestamp /\ TAG_1 <> TAG_16 /\ kf DUTCTimestamp s = false
  /\ lex DUTCTimestamp s = true /\ validate_value (plain TAG_1 n_UTCTIMESTAMP) s = Accept false
  /\ validate_value (plain TAG_16 n_SEQNUM) [48] = Accept false
  /\ validate_value (plain TAG_16 n_SEQNUM) [55] = Accept false
  /\ validate_value (plain TAG_16 n_SEQNUM) [45; 49] = Raise EFIXMessageError
  /\ validate_value (plain TAG_1 n_SEQNUM) [48] = Raise EFIXMessageError.
Proof. cbv zeta. repeat split; try discriminate; vm_compute; reflexivity. Qed.
Print Assumptions C19_nonvacuous.
