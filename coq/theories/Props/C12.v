(* C12 - the heartbeat watchdog detects dead peers and spares live ones.
   The theorems (the lemmas they follow from are in AF.Lemmas.TimerL).  They are about the model Fix/Timer.v of
   heartbeat_timer_task / send_test_req / _process_testrequest / _process_heartbeat /
   _check_seqnum_gaps / _finalize_message / disconnect / the TESTREQUEST gate of send_msg, whose thresholds,
   sleep period and state numbers are the regenerated AFGen.GenTimer.  The model describes the library after the
   repairs R13a-R13d (TestRequest timeout needs 2 hb s without valid traffic; probing also while a resend is awaited;
   send_msg lets only the pending TestReqID through; the constructor refuses heartbeat_period < 1).

   Time is integer milliseconds, hb the heartbeat interval in seconds (an integer >= 1: smaller values are refused
   by the constructor).  `ticks p k` are k watchdog iterations one sleep period (1000 ms) apart starting at p: the
   phase p is arbitrary.  `trace s evs` is the run of a scenario (Tick | Recv t d m: valid message numbered
   next_num_in + d, d = 0 in sequence, d > 0 behind a gap | application send_test_req() | application
   send_msg(TestRequest)); `outs` its per-event outputs, `final` its last state.
   `up s`: connected and ACTIVE or RESENDREQ_AWAITING; `idle_up s hb t0`: up, no TestRequest outstanding, clock at
   t0 (time of the last finalized message); `idle_at`: the same with state ACTIVE; `live` / `awaiting`: connected and
   ACTIVE / RESENDREQ_AWAITING. *)
From Coq Require Import ZArith NArith List Bool Lia.
From AF Require Import Base.Sx Py.Str Fix.Timer Lemmas.TimerL.
From AFGen Require Import GenTimer.
Import ListNotations.
Open Scope Z_scope.

(* the constants the code has today (re-derived from /repo on every run) *)
Theorem C12_constants :
  (forall hb, thr thr_probe hb = (hb - 1) * 1000) /\ (forall hb, thr thr_dead hb = 2 * hb * 1000)
  /\ (forall hb, thr thr_treq hb = 2 * hb * 1000) /\ (forall hb, thr thr_treq_silence hb = 2 * hb * 1000)
  /\ tick_ms = 1000.
Proof. exact constants. Qed.
Print Assumptions C12_constants.

(* Silent since t0 (ACTIVE, or awaiting a resend): the k iterations up to t0 + hb - 1 s emit nothing; the first
   iteration after t0 + hb - 1 s (at tp) writes TestRequest(112 = int(tp)) and nothing else; tp is in
   (t0 + hb - 1 s, t0 + hb s] provided the watchdog ran at all by then (tp - 1 s <= t0 + hb - 1 s). *)
Theorem C12_probe : forall hb s t0 p (k : nat),
  1 <= hb -> idle_up s hb t0 ->
  let tp := p + Z.of_nat k * 1000 in
  tp - 1000 - t0 <= (hb - 1) * 1000 < tp - t0 ->
  outs s (ticks p (k + 1)) = repeat [] k ++ [[testreq_frame (tp / 1000)]]
  /\ final s (ticks p (k + 1)) = probing_of s tp
  /\ t0 + (hb - 1) * 1000 < tp <= t0 + hb * 1000.
Proof. exact probe_run. Qed.
Print Assumptions C12_probe.

(* Still silent: exactly 2 hb further iterations emit nothing (no second probe) and the next one, at
   td = tp + 2 hb + 1 s, disconnects:  t0 + 3 hb s < td <= t0 + 3 hb + 1 s. *)
Theorem C12_dead_peer : forall hb s t0 p (k m : nat),
  1 <= hb -> idle_up s hb t0 -> 1000 <= p ->
  let tp := p + Z.of_nat k * 1000 in
  let td := tp + (2 * hb + 1) * 1000 in
  tp - 1000 - t0 <= (hb - 1) * 1000 < tp - t0 ->
  Z.of_nat m = 2 * hb ->
  outs s (ticks p (k + 1 + (m + 1))) =
    repeat [] k ++ [[testreq_frame (tp / 1000)]] ++ repeat [] m ++ [[ODisconnect]]
  /\ final s (ticks p (k + 1 + (m + 1))) = dead_st hb
  /\ t0 + 3 * hb * 1000 < td <= t0 + (3 * hb + 1) * 1000.
Proof. exact dead_peer_run. Qed.
Print Assumptions C12_dead_peer.

(* A live peer is never dropped by the watchdog - full strength, both readings of the property.
   (A) "keeps sending valid traffic": the clock is restarted by every finalized (in-sequence) message and by every
   TestRequest the watchdog writes; if no iteration finds the clock more than 2 hb s old, no iteration disconnects -
   whether or not TestRequests are answered, for every scenario (any order of times, application probes included). *)
Theorem C12_live_peer_traffic : forall hb evs s t0,
  1 <= hb -> ok hb s -> s_id s <> Some 0 -> s_mlt s = t0 -> Forall (fun e => 1000 <= ev_time e) evs ->
  clock_ok hb t0 (trace s evs) ->
  Forall (fun r => ~ wd_disconnect r) (trace s evs).
Proof.
  intros hb evs s t0 Hhb Hok _ <- _. apply clock_no_wd; [lia | exact Hok | lia].
Qed.
Print Assumptions C12_live_peer_traffic.

(* (B) "answers each TestRequest": every TestRequest the watchdog writes at time t (id t/1000) is answered later in the
   time-ordered run by a Heartbeat echoing the id - numbered in sequence or behind a gap - that arrives no later
   than t + 2 hb s.  Out-of-sequence traffic and gap fills are allowed; no hypothesis about the gap being closed. *)
Theorem C12_live_peer_answers : forall hb evs s,
  1 <= hb -> ok hb s -> s_id s = None -> sorted evs -> Forall (fun e => 1000 <= ev_time e) evs ->
  Forall (fun e => is_app_probe e = false) evs -> Forall (fun e => s_mlt s <= ev_time e) evs ->
  answers hb (trace s evs) ->
  Forall (fun r => ~ wd_disconnect r) (trace s evs).
Proof.
  intros hb evs s Hhb Hok Hid So _ Hna Hml An. apply (answering_no_wd hb); auto; [lia|].
  intros _ n Hn. congruence.
Qed.
Print Assumptions C12_live_peer_answers.

(* whenever the watchdog does drop a logged-on session, a TestRequest is outstanding and the clock is more than
   2 hb s old: a peer is never dropped unprobed, nor sooner than 2 hb s after its last valid message *)
Theorem C12_drop_characterised : forall hb s t s' o,
  0 <= hb -> ok hb s -> s_id s <> Some 0 -> tick t s = (s', o) -> In ODisconnect o ->
  exists n, s_id s = Some n /\ 2 * hb * 1000 < t - s_mlt s.
Proof. intros hb s t s' o Hhb Hok _ E D. exact (proj2 (drop_reason hb s t s' o Hhb Hok E D)). Qed.
Print Assumptions C12_drop_characterised.

(* with traffic at most hb - 1 s apart the watchdog emits nothing at all, and nobody is disconnected *)
Theorem C12_quiet_traffic : forall hb G evs s t0,
  0 <= hb -> G <= (hb - 1) * 1000 -> idle_at s hb t0 -> fed G t0 evs ->
  Forall (fun r => is_tick (r_ev r) = true -> r_out r = []) (trace s evs)
  /\ Forall (fun r => ~ In ODisconnect (r_out r) /\ writes_testreq r = false) (trace s evs).
Proof.
  intros hb G evs s t0 Hhb HG I F. pose proof (fed_rows hb G evs s t0 Hhb HG I F) as R.
  split; (eapply Forall_impl; [|exact R]); intros r H; apply H.
Qed.
Print Assumptions C12_quiet_traffic.

(* At most one TestReqID outstanding, in every scenario (any state, any hb, times >= 1 s, application calls of
   send_test_req() and send_msg(TestRequest) included): of two TestRequest frames the later one repeats the id of the
   earlier one unless a Heartbeat (in sequence or behind a gap) echoing that id was received in between. *)
Theorem C12_single_outstanding : forall evs s i k ri rk fi fk,
  s_id s <> Some 0 -> Forall (fun e => 1000 <= ev_time e) evs ->
  (i < k)%nat ->
  nth_error (trace s evs) i = Some ri -> nth_error (trace s evs) k = Some rk ->
  In fi (r_out ri) -> is_testreq fi = true -> In fk (r_out rk) -> is_testreq fk = true ->
  exists n, fi = testreq_frame n /\
    (fk = fi \/
     exists j rj ta da v, (i < j < k)%nat /\ nth_error (trace s evs) j = Some rj
                          /\ r_ev rj = Recv ta da (MHeartbeat (Some v)) /\ parse_id v = n).
Proof. intros evs s i k ri rk fi fk _ _. apply single_outstanding. Qed.
Print Assumptions C12_single_outstanding.

(* every inbound TestRequest is answered by one Heartbeat carrying the same TestReqID, "0" when absent *)
Theorem C12_testreq_answered : forall now rid s, live s ->
  recv now 0 (MTestRequest rid) s =
  (set_mlt s now, [OWire KHeartbeat (Some (match rid with Some v => v | None => [48%N] end))]).
Proof. intros now rid s L. rewrite recv_live_eq by (assumption || reflexivity). reflexivity. Qed.
Print Assumptions C12_testreq_answered.

(* a Heartbeat whose TestReqID (int(), non-numeric read as 0) differs from the outstanding one: Logout + disconnect *)
Theorem C12_wrong_id_logout : forall now v s n, live s -> s_id s = Some n -> parse_id v <> n ->
  recv now 0 (MHeartbeat (Some v)) s =
  (set_mlt (dead_st (s_hb s)) now, [OWire KLogout None; ODisconnect]).
Proof.
  intros now v s n L Hi Hne.
  rewrite recv_live_eq, (dispatch_wrong v s n) by (assumption || reflexivity || apply live_up, L). reflexivity.
Qed.
Print Assumptions C12_wrong_id_logout.

Theorem C12_matching_id_clears : forall now v s, live s -> s_id s = Some (parse_id v) ->
  recv now 0 (MHeartbeat (Some v)) s = (set_mlt (set_id s None) now, []).
Proof. intros now v s L Hi. rewrite recv_live_eq, dispatch_answer by (assumption || reflexivity). reflexivity. Qed.
Print Assumptions C12_matching_id_clears.

Theorem C12_heartbeat_without_id_ignored : forall now s, live s ->
  recv now 0 (MHeartbeat None) s = (set_mlt s now, []).
Proof.
  intros now s L. rewrite recv_live_eq by (assumption || reflexivity). cbn [dispatch]. destruct (s_id s); reflexivity.
Qed.
Print Assumptions C12_heartbeat_without_id_ignored.

(* A Heartbeat echoing the outstanding TestReqID that arrives BEHIND A SEQUENCE GAP (numbered above the expected
   number) clears the outstanding probe: from ACTIVE it also sends the ResendRequest and enters RESENDREQ_AWAITING,
   while a resend is already awaited it does nothing else.  The clock is not restarted. *)
Theorem C12_answer_behind_gap_counts : forall now d v s, 0 < d -> s_id s = Some (parse_id v) ->
  (live s -> recv now d (MHeartbeat (Some v)) s
             = (set_id (set_state s ST_RESENDREQ_AWAITING d) None, [OWire KResendRequest None]))
  /\ (awaiting s -> recv now d (MHeartbeat (Some v)) s = (set_id s None, [])).
Proof.
  intros now d v s Hd Hi. split; intro L.
  - rewrite recv_behind_gap_active, dispatch_answer by (assumption || reflexivity). reflexivity.
  - rewrite recv_behind_gap_awaiting, dispatch_answer by (assumption || reflexivity). reflexivity.
Qed.
Print Assumptions C12_answer_behind_gap_counts.

(* an inbound TestRequest behind a gap is still answered with the same TestReqID *)
Theorem C12_testreq_behind_gap_answered : forall now d rid s, 0 < d ->
  let hbt := OWire KHeartbeat (Some (match rid with Some v => v | None => [48%N] end)) in
  (live s -> recv now d (MTestRequest rid) s
             = (set_state s ST_RESENDREQ_AWAITING d, [OWire KResendRequest None; hbt]))
  /\ (awaiting s -> recv now d (MTestRequest rid) s = (s, [hbt])).
Proof.
  intros now d rid s Hd hbt. split; intro L.
  - rewrite recv_behind_gap_active by (assumption || reflexivity). reflexivity.
  - rewrite recv_behind_gap_awaiting by (assumption || reflexivity). reflexivity.
Qed.
Print Assumptions C12_testreq_behind_gap_answered.

(* ... and a wrong TestReqID behind a gap still ends the session with a Logout *)
Theorem C12_wrong_id_behind_gap_logout : forall now d v s n, 0 < d -> s_id s = Some n -> parse_id v <> n ->
  (live s -> recv now d (MHeartbeat (Some v)) s
             = (dead_st (s_hb s), [OWire KResendRequest None; OWire KLogout None; ODisconnect]))
  /\ (awaiting s -> recv now d (MHeartbeat (Some v)) s = (dead_st (s_hb s), [OWire KLogout None; ODisconnect])).
Proof.
  intros now d v s n Hd Hi Hne. split; intro L.
  - rewrite recv_behind_gap_active, (dispatch_wrong v _ n) by (assumption || reflexivity || (split; [apply L | reflexivity])).
    reflexivity.
  - rewrite recv_behind_gap_awaiting, (dispatch_wrong v s n) by (assumption || reflexivity || apply awaiting_up, L).
    reflexivity.
Qed.
Print Assumptions C12_wrong_id_behind_gap_logout.

(* closing the gap: a SequenceReset in sequence whose NewSeqNo passes the number that opened the gap (nw - 1 >= gap)
   returns the session to ACTIVE and restarts the clock; a shorter one only shrinks the gap *)
Theorem C12_gap_fill_closes : forall now nw s, awaiting s -> 1 <= nw ->
  recv now 0 (MGapFill nw) s =
  ((if s_gap s <=? nw - 1 then set_mlt (set_state s ST_ACTIVE 0) now
    else set_mlt (set_state s ST_RESENDREQ_AWAITING (s_gap s - nw)) now), []).
Proof.
  intros now nw s A Hn. rewrite recv_gapfill_up by (apply awaiting_up, A || lia). unfold refresh.
  rewrite (proj2 (Z.leb_le 1 nw)), finalize_awaiting by (assumption || apply A). reflexivity.
Qed.
Print Assumptions C12_gap_fill_closes.

(* While a resend is awaited the watchdog probes exactly as in ACTIVE: traffic behind the gap leaves state and clock
   untouched, and once the clock is more than hb - 1 s old a TestRequest is written.  (With C12_probe, C12_dead_peer
   and C12_live_peer_answers, all stated for `up` / `ok`: a peer whose traffic is all behind an unfilled gap IS
   probed and, if it answers the probes, not dropped; if it does not, it is dropped 2 hb + 1 s after the probe.) *)
Theorem C12_awaiting_probed : forall now s hb t0,
  awaiting s -> s_hb s = hb -> s_id s = None -> s_mlt s = t0 -> 0 <= hb -> (hb - 1) * 1000 < now - t0 ->
  tick now s = (probing_of s now, [testreq_frame (now / 1000)]).
Proof.
  intros now s hb t0 A Hh Hi Hm. apply tick_probe. exact (conj (awaiting_up s A) (conj Hh (conj Hi Hm))).
Qed.
Print Assumptions C12_awaiting_probed.

Theorem C12_behind_gap_keeps_clock : forall now d m s, awaiting s -> 0 < d -> plain m = true -> s_id s = None ->
  fst (recv now d m s) = s.
Proof.
  intros now d m s A Hd Hp Hi. rewrite recv_behind_gap_awaiting by assumption.
  destruct m as [[v|] | r | |]; [| | | | discriminate Hp]; cbn [dispatch]; rewrite ?Hi; reflexivity.
Qed.
Print Assumptions C12_behind_gap_keeps_clock.

(* outside the logged-on states (handshake) only the last-message test applies; nothing received yet => never dropped *)
Theorem C12_handshake_silence : forall now s,
  s_conn s = true -> session_up s = false -> ST_DISCONNECTED_BROKEN_CONN < s_state s -> s_id s = None ->
  tick now s =
  if negb (s_mlt s =? 0) && (2 * s_hb s * 1000 <? now - s_mlt s)
  then (dead_st (s_hb s), [ODisconnect]) else (s, []).
Proof.
  intros now s Hc Hs Hb Hi. rewrite tick_eq, Hs by assumption. cbn [andb]. unfold watchdog, expired.
  rewrite Hi, (disconnect_above s false Hb), orb_false_r, andb_comm. reflexivity.
Qed.
Print Assumptions C12_handshake_silence.

(* the hypothesis `1000 <= time` above is needed: with int(time.time()) = 0 the timer loop spins *)
Theorem C12_epoch_spin : forall now s,
  up s -> s_id s = Some 0 -> (s_hb s - 1) * 1000 < now - s_mlt s -> tick now s = (s, [OSpin]).
Proof.
  intros now s [Hc Hs] Hi Hf. rewrite tick_eq, Hs, Hi, (proj2 (Z.ltb_lt _ _)) by assumption. reflexivity.
Qed.
Print Assumptions C12_epoch_spin.

(* ---- the former *_refuted witnesses, now positive: the same scenarios on the repaired model ---- *)

(* D19: hb = 30, application messages every 29.5 s, the TestRequest written at +29.25 s is never answered: not dropped *)
Example C12_unanswered_probe_spared :
  sorted d19_evs /\ only_app d19_evs = true /\ gap_le (30 * 1000) 1000000000 d19_evs = true
  /\ clock_ok 30 1000000000 (trace (active0 30 1000000000) d19_evs)
  /\ (length (filter writes_testreq (trace (active0 30 1000000000) d19_evs)) = 1)%nat
  /\ Forall (fun r => ~ wd_disconnect r) (trace (active0 30 1000000000) d19_evs).
Proof. exact unanswered_probe_spared. Qed.
Print Assumptions C12_unanswered_probe_spared.

Example C12_unanswered_probe_hb1_spared :
  sorted d19_hb1_evs /\ only_app d19_hb1_evs = true /\ gap_le 500 1000000000 d19_hb1_evs = true
  /\ (length (filter writes_testreq (trace (active0 1 1000000000) d19_hb1_evs)) = 1)%nat
  /\ Forall (fun r => ~ wd_disconnect r) (trace (active0 1 1000000000) d19_hb1_evs).
Proof. exact unanswered_probe_hb1_spared. Qed.
Print Assumptions C12_unanswered_probe_hb1_spared.

(* send_msg(TestRequest) while the watchdog's probe is outstanding: another id is refused, the pending id passes *)
Example C12_raw_testrequest_refused :
  map r_out (skipn 5 (trace (active0 5 1000000000) raw_evs)) =
  [[testreq_frame 1000005]; [ORaise]; [testreq_frame 1000005]].
Proof. exact raw_testrequest_refused. Qed.
Print Assumptions C12_raw_testrequest_refused.

(* all traffic behind an unfilled gap: probed three times while RESENDREQ_AWAITING, every probe answered behind the
   gap, never dropped *)
Example C12_unfilled_gap_probed_and_spared :
  sorted gap_all_evs /\ forallb behind_gapb gap_all_evs = true
  /\ answers 30 (trace (active0 30 1000000000) gap_all_evs)
  /\ (length (filter writes_testreq (trace (active0 30 1000000000) gap_all_evs)) = 3)%nat
  /\ s_state (final (active0 30 1000000000) gap_all_evs) = ST_RESENDREQ_AWAITING
  /\ Forall (fun r => ~ wd_disconnect r) (trace (active0 30 1000000000) gap_all_evs).
Proof. exact unfilled_gap_probed_and_spared. Qed.
Print Assumptions C12_unfilled_gap_probed_and_spared.

(* non-vacuity: concrete reachable runs meeting the hypotheses *)
Example C12_dead_peer_instance :
  outs (active0 30 1000000000) (ticks 1000000250 (29 + 1 + (60 + 1))) =
    repeat [] 29 ++ [[testreq_frame 1000029]] ++ repeat [] 60 ++ [[ODisconnect]]
  /\ final (active0 30 1000000000) (ticks 1000000250 (29 + 1 + (60 + 1))) = dead_st 30.
Proof. exact dead_peer_instance. Qed.
Print Assumptions C12_dead_peer_instance.

Example C12_live_peer_nonvacuous :
  sorted answering_evs /\ answers 30 (trace (active0 30 1000000000) answering_evs)
  /\ (length (filter writes_testreq (trace (active0 30 1000000000) answering_evs)) = 2)%nat
  /\ Forall (fun r => ~ wd_disconnect r) (trace (active0 30 1000000000) answering_evs).
Proof. exact live_peer_nonvacuous. Qed.
Print Assumptions C12_live_peer_nonvacuous.

Example C12_answer_behind_gap_instance :
  sorted gap_answer_evs
  /\ answers 30 (trace (active0 30 1000000000) gap_answer_evs)
  /\ (2 <= length (filter writes_testreq (trace (active0 30 1000000000) gap_answer_evs)))%nat
  /\ Forall (fun r => ~ wd_disconnect r) (trace (active0 30 1000000000) gap_answer_evs).
Proof. exact answer_behind_gap_instance. Qed.
Print Assumptions C12_answer_behind_gap_instance.

Example C12_traffic_instance :
  let evs := merge (ticks 1000000250 12) (app_msgs 1000004000 4000 3) in
  fed ((5 - 1) * 1000) 1000000000 evs
  /\ Forall (fun r => is_tick (r_ev r) = true -> r_out r = []) (trace (active0 5 1000000000) evs).
Proof. exact traffic_instance. Qed.
Print Assumptions C12_traffic_instance.
