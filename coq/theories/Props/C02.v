(* C02 - every frame put on the wire is a well-formed FIX frame.
   The theorems (the lemmas they follow from are in AF.Lemmas.FramingL, on AF.Lemmas.StrB).
   `well_framedb` / `well_framed` (Fix/Framing.v) is an independent length-prefixed reference
   grammar; `encode` is the validated model of Codec.encode (Fix/Codec.v); `wire` is what
   AsyncFIXConnection.send_msg hands to the transport: frame.encode("latin-1"), None = refused
   with UnicodeEncodeError before anything is written. *)
From Coq Require Import ZArith NArith List Bool.
From AF Require Import Base.Sx Py.Str Py.Utf8 Fix.Codec Fix.Framing Lemmas.StrA Lemmas.FramingL.
Import ListNotations.
Open Scope N_scope.

(* the boolean reference parser decides exactly the declarative grammar *)
Theorem C02_grammar_iff : forall s, well_framedb s = true <-> well_framed s.
Proof. exact well_framedb_iff. Qed.
Print Assumptions C02_grammar_iff.

(* Full strength, every message / session / time string / numbering mode / group nesting:
   single-byte inputs give a frame that is handed to the transport unchanged and that the
   reference parser accepts.  Forced hypotheses: BeginString is a proper field value, MsgType
   does not start with SOH and is not empty. *)
Theorem C02_encode_well_framed : forall bs m sess t raw frame sess',
  encode bs m sess t raw = Ok (frame, sess') ->
  nonempty bs = true -> soh_free bs = true -> starts_printable (msg_type m) = true ->
  inputs_bytes bs m sess t = true ->
  exists w, wire frame = Some w /\ well_framedb w = true.
Proof. exact encode_well_framed. Qed.
Print Assumptions C02_encode_well_framed.

(* Observed at the transport, no hypothesis on the text at all: whatever send_msg writes is
   well formed ... *)
Theorem C02_wire_well_framed : forall bs m sess t raw frame sess' w,
  encode bs m sess t raw = Ok (frame, sess') ->
  nonempty bs = true -> soh_free bs = true -> starts_printable (msg_type m) = true ->
  wire frame = Some w -> well_framedb w = true.
Proof.
  intros bs m sess t raw frame sess' w He Hbs Hsoh Hmt Hw. apply wire_some in Hw. destruct Hw as [-> Hb].
  now apply (encode_well_framed_bytes bs m sess t raw frame sess').
Qed.
Print Assumptions C02_wire_well_framed.

(* ... and text that cannot be represented (a code point above 255) is refused, not transmitted *)
Theorem C02_refused_when_unrepresentable : forall frame,
  forallb is_byte frame = false -> wire frame = None.
Proof. unfold wire, latin1, is_byte. intros frame ->. reflexivity. Qed.
Print Assumptions C02_refused_when_unrepresentable.

Theorem C02_refusal_reachable : exists frame sess',
  encode FIX44 ex_wide ex_sess ex_time false = Ok (frame, sess') /\ wire frame = None.
Proof.
  set (r := encode _ _ _ _ _). vm_compute in r. subst r.
  eexists _, _. split; [reflexivity|]. vm_compute. reflexivity.
Qed.
Print Assumptions C02_refusal_reachable.

(* what the encoder computes (its BodyLength / CheckSum arithmetic read on code points as bytes) *)
Theorem C02_latin1_consistent : forall bs m sess t raw frame sess',
  encode bs m sess t raw = Ok (frame, sess') ->
  nonempty bs = true -> soh_free bs = true -> starts_printable (msg_type m) = true ->
  forallb is_byte frame = true ->
  well_framedb frame = true.
Proof. exact encode_well_framed_bytes. Qed.
Print Assumptions C02_latin1_consistent.

Theorem C02_inputs_bytes_frame_bytes : forall bs m sess t raw frame sess',
  encode bs m sess t raw = Ok (frame, sess') ->
  inputs_bytes bs m sess t = true -> forallb is_byte frame = true.
Proof. exact encode_bytes. Qed.
Print Assumptions C02_inputs_bytes_frame_bytes.

(* Domain condition, not a finding: the empty string is not a message type.  The hypothesis on
   MsgType cannot be dropped: an empty MsgType is encoded and written as "35=<SOH>". *)
Theorem C02_msgtype_hypothesis_necessary : exists m frame sess' w,
  inputs_bytes FIX44 m ex_sess ex_time = true
  /\ encode FIX44 m ex_sess ex_time false = Ok (frame, sess')
  /\ wire frame = Some w /\ well_framedb w = false.
Proof.
  exists ex_empty_type. set (r := encode _ _ _ _ _). vm_compute in r. subst r.
  eexists _, _, _. split; [vm_compute; reflexivity|]. split; [reflexivity|].
  split; vm_compute; reflexivity.
Qed.
Print Assumptions C02_msgtype_hypothesis_necessary.

(* With field structure (what a SOH-splitting FIX parser needs; the harness oracle
   codec_common.well_framed is the Python twin of well_framed_fieldsb): on the domain of C01/C02 -
   tags non-empty, SOH-free, not starting with "="; values, CompIDs, time, MsgType SOH-free -
   every piece of the frame is tag=value with a non-empty tag as well. *)
Theorem C02_encode_well_framed_fields : forall bs m sess t raw frame sess',
  encode bs m sess t raw = Ok (frame, sess') ->
  nonempty bs = true -> nonempty (msg_type m) = true ->
  inputs_bytes bs m sess t = true -> inputs_fields_ok bs m sess t = true ->
  exists w, wire frame = Some w /\ well_framed_fieldsb w = true.
Proof. exact encode_well_framed_fields. Qed.
Print Assumptions C02_encode_well_framed_fields.

(* outside that domain (SOH inside a value) the frame-level grammar still holds, the field
   structure does not *)
Theorem C02_soh_in_value_breaks_fields : exists frame sess',
  encode FIX44 ex_soh_value ex_sess ex_time false = Ok (frame, sess')
  /\ inputs_bytes FIX44 ex_soh_value ex_sess ex_time = true
  /\ inputs_fields_ok FIX44 ex_soh_value ex_sess ex_time = false
  /\ well_framedb frame = true /\ well_framed_fieldsb frame = false.
Proof.
  set (r := encode _ _ _ _ _). vm_compute in r. subst r.
  eexists _, _. split; [reflexivity|]. repeat split; vm_compute; reflexivity.
Qed.
Print Assumptions C02_soh_in_value_breaks_fields.

Theorem C02_fields_nonvacuous :
  inputs_fields_ok FIX44 ex_nested ex_sess ex_time = true
  /\ exists frame sess', encode FIX44 ex_nested ex_sess ex_time false = Ok (frame, sess')
       /\ well_framed_fieldsb frame = true.
Proof.
  split; [vm_compute; reflexivity|].
  set (r := encode _ _ _ _ _). vm_compute in r. subst r.
  eexists _, _. split; [reflexivity|]. vm_compute. reflexivity.
Qed.
Print Assumptions C02_fields_nonvacuous.

(* non-vacuity: a three-level nested group message with a latin-1 value meets every hypothesis *)
Theorem C02_nonvacuous :
  nonempty FIX44 = true /\ soh_free FIX44 = true /\ starts_printable (msg_type ex_nested) = true
  /\ inputs_bytes FIX44 ex_nested ex_sess ex_time = true
  /\ exists frame sess', encode FIX44 ex_nested ex_sess ex_time false = Ok (frame, sess')
       /\ (length frame = 130)%nat /\ wire frame = Some frame /\ well_framedb frame = true.
Proof.
  repeat (split; [vm_compute; reflexivity|]).
  set (r := encode _ _ _ _ _). vm_compute in r. subst r.
  eexists _, _. split; [reflexivity|]. repeat split; vm_compute; reflexivity.
Qed.
Print Assumptions C02_nonvacuous.

(* SOH inside a value does not disturb the length-delimited grammar *)
Theorem C02_soh_in_value_framed : exists frame sess',
  encode FIX44 ex_soh_value ex_sess ex_time false = Ok (frame, sess') /\ well_framedb frame = true.
Proof.
  set (r := encode _ _ _ _ _). vm_compute in r. subst r.
  eexists _, _. split; [reflexivity|]. vm_compute. reflexivity.
Qed.
Print Assumptions C02_soh_in_value_framed.

(* the repaired defect D9, kept as a remark: the same text transmitted as UTF-8 (send_msg before
   the repair) is not a well-formed frame as soon as one code point is >= 128 *)
Theorem C02_utf8_would_break : exists frame sess' w,
  encode FIX44 ex_latin ex_sess ex_time false = Ok (frame, sess')
  /\ wire frame = Some frame /\ well_framedb frame = true
  /\ utf8 frame = Some w /\ well_framedb w = false.
Proof.
  set (r := encode _ _ _ _ _). vm_compute in r. subst r.
  eexists _, _, _. split; [reflexivity|]. repeat split; vm_compute; reflexivity.
Qed.
Print Assumptions C02_utf8_would_break.
