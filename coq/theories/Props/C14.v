(* C14 - concurrent senders never corrupt the outbound sequence.
   The theorems (the lemmas they follow from are in AF.Lemmas.SchedL / SchedGapL); the model is AF.Fix.Sched: asyncio's scheduling rule
   (run-to-next-suspension, one task at a time) over the suspension points of asyncfix/connection.py
   (writer.drain() at the end of send_msg; the awaited hooks on_state_change / should_replay / on_message /
   on_logon).  A schedule is ANY list of task indices (`run_sched c sched` resumes them in that
   order; choosing a finished or non-existent task is a no-op), so every statement below is over all
   interleavings, every number of tasks, every message list, unbounded schedule length - and, since the
   conclusion is stated for the configuration after ANY schedule, it holds after every prefix, not only
   when the tasks have finished.

   The model describes the code after the repairs D12 / R3c / R5 / R6 (ResendRequest service) and R8a
   (send_msg journals BEFORE it writes to the transport: allocation + journal + write is one stretch
   without an await) and R8c (outbound gate in LOGON_INITIAL_RECV).  With R8a NO clause needs an
   assumption on the order in which drain waiters are woken: the stored-counter clause, which needed
   FIFO wake-up before (former C14_lifo_counter_refuted), is now an invariant of every schedule
   (C14_lifo_counter_example shows the former witness).  The theorems cover the whole domain of the
   property; no known-finding class is left for C14.  `new` below = the new messages on the wire
   (not PossDupFlag=Y, not SequenceReset), `retx_ok` = a legitimate retransmission frame. *)
From Coq Require Import ZArith List Bool.
From AF Require Import Fix.Sched Lemmas.SchedL Lemmas.SchedGapL.
Import ListNotations.
Open Scope Z_scope.

(* Application tasks only.  w0: any world with an empty observed wire, journal rows keyed by their own
   number below next_num_out and stored counter = next_num_out - 1 (init_ok); any connection state / role.
   mss: the messages of each task, all of them new (not SequenceReset, not PossDupFlag=Y). *)
Theorem C14_senders_safe : forall (w0 : world) (mss : list (list msg)) (sched : list nat),
  init_ok w0 -> Forall (fun ms => forallb is_new ms = true) mss ->
  let c := run_sched (mkC w0 (map sender_task mss)) sched in
  let w := c_w c in
  let new := newf (wire_of w) in
  (* wire order = number order, consecutive from the first free number: strictly increasing, distinct *)
  map f_seq new = zseq (nout w0) (length new)
  /\ nout w = nout w0 + Z.of_nat (length new)
  (* anything else on the wire is a retransmission under its own number: the PossDup copy of a journaled
     message, or a gap fill b -> n with b < n <= next_num_out *)
  /\ Forall (fun g => is_newf g = true \/ retx_ok (rows w) (nout w) g) (wire_of w)
  (* no DuplicateSeqNoError, neither returned to a caller nor swallowed *)
  /\ no_dup_error (c_ts c)
  (* every new frame on the wire IS journaled under its number (already while its sender is in drain) *)
  /\ (forall f, In f new -> row_at (f_seq f) (rows w) = Some f)
  (* no other row appears, older rows are untouched *)
  /\ (forall k f, nout w0 <= k -> row_at k (rows w) = Some f -> In f new /\ f_seq f = k)
  /\ (forall k, k < nout w0 -> row_at k (rows w) = row_at k (rows w0))
  (* stored counter = highest number sent = next_num_out - 1: at every point of every schedule *)
  /\ sout w = nout w - 1.
Proof. intros w0 mss sched Hw Hm. exact (safe_tasks_safe w0 _ sched Hw (senders_fresh _ Hm)). Qed.
Print Assumptions C14_senders_safe.

(* Same with the reader task suspended anywhere inside the acceptor's Logon handling
   (_state_set(LOGON_INITIAL_RECV) hook ; role ; Logon reply with its drain ; _state_set(ACTIVE) hook ;
   on_logon hook) and the heartbeat task's probe running concurrently. *)
Theorem C14_logon_window : forall (w0 : world) (mss : list (list msg)) (sched : list nat),
  init_ok w0 -> Forall (fun ms => forallb is_new ms = true) mss ->
  safe_outcome w0 (run_sched (mkC w0 (reader_logon :: heartbeat_task :: map sender_task mss)) sched).
Proof. intros w0 mss sched Hw Hm. apply window_safe; auto. repeat split; reflexivity. Qed.
Print Assumptions C14_logon_window.

(* The reader's other sending handlers: Heartbeat reply to a TestRequest, ResendRequest on a gap
   (+ _state_set(RESENDREQ_AWAITING) hook), on_message hook. *)
Theorem C14_reader_replies_safe : forall (w0 : world) (r : task) (mss : list (list msg)) (sched : list nat),
  init_ok w0 -> In r [reader_testreq; reader_gap; reader_app] ->
  Forall (fun ms => forallb is_new ms = true) mss ->
  safe_outcome w0 (run_sched (mkC w0 (r :: heartbeat_task :: map sender_task mss)) sched).
Proof.
  intros w0 r mss sched Hw Hr Hm. apply window_safe; auto.
  simpl in Hr. destruct Hr as [<-|[<-|[<-|[]]]]; repeat split; reflexivity.
Qed.
Print Assumptions C14_reader_replies_safe.

(* The reader task servicing ANY ResendRequest (any BeginSeqNo, EndSeqNo, any should_replay answers, any
   journal content) while the heartbeat probe and any number of application tasks send: sends that start
   or are in progress inside the service window get fresh consecutive numbers, every PossDup frame is the
   copy of the journaled message of that number, nothing is journaled twice, the counter is right. *)
Theorem C14_resend_window : forall (w0 : world) (b e : Z) (d : list Z) (mss : list (list msg)) (sched : list nat),
  init_ok w0 -> Forall (fun ms => forallb is_new ms = true) mss ->
  safe_outcome w0 (run_sched (mkC w0 (reader_resend b e d :: heartbeat_task :: map sender_task mss)) sched).
Proof. intros w0 b e d mss sched Hw Hm. apply window_safe; auto. repeat split; reflexivity. Qed.
Print Assumptions C14_resend_window.

(* The general form: ANY set of tasks whose code is any mix of send_msg of new messages,
   send_test_req, _state_set hooks, plain hooks, role assignments and ResendRequest services (IResend,
   which unfolds into should_replay hooks, PossDup replays and gap fills; IFinally, the state-restoring
   finally clause around it, including its hook on the exception path).  safe_outcome is the
   eight-clause conjunction above. *)
Theorem C14_safe_tasks : forall (w0 : world) (ts : list task) (sched : list nat),
  init_ok w0 -> Forall fresh_task ts ->
  safe_outcome w0 (run_sched (mkC w0 ts) sched).
Proof. exact safe_tasks_safe. Qed.
Print Assumptions C14_safe_tasks.

(* Non-vacuity: state ACTIVE, two tasks x two messages, a FIFO schedule: 1..4 go out interleaved,
   all journaled, stored counter 4. *)
Example C14_nonvacuous :
  init_ok active0 /\ fifo_sched ex_cfg ex_sched = true /\ all_done (run_sched ex_cfg ex_sched) = true
  /\ map f_seq (wire_of (c_w (run_sched ex_cfg ex_sched))) = [1; 2; 3; 4]
  /\ map f_id (wire_of (c_w (run_sched ex_cfg ex_sched))) = [1; 3; 2; 4]
  /\ sout (c_w (run_sched ex_cfg ex_sched)) = 4
  /\ map fst (rows (c_w (run_sched ex_cfg ex_sched))) = [1; 2; 3; 4].
Proof. split; [apply init_okb_ok; reflexivity|]. vm_compute. repeat split; reflexivity. Qed.
Print Assumptions C14_nonvacuous.

(* The three schedules that broke the property before the repair of D12, as examples of C14_resend_window
   (pre-history: three application messages 1,2,3; reader servicing ResendRequest(1,0); one application
   task sending id 9).  Schedule [R;R;S;R;S;R;R;R;R;R;R]: the send starts right after the replay began
   and gets number 4; 1,2,3 are retransmitted; rows 1..4, counters 4 / 5, state ACTIVE again. *)
Example C14_resend_window_example :
  let c := run_sched rw_cfg rw_sched in
  init_ok (c_w rw_cfg) /\ fifo_sched rw_cfg rw_sched = true /\ valid_sched rw_cfg rw_sched = true /\ all_done c = true
  /\ wire_view (c_w c) = [(4, false, 9); (1, true, 1); (2, true, 2); (3, true, 3)]
  /\ map fst (rows (c_w c)) = [1; 2; 3; 4] /\ sout (c_w c) = 4 /\ nout (c_w c) = 5 /\ st (c_w c) = S_ACTIVE.
Proof. cbv zeta. split; [apply init_okb_ok; reflexivity|]. vm_compute. repeat split; reflexivity. Qed.
Print Assumptions C14_resend_window_example.

(* [R;R;R;R; S;S; R;R;R;R;R]: the send starts after message 1 was replayed; the caller gets no error. *)
Example C14_resend_window_caller_example :
  let c := run_sched rw_cfg rw_sched2 in
  fifo_sched rw_cfg rw_sched2 = true /\ valid_sched rw_cfg rw_sched2 = true /\ all_done c = true
  /\ wire_view (c_w c) = [(1, true, 1); (4, false, 9); (2, true, 2); (3, true, 3)]
  /\ (exists t, nth_error (c_ts c) 1 = Some t /\ t_out t = [OOk])
  /\ map fst (rows (c_w c)) = [1; 2; 3; 4] /\ sout (c_w c) = 4 /\ nout (c_w c) = 5.
Proof. vm_compute. repeat split; try reflexivity. eexists. split; reflexivity. Qed.
Print Assumptions C14_resend_window_caller_example.

(* The heartbeat probe already suspended in drain (number 3, not journaled yet) when ResendRequest(1,0)
   arrives: 1,2 retransmitted, tail gap fill 3 -> 4, the probe is journaled under 3, no error. *)
Example C14_heartbeat_inflight_example :
  let c := run_sched hb_cfg hb_sched in
  fifo_sched hb_cfg hb_sched = true /\ valid_sched hb_cfg hb_sched = true /\ all_done c = true
  /\ map (fun f => (f_seq f, f_ty f, f_pd f)) (wire_of (c_w c))
     = [(3, T_TESTREQ, false); (1, 68, true); (2, 68, true); (3, T_SEQRESET, false)]
  /\ map t_out (c_ts c) = [[OOk; OOk; OOk]; [OOk]] /\ map t_exc (c_ts c) = [None; None]
  /\ map fst (rows (c_w c)) = [1; 2; 3] /\ sout (c_w c) = 3 /\ nout (c_w c) = 4 /\ st (c_w c) = S_ACTIVE.
Proof. vm_compute. repeat split; reflexivity. Qed.
Print Assumptions C14_heartbeat_inflight_example.

(* A request that cannot be served (BeginSeqNo 7 with 2 messages sent): AssertionError swallowed by the reader
   after the finally clause around _process_resend restored state ACTIVE (its on_state_change hook is one more
   suspension point, schedule [R;R;S;R;S]); the concurrent send gets number 3. *)
Example C14_resend_unservable_example :
  let c := run_sched un_cfg un_sched in
  fifo_sched un_cfg un_sched = true /\ valid_sched un_cfg un_sched = true /\ all_done c = true
  /\ map t_exc (c_ts c) = [Some EAssert; None] /\ wire_view (c_w c) = [(3, false, 9)]
  /\ st (c_w c) = S_ACTIVE /\ sout (c_w c) = 3 /\ nout (c_w c) = 4.
Proof. vm_compute. repeat split; reflexivity. Qed.
Print Assumptions C14_resend_unservable_example.

(* The former witness of "the counter clause needs FIFO wake-up": two senders, LIFO wake-up [0;1;1;0].
   With the journal write before the transport write the stored counter is 2 = highest number sent. *)
Example C14_lifo_counter_example :
  let c := run_sched lifo_cfg lifo_sched in
  fifo_sched lifo_cfg lifo_sched = false /\ valid_sched lifo_cfg lifo_sched = true /\ all_done c = true
  /\ map f_seq (wire_of (c_w c)) = [1; 2] /\ map fst (rows (c_w c)) = [1; 2] /\ sout (c_w c) = 2 /\ nout (c_w c) = 3.
Proof. vm_compute. repeat split; reflexivity. Qed.
Print Assumptions C14_lifo_counter_example.

(* The reply to a ResendRequest is fixed when the request arrives (resend_code reads the journal and next_num_out once):
   every SequenceReset-GapFill it contains has NewSeqNo <= that counter - for any BeginSeqNo / EndSeqNo / should_replay
   answers / journal.  Together with C14_senders_safe (whatever other tasks send while the reader is suspended in
   should_replay or drain is numbered FROM that counter on) no gap fill can tell the peer to skip a message that was sent
   while the request was being serviced.  (Moving the counter snapshot behind the replay loop - seeded changes C06-a /
   C07-a - makes the tail gap fill cover such a message: the peer loses it for good.) *)
Theorem C14_gapfill_stops_at_arrival_counter : forall (b e : Z) (d : list Z) (w : world),
  ent_ok w -> Forall (gf_le (nout w)) (resend_code b e d w).
Proof. exact resend_gapfill_bound. Qed.
Print Assumptions C14_gapfill_stops_at_arrival_counter.

(* journal 1, 2 (application), 3 (Heartbeat); ResendRequest(1, 0) serviced while another task sends: its message gets
   number 4 in the middle of the reply, the tail gap fill is 3 -> 4, message 4 is not skipped *)
Example C14_gapfill_window_example :
  let c := run_sched gp_cfg gp_sched in
  init_ok (c_w gp_cfg) /\ fifo_sched gp_cfg gp_sched = true /\ valid_sched gp_cfg gp_sched = true /\ all_done c = true
  /\ map (fun f => (f_seq f, f_ty f, f_pd f, f_id f, f_gf f)) (wire_of (c_w c))
     = [(1, 68, true, 1, false); (4, 68, false, 9, false); (2, 68, true, 2, false); (3, T_SEQRESET, false, 4, true)]
  /\ nout (c_w c) = 5 /\ map fst (rows (c_w c)) = [1; 2; 3; 4]
  /\ Forall (gf_le (nout (c_w gp_cfg))) (resend_code 1 0 [] (c_w gp_cfg)).
Proof.
  cbv zeta. pose proof (init_okb_ok (c_w gp_cfg) eq_refl) as Hi.
  pose proof (C14_gapfill_stops_at_arrival_counter 1 0 [] (c_w gp_cfg) (proj1 (proj2 Hi))) as Hb.
  split; [exact Hi|]. vm_compute. repeat split; try reflexivity. exact Hb.
Qed.
Print Assumptions C14_gapfill_window_example.
