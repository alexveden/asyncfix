(* C09 - restarting an endpoint is transparent to the session.
   The theorems (the lemmas they follow from are in AF.Lemmas.RestartL), about the counter-ledger model Fix/Restart.v:
     world  = live next_num_in / next_num_out, connection state class, the journal of the session (stored counters, inbound keys,
              outbound rows; committed / current tables) given as the replay of the logged SQL statements, the frames written;
     run w h             the world after the operations h (connect, inbound frame, send_msg, disconnect, graceful restart);
     restart w           a NEW connection object over the committed journal of w (Journaler.create_or_load);
     crash_at k w        the same after a process death right after the k-th effect (transport write / drain / SQL statement /
                         commit) of the current incarnation: uncommitted statements are lost;
     Stored_eq w         stored inbound + 1 = next_num_in and stored outbound + 1 = next_num_out;
     Inv w               Stored_eq, journal clean (committed = current), every journaled number below its live counter, counters
                         positive, RESENDREQ_AWAITING only with a positive watermark;
     class_free h        no operation of h is in a known-finding class:
        KF_D11  inbound SequenceReset that is finalized and whose NewSeqNo is not its own MsgSeqNum + 1,
        KF_D20  application-sent SequenceReset without GapFillFlag and without PossDupFlag (journaled under its own number).
   The model describes the code WITH the repair of D12 (fixes/D12-resend-keeps-journal.patch): servicing a ResendRequest
   writes neither journal nor counters, PossDup copies and gap fills are not journaled; the former class KF_D12 is gone
   (C09_resend_keeps_journal); and WITH the round-3 repairs: an in-sequence peer Logout is counted and journaled (former
   class D22: C09_peer_logout_counted, C09_accepted_counted), a ResendRequest that cannot be served does not leave the
   state in RESENDREQ_HANDLING; and WITH the round-8 repairs: send_msg journals before it writes to the transport (former
   class D14: C09_no_number_reuse holds for every crash point of a send), non-Logon traffic during the Logon exchange drops
   the connection / is refused. *)
From Coq Require Import ZArith List Bool.
From AF Require Import Fix.Restart Lemmas.RestartL.
Import ListNotations.
Open Scope Z_scope.

(* at every quiescent point of every history that avoids the known classes (any number of graceful restarts inside),
   the stored counters are the live counters - 1 *)
Theorem C09_stored_eq_partial : forall r h1 h2,
  class_free (h1 ++ h2) = true -> Stored_eq (run (fresh r) h1).
Proof.
  intros r h1 h2 H. unfold class_free in H. rewrite forallb_app in H. apply andb_prop in H.
  apply Inv_stored_eq, invariant_partial, H.
Qed.
Print Assumptions C09_stored_eq_partial.

(* ... and the whole ledger invariant holds *)
Theorem C09_ledger_invariant_partial : forall r h, class_free h = true -> Inv (run (fresh r) h).
Proof. exact invariant_partial. Qed.
Print Assumptions C09_ledger_invariant_partial.

(* one operation outside the classes preserves the invariant from ANY world that satisfies it *)
Theorem C09_step_preserves : forall w o, Inv w -> KF_D11 o = false -> KF_D20 o = false ->
  Inv (run_op w o) /\ (o <> ORestart -> Step w (run_op w o)).
Proof. exact op_step. Qed.
Print Assumptions C09_step_preserves.

(* D11: a gap fill spanning several numbers leaves the stored inbound counter at the frame's own number; the restarted
   endpoint expects 3 where the old object expected 6, and asks the peer to resend although nothing was lost *)
Theorem C09_gapfill_lag_refuted :
  exists r h o, class_free h = true /\ KF_D11 o = true /\
    let w := run (fresh r) (h ++ [o]) in
    ~ Stored_eq w /\ nin w = 6 /\ sin (jt w) = 2 /\ nin (restart w) = 3
    /\ has_resend (writes (log (run (restart w) (logon_ops r 6)))) = true.
Proof.
  exists Acceptor, acc_logon, (OIn (mkF TSeqReset 2 false 6 1)). split; [reflexivity|]. split; [reflexivity|].
  intros w.
  assert (E : nin w = 6 /\ sin (jt w) = 2 /\ nin (restart w) = 3
              /\ has_resend (writes (log (run (restart w) (logon_ops Acceptor 6)))) = true)
    by (vm_compute; repeat split; reflexivity).
  split; [|exact E]. destruct E as (E1 & E2 & _). intros [H _]. rewrite E1, E2 in H. discriminate.
Qed.
Print Assumptions C09_gapfill_lag_refuted.

(* former D12: servicing a ResendRequest - whatever its range, whatever the journal holds, from ANY world, whether it
   completes or raises - executes no SQL statement, leaves the journal and both live counters as they were, and puts
   nothing original on the wire *)
Theorem C09_resend_keeps_journal : forall f w r w', process_resend f w = (r, w') ->
  db w' = db w /\ nin w' = nin w /\ nout w' = nout w
  /\ exists l, log w' = log w ++ l /\ nstmts l = O /\ (forall g, In g (writes l) -> original g = false).
Proof.
  intros f w r w' H. pose proof (Quiet_process_resend f w r w' I H) as Q.
  split; [apply Quiet_db; exact Q|]. split; [apply Q|]. split; apply Q.
Qed.
Print Assumptions C09_resend_keeps_journal.

(* the former D12 witness: a second ResendRequest over an already replayed range is answered like the first, the journal
   keeps the three original rows, next_num_out stays 4 *)
Example C09_resend_twice :
  class_free h_resend2 = true /\
  let w := run (fresh Acceptor) h_resend2 in
  Stored_eq w /\ nout w = 4 /\ sout (jt w) = 3 /\ nin w = 4 /\ st w = Active
  /\ rout (jt w) = [logon_frame 1; app_frame 2 1; app_frame 3 2]
  /\ skipn 3 (writes (log w)) = [mkF TApp 3 true 2 0; mkF TApp 2 true 1 0; mkF TApp 3 true 2 0].
Proof. vm_compute. repeat split; reflexivity. Qed.
Print Assumptions C09_resend_twice.

(* D20: an application-sent SequenceReset without GapFillFlag is journaled under its own number without consuming it *)
Theorem C09_app_seqreset_refuted :
  exists r h o, class_free h = true /\ KF_D20 o = true /\
    let w := run (fresh r) (h ++ [o]) in
    ~ Stored_eq w /\ nout w = 2 /\ sout (jt w) = 2 /\ nout (restart w) = 3.
Proof.
  exists Acceptor, acc_logon, (OSend (mkF TSeqReset 2 false 5 0)). split; [reflexivity|]. split; [reflexivity|].
  intros w.
  assert (E : nout w = 2 /\ sout (jt w) = 2 /\ nout (restart w) = 3) by (vm_compute; repeat split; reflexivity).
  split; [|exact E]. destruct E as (E1 & E2 & _). intros [_ H]. rewrite E1, E2 in H. discriminate.
Qed.
Print Assumptions C09_app_seqreset_refuted.

(* a world rebuilt by create_or_load from the journal of a quiescent world has the same live counters ... *)
Theorem C09_restart_counters : forall w, clean w -> Stored_eq w ->
  nin (restart w) = nin w /\ nout (restart w) = nout w.
Proof. intros w Hc [Hi Ho]. unfold restart. cbn [boot nin nout]. rewrite Hc. split; assumption. Qed.
Print Assumptions C09_restart_counters.

(* ... and after every class-free history the next Logon exchange with a peer whose Logon is numbered next_num_in ends
   ACTIVE, the only frame written is our Logon under the old object's next_num_out: no ResendRequest *)
Theorem C09_restart_resumes : forall r h, class_free h = true ->
  let w := run (fresh r) h in
  let w' := restart w in
  nin w' = nin w /\ nout w' = nout w
  /\ let w2 := run w' (logon_ops (ctor w) (nin w)) in
     st w2 = Active /\ writes (log w2) = [mkF TLogon (nout w) false 0 0]
     /\ nin w2 = nin w + 1 /\ nout w2 = nout w + 1 /\ Inv w2.
Proof. intros r h H. apply restart_resumes. apply invariant_partial; auto. Qed.
Print Assumptions C09_restart_resumes.

(* former D14 (repaired: send_msg journals BEFORE it writes to the transport).  An original send that completed, and a
   death right after ANY of its effects (INSERT, counter UPDATE, COMMIT, transport write, drain; k = number of effects
   of the incarnation executed): the restarted endpoint satisfies the invariant, its next_num_out is the old one or the
   old one + 1 - the latter whenever the frame reached the transport - and in every class-free continuation (further
   restarts included) every original frame it hands to the transport carries a number ABOVE every original number the
   transport ever saw *)
Theorem C09_no_number_reuse : forall r h m w1 k,
  class_free h = true -> own_number m = false ->
  let w := run (fresh r) h in
  send_msg m w = (inl tt, w1) ->
  (length (log w) <= k <= length (log w1))%nat ->
  let w2 := crash_at k w1 in
  let f := out_frame m (nout w) in
  log w1 = log w ++ send_effects f
  /\ Inv w2 /\ nin w2 = nin w
  /\ (nout w2 = nout w \/ nout w2 = nout w + 1)
  /\ (In f (allwire w2) -> nout w2 = nout w + 1)
  /\ forall h', class_free h' = true ->
       forall g f', In g (allwire w2) -> original g = true ->
                    In f' (skipn (length (allwire w2)) (allwire (run w2 h'))) -> original f' = true ->
                    f_seq g < f_seq f'.
Proof.
  intros r h m w1 k Hc Hm w Hs Hk w2 f.
  destruct (crash_in_send w m w1 k (invariant_partial r h Hc) (run_below r h Hc) Hm Hs Hk) as (L & I2 & B2 & N2 & O2 & F2).
  repeat (split; [assumption|]).
  intros h' Hc' g f'. apply never_reused; auto.
Qed.
Print Assumptions C09_no_number_reuse.

(* the former D14 witness, all six crash points of the send of an application message: next_num_out restored and what
   the transport saw after the Logon *)
Example C09_send_crash_points :
  length (log (run (fresh Acceptor) acc_logon)) = 8%nat /\ length (log w_send9) = 13%nat
  /\ map (fun k => (nout (crash_at k w_send9), skipn 1 (allwire (crash_at k w_send9)))) [8; 9; 10; 11; 12; 13]%nat
     = [(2, []); (2, []); (2, []); (3, []); (3, [app_frame 2 9]); (3, [app_frame 2 9])].
Proof. vm_compute. repeat split; reflexivity. Qed.
Print Assumptions C09_send_crash_points.

(* death after the journal commit and before the transport write: the journaled, unsent message is recovered by the
   peer's ResendRequest as a PossDup copy (legitimate: the message really was lost) *)
Example C09_journaled_unwritten_recovered :
  let w2 := run (crash_at 11 w_send9) [OConnect; OIn (logon_frame 2); OIn (mkF TResend 3 false 2 0)] in
  st w2 = Active /\ nin w2 = 4 /\ nout w2 = 4
  /\ writes (log w2) = [logon_frame 3; mkF TApp 2 true 9 0; mkF TSeqReset 3 false 4 1].
Proof. vm_compute. repeat split; reflexivity. Qed.
Print Assumptions C09_journaled_unwritten_recovered.

(* a send whose transport RAISES - in write() (d = false: nothing reaches the wire) or in drain() after write() took the
   bytes (d = true) - with the exception going to the caller and the object living on: nothing is undone, the journal row
   stays and the number is spent; whatever follows (traffic, restarts) never uses again a number the transport saw *)
Theorem C09_transport_fault_keeps_number : forall r h d m w',
  class_free h = true -> own_number m = false ->
  let w := run (fresh r) h in
  send_fault d m w = (inr XIO, w') ->
  let f := out_frame m (nout w) in
  Inv w' /\ nout w' = nout w + 1 /\ sout (jt w') = nout w /\ In f (rout (jt w'))
  /\ writes (log w') = writes (log w) ++ (if d then [f] else [])
  /\ nout (restart w') = nout w + 1
  /\ forall h', class_free h' = true ->
       forall g f', In g (allwire w') -> original g = true ->
                    In f' (skipn (length (allwire w')) (allwire (run w' h'))) -> original f' = true ->
                    f_seq g < f_seq f'.
Proof.
  intros r h d m w' Hc Hm w Hs f.
  destruct (fault_keeps_number w d m w' (invariant_partial r h Hc) (run_below r h Hc) Hm Hs) as (I' & B' & N' & J' & W').
  split; [exact I'|]. split; [exact N'|]. rewrite J'.
  split; [reflexivity|]. split; [apply in_or_app; right; left; reflexivity|]. split; [exact W'|].
  split; [destruct (restart_inv w' I') as (_ & _ & -> & _); exact N'|].
  intros h' Hc' g f'. apply never_reused; auto.
Qed.
Print Assumptions C09_transport_fault_keeps_number.

(* Logon, order A (2), order B (3) leaves before drain() raises, restart: next_num_out 4, the new Logon is numbered 4 *)
Example C09_drain_fault_then_restart :
  class_free h_drain_fault = true /\
  let w := run (fresh Initiator) h_drain_fault in
  nout w = 4 /\ sout (jt w) = 3 /\ writes (log w) = [logon_frame 1; app_frame 2 1; app_frame 3 2]
  /\ nout (restart w) = 4
  /\ writes (log (run (restart w) [OConnect; OSend (logon_frame 0)])) = [logon_frame 4].
Proof. vm_compute. repeat split; reflexivity. Qed.
Print Assumptions C09_drain_fault_then_restart.

(* former D22 (repaired: an in-sequence Logout of the peer is counted and journaled before the session is torn down):
   the peer sent 1 (Logon) and 2 (Logout); next_num_in is 3, stored 2; after the restart the peer's Logon numbered 3 is
   accepted: ACTIVE, no ResendRequest *)
Example C09_peer_logout_counted :
  class_free h_d22 = true /\ inbound_seqs h_d22 = [1; 2] /\
  let w := run (fresh Acceptor) h_d22 in
  Stored_eq w /\ nin w = 3 /\ sin (jt w) = 2 /\ rin (jt w) = [1; 2] /\ st w = Disc /\ nin (restart w) = 3
  /\ let w2 := run (restart w) (logon_ops Acceptor 3) in
     has_resend (writes (log w2)) = false /\ st w2 = Active.
Proof. vm_compute. repeat split; reflexivity. Qed.
Print Assumptions C09_peer_logout_counted.

(* once the Logon exchange has completed (RESENDREQ_HANDLING, RECV_SEQNUM_TOO_HIGH, RESENDREQ_AWAITING, ACTIVE) every in-sequence
   application message, Heartbeat, TestRequest and Logout is counted and journaled under its own number; from ANY world
   satisfying the invariant *)
Theorem C09_accepted_counted : forall f w, Inv w -> counted_type (f_type f) = true -> f_seq f = nin w ->
  established (st w) = true ->
  let w' := run_op w (OIn f) in
  nin w' = nin w + 1 /\ sin (jt w') = nin w /\ Inv w'.
Proof. exact accepted_counted. Qed.
Print Assumptions C09_accepted_counted.

(* before that, nothing but Logon / Logout is acceptable: the connection is dropped, nothing counted, nothing delivered *)
Example C09_logon_exchange_gate :
  let w := run (fresh Initiator) [OConnect; OSend (logon_frame 0); OIn (app_frame 1 5)] in
  st w = Disc /\ nin w = 1 /\ sin (jt w) = 0 /\ dlv w = [] /\ writes (log w) = [logon_frame 1].
Proof. vm_compute. repeat split; reflexivity. Qed.
Print Assumptions C09_logon_exchange_gate.

(* ... and the Logout also ends the session *)
Theorem C09_peer_logout_counted_general : forall f w, Inv w -> f_type f = TLogout -> f_seq f = nin w ->
  is_disc (st w) = false -> cstate_eqb (st w) NCE = false ->
  let w' := run_op w (OIn f) in
  nin w' = nin w + 1 /\ sin (jt w') = nin w /\ Inv w' /\ is_disc (st w') = true.
Proof. exact logout_counted. Qed.
Print Assumptions C09_peer_logout_counted_general.

(* a duplicate inbound row (gap fill onto its own number, then that number): the live counter advances, the journal does
   not, DuplicateSeqNoError escapes _process_message *)
Example C09_duplicate_inbound_row :
  let w := run (fresh Acceptor) (acc_logon ++ [OIn (mkF TSeqReset 2 false 2 1)]) in
  nin w = 2 /\ sin (jt w) = 2 /\ has_in (jt w) 2 = true /\
  let (r, w') := step (OIn (app_frame 2 1)) w in
  r = inr XDup /\ nin w' = 3 /\ sin (jt w') = 2 /\ rin (jt w') = rin (jt w).
Proof. vm_compute. repeat split; reflexivity. Qed.
Print Assumptions C09_duplicate_inbound_row.

(* non-vacuity: a class-free history with a gap, our ResendRequest, replay, gap fills, a TestRequest answered, a peer
   ResendRequest serviced completely, a restart, the next Logon exchange and a send *)
Example C09_nonvacuous :
  class_free h_nonvac = true
  /\ let w := run (fresh Acceptor) h_nonvac in
     nin w = 10 /\ nout w = 7 /\ sin (jt w) = 9 /\ sout (jt w) = 6 /\ st w = Active /\ dlv w = [].
Proof. vm_compute. repeat split; reflexivity. Qed.
Print Assumptions C09_nonvacuous.
