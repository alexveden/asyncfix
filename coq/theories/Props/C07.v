(* C07 - no application message is lost, duplicated or reordered across connection loss.
   The theorems (the lemmas they follow from are in AF.Lemmas.NetL).  The model is Fix/Net.v: two worlds of the session
   model Fix/Session.v (A = initiator object, B = acceptor object), two FIFO channels, and the actions
   ASend / ADeliver / ABreak / AReconnect;  `settle fuel s` = drain what is in flight, and when the
   link is down afterwards: reconnect (same objects, retained journals and counters) + Logon + drain;
   `holds s` = the property decided on a settled state (quiescent, both ACTIVE, next_in of each =
   next_out of the other, each application received exactly the peer's accepted / committed sends, in order;
   committed = the call raised from the dead transport after the message had been journaled, see Net.do_send).

   THE PROPERTY AT FULL STRENGTH is
       forall l : list action, exists f0, forall fuel, f0 <= fuel -> holds (settle fuel (run net0 l)) = true.
   It is NOT proved in this generality.  PROVED, each for all sizes (induction; the only bound is 64-bit numbers):
     C07_single_break, C07_single_break_B_to_A   one break, traffic in one direction, last k in flight;
     C07_single_break_both                       one break, both applications have sent (A's n, then B's m), the
                                                 last ka of A's and the last kb of B's in flight, all ka, kb;
     C07_repeated_breaks                         A -> B, then any number of further breaks during the retransmission;
     C07_repeated_breaks_with_B_traffic          the same when B has sent too and all of B's messages had arrived;
     C07_failed_write                            the link dies inside a send_msg (journaled, write raises);
     C07_logon_cut_repaired, C07_logon_cut       the FIRST Logon exchange is cut at either moment, repaired, and
                                                 then n messages are sent and delivered.
   NOT proved, EXPLORED only (harness/c07.py: model BFS with exact state hashing + two real connection objects; no
   failing state is known): sends whose order in time interleaves the two sides (payload naming), sends and
   deliveries interleaved with the Logon exchange / the recovery, further breaks when BOTH ends miss messages,
   further breaks on the B -> A side, breaks at other moments of a recovery.  That is exploration, not proof.
   The model is the code with all repairs up to round 13 (before the D12 repair of _process_resend two breaks with a
   resend reply in flight lost messages for good; the former witnesses are the positive Examples
   C07_double_break_recovers, C07_gap_fill_lost_recovers). *)
From Coq Require Import ZArith NArith List Bool.
From AF Require Import Base.Sx Py.Str Fix.Session Fix.Net Lemmas.NetL.
Import ListNotations.
Open Scope Z_scope.

(* First Logon exchange; A's application sends n messages (payloads m1 .. mn); the first n - k reach
   B; the link breaks with the last k in flight (they are lost; both ends run their disconnect path);
   then: new transport for the same two objects, Logon(next_out) from the initiator, everything in
   flight delivered until nothing is pending.  Then (`recovered`): the network is quiescent, both ends
   are ACTIVE, next_in of each = next_out of the other, all n sends had been accepted, B's application
   has been handed exactly m1 .. mn once and in order, nothing went the other way, and `holds` is true.
   Also: at the break no reply to a ResendRequest is in flight. *)
Theorem C07_single_break : forall (n k fuel : nat),
  (k <= n)%nat -> Z.of_nat n + 3 <= 9223372036854775807 -> (k + 4 <= fuel)%nat ->
  let before_break :=
    [AReconnect; ADeliver SB; ADeliver SA] ++ repeat (ASend SA) (n - k + k) ++ repeat (ADeliver SB) (n - k) in
  let s := settle fuel (run net0 (before_break ++ [ABreak])) in
  reply_in_flight (run net0 before_break) = false
  /\ quiescent s = true
  /\ st (wa s) = ST_ACTIVE /\ st (wb s) = ST_ACTIVE
  /\ nin (wa s) = nout (wb s) /\ nin (wb s) = nout (wa s)
  /\ sa s = texts 1 n /\ gb s = map Some (texts 1 n) /\ sb s = [] /\ ga s = []
  /\ holds s = true.
Proof.
  intros n k fuel K B F. cbv zeta. fold (sched_before (n - k) k). rewrite sched_before_is_both.
  destruct (one_break (n - k) k 0 0 fuel) as [R H];
    [unfold I64MAX; Lia.lia | unfold I64MAX; Lia.lia | destruct k; cbn [deliveries]; Lia.lia |].
  replace (n - k + k)%nat with n in H by Lia.lia. exact (conj R H).
Qed.
Print Assumptions C07_single_break.

(* The mirror image: B's application sends n messages, the first n - k reach A, the last k are in flight
   when the link breaks.  (Here the Logon of the initiator is numbered as expected, the acceptor's Logon
   REPLY is too high for A; A sends the ResendRequest and B replays.)  Same conclusion with the roles
   exchanged.  Traffic in flight in BOTH directions at the break is not covered by a theorem: explored. *)
Theorem C07_single_break_B_to_A : forall (n k fuel : nat),
  (k <= n)%nat -> Z.of_nat n + 3 <= 9223372036854775807 -> (k + 4 <= fuel)%nat ->
  let before_break :=
    [AReconnect; ADeliver SB; ADeliver SA] ++ repeat (ASend SB) (n - k + k) ++ repeat (ADeliver SA) (n - k) in
  let s := settle fuel (run net0 (before_break ++ [ABreak])) in
  reply_in_flight (run net0 before_break) = false
  /\ quiescent s = true
  /\ st (wa s) = ST_ACTIVE /\ st (wb s) = ST_ACTIVE
  /\ nin (wa s) = nout (wb s) /\ nin (wb s) = nout (wa s)
  /\ sb s = texts 1 n /\ ga s = map Some (texts 1 n) /\ sa s = [] /\ gb s = []
  /\ holds s = true.
Proof.
  intros n k fuel K B F. cbv zeta.
  destruct (one_break 0 0 (n - k) k fuel) as [R [Q [A1 [A2 [N1 [N2 [S1 [G1 [S2 [G2 H]]]]]]]]]];
    [unfold I64MAX; Lia.lia | unfold I64MAX; Lia.lia | destruct k; cbn [deliveries]; Lia.lia |].
  replace (n - k + k)%nat with n in S2, G2 by Lia.lia. repeat split; assumption.
Qed.
Print Assumptions C07_single_break_B_to_A.

(* BOTH DIRECTIONS AT ONCE.  First Logon exchange; A's application sends n = da + ka messages (payloads m1 .. mn),
   then B's application sends m = db + kb (payloads m(n+1) .. m(n+m)); the first da of A's reach B and the first db of
   B's reach A; the link breaks with the last ka of A's AND the last kb of B's in flight.  Reconnect + Logon + drain:
   when both ends miss something the Logon exchange carries two gaps, both ends send a ResendRequest, each services
   the other's request while itself waiting for its own resend.  Conclusion: quiescent, both ACTIVE, next_in of each
   = next_out of the other, B's application got exactly m1 .. mn and A's exactly m(n+1) .. m(n+m), once and in order.
   For ALL da, ka, db, kb (four cases: nothing / only B / only A / both miss something).
   The sends are in block order (all of A's, then all of B's): interleaving them differently in time changes only
   which payload names each side uses (the names come from one shared counter), not the session-level behaviour;
   that general naming is not covered by the theorem. *)
Theorem C07_single_break_both : forall (da ka db kb fuel : nat),
  Z.of_nat (da + ka) + 5 <= 9223372036854775807 -> Z.of_nat (db + kb) + 5 <= 9223372036854775807 ->
  (ka + kb + 6 <= fuel)%nat ->
  let n := (da + ka)%nat in
  let m := (db + kb)%nat in
  let schedule :=
    ([AReconnect; ADeliver SB; ADeliver SA] ++ repeat (ASend SA) n ++ repeat (ASend SB) m
     ++ repeat (ADeliver SB) da ++ repeat (ADeliver SA) db) ++ [ABreak] in
  let s := settle fuel (run net0 schedule) in
  quiescent s = true
  /\ st (wa s) = ST_ACTIVE /\ st (wb s) = ST_ACTIVE
  /\ nin (wa s) = nout (wb s) /\ nin (wb s) = nout (wa s)
  /\ sa s = texts 1 n /\ gb s = map Some (texts 1 n)
  /\ sb s = texts (1 + Z.of_nat n) m /\ ga s = map Some (texts (1 + Z.of_nat n) m)
  /\ holds s = true.
Proof.
  intros da ka db kb fuel B1 B2 F. cbv zeta.
  apply (one_break da ka db kb fuel); [unfold I64MAX; Lia.lia | unfold I64MAX; Lia.lia | destruct ka, kb; cbn [deliveries]; Lia.lia].
Qed.
Print Assumptions C07_single_break_both.

(* computed instance: A sends 3, B sends 2; two of A's and one of B's are in flight at the break *)
Example C07_single_break_both_instance :
  let s := settle 20 (run net0 (sched_before_both 1 2 1 1 ++ [ABreak])) in
  holds s = true /\ gb s = map Some (texts 1 3) /\ ga s = map Some (texts 4 2)
  /\ nin (wa s) = nout (wb s) /\ nin (wb s) = nout (wa s).
Proof. vm_compute. repeat split. Qed.
Print Assumptions C07_single_break_both_instance.

(* BOTH APPLICATIONS HAVE SENT, THEN ANY NUMBER OF BREAKS (partial answer to "C07_single_break_both followed by
   further breaks").  A sends n = da + k + 1, then B sends m = db; ALL of B's messages have reached A, the last
   k + 1 of A's are in flight at the first break; then one further break per element of js as in
   C07_repeated_breaks.  Conclusion as in C07_single_break_both.  NOT covered by a theorem: further breaks when A
   misses messages of B as well (then both ends send a ResendRequest in every round and the journals of both ends
   end in alternating Logon / ResendRequest rows; the general-position lemma `recovery_AB` handles one such
   round, the step lemma and the induction over rounds for that shape are not done) - explored only. *)
Theorem C07_repeated_breaks_with_B_traffic : forall (da k db : nat) (js : list nat) (fuel : nat),
  fits (S k) js ->
  Z.of_nat (da + S k) + 5 + 2 * Z.of_nat (length js) <= 9223372036854775807 ->
  Z.of_nat db + 5 + 2 * Z.of_nat (length js) <= 9223372036854775807 ->
  (S k + 4 <= fuel)%nat ->
  let n := (da + S k)%nat in
  let m := (db + 0)%nat in
  let one_more_break (j : nat) :=
    [ADeliver SB; ADeliver SA; ADeliver SA] ++ repeat (ADeliver SB) j ++ [ABreak; AReconnect] in
  let schedule :=
    ([AReconnect; ADeliver SB; ADeliver SA] ++ repeat (ASend SA) n ++ repeat (ASend SB) m
     ++ repeat (ADeliver SB) da ++ repeat (ADeliver SA) db)
    ++ [ABreak; AReconnect] ++ flat_map one_more_break js in
  let s := drain fuel (run net0 schedule) in
  quiescent s = true
  /\ st (wa s) = ST_ACTIVE /\ st (wb s) = ST_ACTIVE
  /\ nin (wa s) = nout (wb s) /\ nin (wb s) = nout (wa s)
  /\ sa s = texts 1 n /\ gb s = map Some (texts 1 n)
  /\ sb s = texts (1 + Z.of_nat n) m /\ ga s = map Some (texts (1 + Z.of_nat n) m)
  /\ holds s = true.
Proof. exact repeated_breaks_B_traffic. Qed.
Print Assumptions C07_repeated_breaks_with_B_traffic.

Example C07_repeated_breaks_with_B_traffic_instance :
  let s := drain 20 (run net0 (sched_before_both 1 3 2 0 ++ [ABreak; AReconnect] ++ rounds [1; 0; 1]%nat)) in
  holds s = true /\ gb s = map Some (texts 1 4) /\ ga s = map Some (texts 5 2)
  /\ nin (wa s) = nout (wb s) /\ nin (wb s) = nout (wa s).
Proof. vm_compute. repeat split. Qed.
Print Assumptions C07_repeated_breaks_with_B_traffic_instance.

(* A BREAK DURING THE FIRST LOGON EXCHANGE, before the session is established: with the initiator's Logon in flight
   (i = 0: REC BRK) or with the acceptor's Logon reply in flight (i = 1: REC dB BRK; here B is already ACTIVE, A is
   not).  Part 1: reconnect + Logon + drain (`settle`, any fuel >= 8) repairs it: both ends ACTIVE, numbers agree
   (the lost Logon / Logon reply is gap-filled through a ResendRequest).  Part 2: for every n, after the cut and
   the (explicitly scheduled) repair A's application sends n messages and all of them are delivered, once and in
   order: the session is established and nothing is lost. *)
Theorem C07_logon_cut_repaired : forall (i f : nat),
  let s := settle (8 + f) (run net0 (cut_prefix i)) in
  quiescent s = true /\ st (wa s) = ST_ACTIVE /\ st (wb s) = ST_ACTIVE
  /\ nin (wa s) = nout (wb s) /\ nin (wb s) = nout (wa s) /\ holds s = true
  /\ s = run net0 (sched_logon_cut i).
Proof.
  intros i f. cbv zeta. rewrite settle_cut, logon_cut_repaired. destruct i; vm_compute; repeat split.
Qed.
Print Assumptions C07_logon_cut_repaired.

Theorem C07_logon_cut : forall (i n : nat),
  Z.of_nat n + 6 <= 9223372036854775807 ->
  let s := run net0 (sched_logon_cut i ++ repeat (ASend SA) n ++ repeat (ADeliver SB) n) in
  quiescent s = true
  /\ st (wa s) = ST_ACTIVE /\ st (wb s) = ST_ACTIVE
  /\ nin (wa s) = nout (wb s) /\ nin (wb s) = nout (wa s)
  /\ sa s = texts 1 n /\ gb s = map Some (texts 1 n) /\ sb s = [] /\ ga s = []
  /\ holds s = true.
Proof.
  intros i n B. cbv zeta. rewrite run_app, logon_cut_repaired.
  destruct i; apply up_sends; auto with jw; unfold I64MAX; Lia.lia.
Qed.
Print Assumptions C07_logon_cut.

(* the two cut schedules, and a computed instance (i = 1, n = 2) *)
Example C07_logon_cut_schedules :
  cut_prefix 0 = [AReconnect; ABreak] /\ cut_prefix 1 = [AReconnect; ADeliver SB; ABreak]
  /\ sched_logon_cut 0 = [AReconnect; ABreak; AReconnect; ADeliver SB; ADeliver SA; ADeliver SA; ADeliver SB]
  /\ sched_logon_cut 1 = [AReconnect; ADeliver SB; ABreak; AReconnect; ADeliver SB; ADeliver SA; ADeliver SB; ADeliver SA].
Proof. repeat split. Qed.
Print Assumptions C07_logon_cut_schedules.

Example C07_logon_cut_instance :
  let s := run net0 (sched_logon_cut 1 ++ repeat (ASend SA) 2 ++ repeat (ADeliver SB) 2) in
  holds s = true /\ gb s = map Some (texts 1 2) /\ nin (wb s) = 6 /\ nout (wa s) = 6 /\ nin (wa s) = 3 /\ nout (wb s) = 3.
Proof. vm_compute. repeat split. Qed.
Print Assumptions C07_logon_cut_instance.

(* A BREAK POINT INSIDE A SEND.  As C07_single_break (d delivered, k in flight), but the link dies while A's
   application is inside one more send_msg: the message has been journaled under its number (send_msg journals
   before it writes), write()/drain() raise, the caller sees an exception, nothing reaches the wire, both ends
   disconnect.  The send is COMMITTED (`sa` lists accepted and committed sends): after reconnect + Logon + drain
   B's application has received all d + k + 1 messages, the last one included, once and in order. *)
Theorem C07_failed_write : forall (d k fuel : nat),
  Z.of_nat (d + S k) + 3 <= 9223372036854775807 -> (S k + 4 <= fuel)%nat ->
  let schedule :=
    ([AReconnect; ADeliver SB; ADeliver SA] ++ repeat (ASend SA) (d + k) ++ repeat (ADeliver SB) d)
    ++ [ASendFail SA] in
  let s := settle fuel (run net0 schedule) in
  quiescent s = true
  /\ st (wa s) = ST_ACTIVE /\ st (wb s) = ST_ACTIVE
  /\ nin (wa s) = nout (wb s) /\ nin (wb s) = nout (wa s)
  /\ sa s = texts 1 (d + S k) /\ gb s = map Some (texts 1 (d + S k)) /\ sb s = [] /\ ga s = []
  /\ holds s = true.
Proof.
  intros d k fuel B F. cbv zeta. fold (sched_before d k). rewrite at_failed_write by exact B.
  apply (settle_broken d (S k) 0 0); cbn [deliveries]; unfold I64MAX; Lia.lia.
Qed.
Print Assumptions C07_failed_write.

Example C07_failed_write_instance :
  let s := settle 20 (run net0 ([AReconnect; ADeliver SB; ADeliver SA; ASend SA; ASend SA; ADeliver SB; ASend SA; ASendFail SA])) in
  holds s = true /\ sa s = texts 1 4 /\ gb s = map Some (texts 1 4) /\ nin (wb s) = 7 /\ nout (wa s) = 7.
Proof. vm_compute. repeat split. Qed.
Print Assumptions C07_failed_write_instance.

(* ANY NUMBER OF BREAKS of the following kind.  A sends n = d + k + 1 messages, d reach B, the link breaks with
   the last k + 1 in flight.  Then, for every j in the list js (one more break per element): reconnect + Logon,
   B answers (Logon reply + ResendRequest), A takes the reply and services the request (retransmissions + gap
   fill), j of the retransmissions still missing reach B, and the link breaks AGAIN with the remaining
   retransmissions and the gap fill in flight (`fits`: j never exceeds what is still missing).  After the last
   break: reconnect + Logon + drain.  Conclusion as in C07_single_break: nothing lost, duplicated or reordered,
   both ACTIVE, numbers agree.  Unbounded in d, k, the number of breaks and every j (induction on js; the model
   is the code WITH the D12 repair - before it this family lost messages from the second break on).
   Breaks at other moments of the recovery, and with traffic of B in flight, are explored only. *)
Theorem C07_repeated_breaks : forall (d k : nat) (js : list nat) (fuel : nat),
  fits (S k) js ->
  Z.of_nat (d + S k) + 5 + 2 * Z.of_nat (length js) <= 9223372036854775807 -> (S k + 4 <= fuel)%nat ->
  let one_more_break (j : nat) :=
    [ADeliver SB; ADeliver SA; ADeliver SA] ++ repeat (ADeliver SB) j ++ [ABreak; AReconnect] in
  let schedule :=
    ([AReconnect; ADeliver SB; ADeliver SA] ++ repeat (ASend SA) (d + S k) ++ repeat (ADeliver SB) d)
    ++ [ABreak; AReconnect] ++ flat_map one_more_break js in
  let s := drain fuel (run net0 schedule) in
  quiescent s = true
  /\ st (wa s) = ST_ACTIVE /\ st (wb s) = ST_ACTIVE
  /\ nin (wa s) = nout (wb s) /\ nin (wb s) = nout (wa s)
  /\ sa s = texts 1 (d + S k) /\ gb s = map Some (texts 1 (d + S k)) /\ sb s = [] /\ ga s = []
  /\ holds s = true.
Proof.
  intros d k js fuel F B Fu. cbv zeta. fold (sched_before d (S k)). rewrite sched_before_is_both.
  apply (repeated_breaks_B_traffic d k 0 js fuel F B); unfold I64MAX; Lia.lia.
Qed.
Print Assumptions C07_repeated_breaks.

(* `fits k js`: each j of js is at most what is still missing (k minus the earlier ones) *)
Example C07_fits : fits 4 [1; 0; 2]%nat /\ ~ fits 2 [1; 2]%nat.
Proof. cbn. split; [repeat split; auto with arith | intros [_ [H _]]; inversion H as [|? H1]; inversion H1]. Qed.
Print Assumptions C07_fits.

(* computed instance (non-vacuity): n = 5, four in flight, then three more breaks after 1, 0 and 2 retransmissions *)
Example C07_repeated_breaks_instance :
  let s := drain 20 (run net0 (sched_before 1 4 ++ [ABreak; AReconnect] ++ rounds [1; 0; 2]%nat)) in
  holds s = true /\ gb s = map Some (texts 1 5) /\ nin (wb s) = 11 /\ nout (wa s) = 11 /\ nin (wa s) = 10 /\ nout (wb s) = 10.
Proof. vm_compute. repeat split. Qed.
Print Assumptions C07_repeated_breaks_instance.

(* `texts 1 n` is the list of the payload texts "m1" .. "mn" *)
Example C07_texts : texts 1 3 = [payload 1; payload 2; payload 3] /\ payload 17 = [109; 49; 55]%N.
Proof. split; reflexivity. Qed.
Print Assumptions C07_texts.

(* D13 (repaired by the D12 fix: _process_resend no longer rewrites the journal).  Second break while the
   replies to the ResendRequest (the retransmission with PossDupFlag and the gap fill) are in flight: after the
   final reconnect + Logon + quiescence m1 HAS been delivered, both ends are ACTIVE, B expects 5 = A's next.
   (sched_double_break = REC dB dA sA BRK REC dB dA dA BRK; before the repair: A stuck in RESENDREQ_HANDLING
   with next_num_out rewound, B stuck in RESENDREQ_AWAITING, m1 lost.) *)
Example C07_double_break_recovers :
  let before := run net0 (firstn 9 sched_double_break) in
  let n := settle 80 (run net0 sched_double_break) in
  reply_in_flight before = true
  /\ sa n = [payload 1] /\ gb n = [Some (payload 1)] /\ quiescent n = true /\ holds n = true
  /\ st (wa n) = ST_ACTIVE /\ st (wb n) = ST_ACTIVE /\ nout (wa n) = 5 /\ nin (wb n) = 5.
Proof. vm_compute. repeat split. Qed.
Print Assumptions C07_double_break_recovers.

(* The former silent loss: a gap fill is lost, an application message is sent behind it and lost too.
   (sched_gap_fill_lost = REC BRK REC dB dA dA sA BRK; before the repair: both ACTIVE, numbers matching,
   m1 never delivered.) *)
Example C07_gap_fill_lost_recovers :
  let before := run net0 (firstn 7 sched_gap_fill_lost) in
  let n := settle 80 (run net0 sched_gap_fill_lost) in
  reply_in_flight before = true
  /\ sa n = [payload 1] /\ gb n = [Some (payload 1)] /\ quiescent n = true /\ holds n = true
  /\ st (wa n) = ST_ACTIVE /\ st (wb n) = ST_ACTIVE
  /\ nin (wa n) = nout (wb n) /\ nin (wb n) = nout (wa n).
Proof. vm_compute. repeat split. Qed.
Print Assumptions C07_gap_fill_lost_recovers.

(* non-vacuity, by computation in the kernel: n = 3, k = 2 (numbers after recovery: B expects 6 = A's next) *)
Example C07_family_instance :
  let n := settle 10 (run net0 (sched_before 1 2 ++ [ABreak])) in
  holds n = true /\ gb n = [Some (payload 1); Some (payload 2); Some (payload 3)]
  /\ nin (wb n) = 6 /\ nout (wa n) = 6 /\ nin (wa n) = 4 /\ nout (wb n) = 4.
Proof. vm_compute. repeat split. Qed.
Print Assumptions C07_family_instance.

(* computed instances of the mirror direction and of both directions in flight at the break
   (bounded instances: the general statements for these are explored by the harness, not proved) *)
Example C07_instance_B_to_A :
  holds (settle 20 (run net0 [AReconnect; ADeliver SB; ADeliver SA; ASend SB; ASend SB; ADeliver SA; ABreak])) = true.
Proof. vm_compute. reflexivity. Qed.
Print Assumptions C07_instance_B_to_A.

Example C07_instance_both_directions :
  holds (settle 20 (run net0 [AReconnect; ADeliver SB; ADeliver SA; ASend SA; ASend SB; ASend SA; ABreak])) = true.
Proof. vm_compute. reflexivity. Qed.
Print Assumptions C07_instance_both_directions.

(* the state / role numbers, the application message type and sys.maxsize used by Net.v are the code's *)
Example C07_constants_tied : net_constants_ok = true.
Proof. vm_compute. reflexivity. Qed.
Print Assumptions C07_constants_tied.
