(* C17 - an order object converges to the exchange's view of the order.
   The theorems (the lemmas they follow from are in AF.Lemmas.OrderL / OrderSysL).

   Models: Fix/Order.v (FIXNewOrderSingle, parameter `legacy`: true = process_cancel_rej_report as
   found, false = with fixes/C17-cancel-reject-restores-ids.patch), Fix/Exchange.v (reference
   exchange following the FIX 4.4 order state change matrices; FIFO queue per direction; product
   system `step`, `run_from`).  Status transitions are OrderStatus.change_status, proved equal to
   the regenerated graph of the real function by C16_model_is_code.

   Known-finding classes (Exchange.bad_step / kf_hit), see *_refuted below:
     K2  the exchange expires the order while it is SUSPENDED and no request is pending there;
     K3  the exchange accepts a replace request while the order is SUSPENDED;
     D17 (legacy code only) a cancel / replace request was rejected earlier in the history.
   `clean legacy o oid acts` = no K2 / K3 step occurs while the actions `acts` run. *)
From Coq Require Import ZArith NArith List Bool.
From AF Require Import Base.Sx Py.Str Fix.OrderStatus Fix.Order Fix.Exchange Lemmas.OrderL Lemmas.OrderSysL.
Import ListNotations.
Open Scope N_scope.

(* ------------------------------------------------------------------ the object alone,
   under EVERY sequence of builder calls and reports (not only those of the reference exchange) *)

(* the status is the fold of change_status over the requests built and the reports processed *)
Theorem C17_status_is_fold : forall legacy cs o,
  o_status (orun legacy o cs) = fold_left ev_status (events legacy o cs) (o_status o).
Proof.
  intros legacy cs. induction cs as [|c cs IH]; intro o; [reflexivity|].
  cbn [orun fold_left events]. fold (orun legacy (ostep legacy o c) cs). rewrite IH, status_step.
  destruct (ev_of legacy o c); reflexivity.
Qed.
Print Assumptions C17_status_is_fold.

(* ... and (repaired code) always a member of the status enum, held as an enum object *)
Theorem C17_status_in_enum : forall cs o, senum_ok o -> senum_ok (orun false o cs).
Proof. intros cs o. apply orun_ind, senum_step. Qed.
Print Assumptions C17_status_in_enum.

(* cum / avg / order id / leaves are those of the last execution report that passed the ClOrdID
   check (leaves zeroed by a later cancel reject carrying REJECTED); price and qty change exactly on
   such reports with ExecType REPLACED, to the reported values *)
Theorem C17_fields_follow_last_report : forall legacy cs o g,
  follows o g -> follows (orun legacy o cs) (grun legacy o g cs).
Proof.
  intros legacy cs. induction cs as [|c cs IH]; intros o g H; [exact H|]. cbn [orun fold_left grun].
  apply IH, follows_step, H.
Qed.
Print Assumptions C17_fields_follow_last_report.

(* a finished order refuses every request, unchanged, and ignores the status of every execution report *)
Theorem C17_finished_refuses : forall o,
  is_finished o = true ->
  (exists e, new_req o = (o, Exc e)) /\ (exists e, cancel_req o = (o, Exc e))
  /\ (forall p q, exists e, replace_req o p q = (o, Exc e)).
Proof. exact finished_refuses. Qed.
Print Assumptions C17_finished_refuses.

Theorem C17_finished_absorbs : forall o e,
  is_finished o = true -> o_status (fst (process_execution_report o (RExec e))) = o_status o.
Proof. intros o e. exact (finished_stays false o (CRep (RExec e))). Qed.
Print Assumptions C17_finished_absorbs.

(* ... and (round 7 table) every cancel reject: it returns False, status and ids stay as they are *)
Theorem C17_finished_ignores_reject : forall legacy o clid orig st,
  is_finished o = true ->
  let ob := process_cancel_rej_report legacy o (RRej clid orig st) in
  snd ob = Ok false /\ o_status (fst ob) = o_status o /\ o_senum (fst ob) = o_senum o
  /\ o_clord (fst ob) = o_clord o /\ o_orig (fst ob) = o_orig o.
Proof.
  intros legacy o clid orig st H. cbv zeta. unfold process_cancel_rej_report. rewrite finished_no_change by exact H.
  destruct (st =? REJECTED); cbn; auto.
Qed.
Print Assumptions C17_finished_ignores_reject.

(* ClOrdID chain: the root of root--k is root; every id ever built is root--k with k = the counter,
   which grows by exactly one per request, so ids are pairwise distinct (fresh) *)
Theorem C17_clord_root_chain : forall root k, root <> [] -> clord_root (clord_id_of root k) = root.
Proof. exact clord_root_next. Qed.
Print Assumptions C17_clord_root_chain.

Theorem C17_ids_chain : forall legacy R cs o,
  owf R o ->
  ids_run legacy o cs = map (clord_id_of R) (nseq (o_cnt o + 1) (length (ids_run legacy o cs))).
Proof. exact ids_chain. Qed.
Print Assumptions C17_ids_chain.

Theorem C17_ids_fresh : forall legacy R cs o, owf R o -> NoDup (ids_run legacy o cs).
Proof.
  intros legacy R cs o Hw. rewrite (ids_chain legacy R cs o Hw). apply chain_nodup.
Qed.
Print Assumptions C17_ids_fresh.

Theorem C17_init_wellformed : forall clord ticker side price qty ordtype account target o,
  init_order clord ticker side price qty ordtype account target = Ok o ->
  owf (clord_root clord) o /\ senum_ok o /\ o_status o = CREATED /\ o_cnt o = 0 /\ o_orig o = None
  /\ o_cum o = 0%Z /\ o_leaves o = 0%Z /\ o_price o = price /\ o_qty o = qty /\ o_clord o = clord.
Proof. exact init_owf. Qed.
Print Assumptions C17_init_wellformed.

(* ------------------------------------------------------------------ the product system,
   for EVERY interleaving (action list) of client and exchange actions, both code variants *)

(* when both queues are empty the object agrees with the exchange: status (the reported status, or
   the order's own status while a request is pending there), cum, leaves, price, qty; and an order
   the exchange has finished is finished in the object and refuses every request *)
Theorem C17_converges_partial :
  forall legacy clord ticker side price qty ordtype account target o oid acts,
  init_order clord ticker side price qty ordtype account target = Ok o ->
  clean legacy o oid acts ->
  let s := reach legacy o oid acts in
  quiescent s = true ->
  agrees (s_o s) (s_x s)
  /\ (x_pend (s_x s) = None -> OrderStatus.is_finished (x_base (s_x s)) = true ->
      is_finished (s_o s) = true
      /\ (exists e, new_req (s_o s) = (s_o s, Exc e)) /\ (exists e, cancel_req (s_o s) = (s_o s, Exc e))
      /\ (forall p q, exists e, replace_req (s_o s) p q = (s_o s, Exc e))).
Proof.
  intros until acts. intros Hi Hc s Hq.
  pose proof (converges legacy s (reach_inv _ _ _ _ _ _ _ _ _ _ _ _ Hi Hc) Hq) as Ha.
  split; [exact Ha|]. intros Hp Hf.
  assert (Hfin : is_finished (s_o s) = true).
  { destruct Ha as ([Hs|[Hn _]] & _); [|congruence]. unfold is_finished. rewrite Hs. unfold x_status. rewrite Hp. exact Hf. }
  split; [exact Hfin|]. apply finished_refuses, Hfin.
Qed.
Print Assumptions C17_converges_partial.

(* repaired code: whenever can_cancel / can_replace holds the builder succeeds, the new ClOrdID is
   root--(counter+1), OrigClOrdID is the ClOrdID live at the exchange, nothing is in flight or
   pending; and the status is an enum member *)
Theorem C17_requests_wellformed_partial :
  forall clord ticker side price qty ordtype account target o0 oid acts,
  init_order clord ticker side price qty ordtype account target = Ok o0 ->
  clean false o0 oid acts ->
  let s := reach false o0 oid acts in
  let o := s_o s in
  let next_id := clord_id_of (clord_root clord) (o_cnt o + 1) in
  (can_cancel o = true ->
     snd (cancel_req o) = Ok (RCancel next_id (x_clord (s_x s)) (o_qty o))
     /\ s_c2x s = [] /\ x_pend (s_x s) = None)
  /\ (forall p q, can_replace o = true -> (rpl_px o p <> o_price o \/ rpl_qty o q <> o_qty o) ->
     snd (replace_req o p q) = Ok (RReplace next_id (x_clord (s_x s)) (rpl_px o p) (rpl_qty o q))
     /\ s_c2x s = [] /\ x_pend (s_x s) = None)
  /\ senum_ok o.
Proof.
  intros until acts. intros Hi Hc s o next_id.
  pose proof (reach_inv _ _ _ _ _ _ _ _ _ _ _ _ Hi Hc) as Hinv.
  destruct (init_owf _ _ _ _ _ _ _ _ _ Hi) as (Hw & Hse & _).
  destruct (run_from_ind false _ (owf_step false _) acts (init_sys o0 oid) Hw) as (_ & Hroot & _).
  unfold next_id. rewrite <- Hroot. split; [|split].
  - intro H. apply cancel_wellformed; assumption.
  - intros p q H1 H2. apply replace_wellformed; assumption.
  - exact (run_from_ind false senum_ok senum_step acts (init_sys o0 oid) Hse).
Qed.
Print Assumptions C17_requests_wellformed_partial.

(* at most one request is on its way, and none while the exchange still holds one *)
Theorem C17_one_outstanding :
  forall legacy clord ticker side price qty ordtype account target o oid acts,
  init_order clord ticker side price qty ordtype account target = Ok o ->
  clean legacy o oid acts ->
  let s := reach legacy o oid acts in
  (length (s_c2x s) <= 1)%nat /\ (s_c2x s <> [] -> x_pend (s_x s) = None).
Proof. intros. eapply one_outstanding, reach_inv; eauto. Qed.
Print Assumptions C17_one_outstanding.

(* the request on its way names the ClOrdID live at the exchange (the exchange never drops one) *)
Theorem C17_request_expected :
  forall legacy clord ticker side price qty ordtype account target o oid acts r q,
  init_order clord ticker side price qty ordtype account target = Ok o ->
  clean legacy o oid acts ->
  let s := reach legacy o oid acts in
  s_c2x s = r :: q ->
  q = [] /\
  match r with
  | RNew _ _ _ => x_base (s_x s) = CREATED
  | RCancel _ orig _ | RReplace _ orig _ _ =>
      x_pend (s_x s) = None /\ orig = x_clord (s_x s) /\ x_base (s_x s) <> CREATED
  end.
Proof. intros. eapply request_expected; [eapply reach_inv; eauto|eassumption]. Qed.
Print Assumptions C17_request_expected.

(* ------------------------------------------------------------------ refuted parts (known findings) *)

(* K2: expired while suspended - the object stays SUSPENDED, says it can be cancelled *)
Theorem C17_converges_suspended_expire_refuted :
  let s := run_from false w_sys w_k2 in
  quiescent s = true /\ x_pend (s_x s) = None /\ o_status (s_o s) = SUSPENDED /\ x_status (s_x s) = EXPIRED
  /\ can_cancel (s_o s) = true /\ is_finished (s_o s) = false.
Proof. vm_compute. repeat split. Qed.
Print Assumptions C17_converges_suspended_expire_refuted.

(* K3: replaced while suspended - the object stays PENDING_REPLACE for ever *)
Theorem C17_converges_suspended_replace_refuted :
  let s := run_from false w_sys w_k3 in
  quiescent s = true /\ x_pend (s_x s) = None /\ o_status (s_o s) = PENDING_REPLACE
  /\ x_status (s_x s) = SUSPENDED /\ can_cancel (s_o s) = false /\ can_replace (s_o s) = false.
Proof. vm_compute. repeat split. Qed.
Print Assumptions C17_converges_suspended_replace_refuted.

(* D17 (code as found): after a cancel reject, in a history without K2 / K3, can_cancel and
   can_replace hold but both builders fail the internal assertion, and the status is a plain str *)
Theorem C17_legacy_after_reject_refuted :
  let s := run_from true w_sys w_d17 in
  kf_hit true w_sys w_d17 = false /\ quiescent s = true
  /\ can_cancel (s_o s) = true /\ snd (cancel_req (s_o s)) = Exc EAssertion
  /\ can_replace (s_o s) = true /\ snd (replace_req (s_o s) (Some 804%Z) None) = Exc EAssertion
  /\ o_senum (s_o s) = false.
Proof. vm_compute. repeat split. Qed.
Print Assumptions C17_legacy_after_reject_refuted.

(* ... and the same history on the repaired code *)
Example C17_after_reject_repaired :
  let s := run_from false w_sys w_d17 in
  can_cancel (s_o s) = true /\ (exists r, snd (cancel_req (s_o s)) = Ok r) /\ o_senum (s_o s) = true
  /\ o_orig (s_o s) = None.
Proof. vm_compute. repeat split. eexists. reflexivity. Qed.
Print Assumptions C17_after_reject_repaired.

(* non-vacuity: a clean history (replace accepted while a fill races, a cancel refused after another
   fill, a second cancel accepted) reaches a quiescent state; on the repaired code the object ends
   CANCELED with the replaced price / qty, cum 1.5 and four ids issued *)
Example C17_nonvacuous :
  forall legacy,
  let s := run_from legacy w_sys w_live in
  kf_hit legacy w_sys w_live = false /\ quiescent s = true /\
  (legacy = false -> o_status (s_o s) = CANCELED /\ o_price (s_o s) = 804%Z /\ o_qty (s_o s) = 48%Z
                     /\ o_cum (s_o s) = 6%Z /\ o_cnt (s_o s) = 4).
Proof.
  intros [|]; vm_compute; (split; [reflexivity|]); (split; [reflexivity|]); intro H;
    [discriminate H | repeat split].
Qed.
Print Assumptions C17_nonvacuous.
